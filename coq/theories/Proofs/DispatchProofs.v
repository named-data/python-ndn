(* Proofs for C04: attach/detach frame lemmas, dispatch = longest attached prefix, invariants over
   arbitrary histories, refinement of the specification machine, reply decision. *)
From NDN Require Import Proofs.BytesLemmas Base.Prelude Model.Name Model.Trie Model.Dispatch Spec.DispatchSpec
  Proofs.TrieProofs.
Local Open Scope N_scope.

(* every stored node carries a callback: what "handlers are callables" gives, kept by every event *)
Definition all_cb (t : fib) : Prop := forall p node, t_get t p = Some node -> pn_cb node <> None.

Lemma all_cb_empty : all_cb t_empty.
Proof. intros p node H. rewrite t_get_empty in H. discriminate. Qed.

Lemma attached_empty p : attached t_empty p = None.
Proof. unfold attached. rewrite t_get_empty. reflexivity. Qed.

Lemma attached_none t k : all_cb t -> attached t k = None -> t_get t k = None.
Proof.
  intros A H. unfold attached in H. destruct (t_get t k) as [node|] eqn:E; [|reflexivity].
  exfalso. eapply A; eauto.
Qed.

Lemma a_upd_spec a p v q : a_upd a p v q = if name_eqb q p then v else a q.
Proof. reflexivity. Qed.

Lemma a_upd_same (a : amap) k v : a_upd a k v k = v.
Proof. unfold a_upd. rewrite name_eqb_refl. reflexivity. Qed.

Lemma a_upd_other (a : amap) k v q : q <> k -> a_upd a k v q = a q.
Proof. intros N. unfold a_upd. rewrite name_eqb_neq by exact N. reflexivity. Qed.

Lemma a_upd_id (a : amap) k v q : a k = v -> a_upd a k v q = a q.
Proof. intros <-. unfold a_upd. destruct (name_eqbP q k) as [->|_]; reflexivity. Qed.

Lemma fib_attach_spec fe t k h v ex :
  exists nd, pn_cb nd = h /\ forall q,
    t_get (fst (fib_attach fe t k h v ex)) q =
    match attached t k with Some _ => t_get t q | None => if name_eqb q k then Some nd else t_get t q end.
Proof.
  unfold fib_attach, t_setdefault, attached.
  set (node := match t_get t k with Some x => x | None => pnode0 end).
  assert (Hn : pn_cb node = match t_get t k with Some x => pn_cb x | None => None end)
    by (unfold node; destruct (t_get t k); reflexivity).
  rewrite <- Hn. destruct (pn_cb node) eqn:Ecb; cbn [fst].
  - exists (mk_pnode h None None). split; [reflexivity|]. intros q. rewrite t_get_set_node.
    destruct (name_eqbP q k) as [->|N]; [|reflexivity]. destruct (t_get t k) eqn:E; [reflexivity|].
    unfold node in Ecb. cbn in Ecb. discriminate.
  - eexists. split; [|intros q; unfold t_set; rewrite !t_get_set_node; destruct (name_eqb q k); reflexivity].
    destruct fe; reflexivity.
Qed.

Lemma fib_attach_res fe t k h v ex :
  snd (fib_attach fe t k h v ex) = match attached t k with Some _ => Err EValue | None => Ok tt end.
Proof.
  unfold fib_attach, t_setdefault, attached.
  destruct (t_get t k) as [nd|]; cbn; [destruct (pn_cb nd)|]; reflexivity.
Qed.

Lemma attached_attach fe t k h v ex q :
  attached (fst (fib_attach fe t k h v ex)) q =
  match attached t k with Some _ => attached t q | None => a_upd (attached t) k h q end.
Proof.
  destruct (fib_attach_spec fe t k h v ex) as (nd & C & G). unfold attached at 1, a_upd. rewrite G.
  destruct (attached t k); [reflexivity|]. destruct (name_eqb q k); [exact C|reflexivity].
Qed.

Lemma fib_attach_all_cb fe t k h v ex :
  all_cb t -> h <> None -> all_cb (fst (fib_attach fe t k h v ex)).
Proof.
  intros A Hh p nd' H. destruct (fib_attach_spec fe t k h v ex) as (nd & C & G). rewrite G in H.
  destruct (attached t k); [exact (A p nd' H)|].
  destruct (name_eqb p k); [injection H as <-; congruence|exact (A p nd' H)].
Qed.

Lemma fib_attach_pruned fe t k h v ex : t_pruned t = true -> t_pruned (fst (fib_attach fe t k h v ex)) = true.
Proof.
  intros P. unfold fib_attach, t_setdefault.
  destruct (pn_cb (match t_get t k with Some x => x | None => pnode0 end)); cbn.
  - apply t_pruned_set_node. exact P.
  - unfold t_set. apply t_pruned_set_node. apply t_pruned_set_node. exact P.
Qed.

(* [k] may have been free before: KeyError, nothing changes *)
Lemma fib_detach_spec t k q : t_get (fst (fib_detach t k)) q = if name_eqb q k then None else t_get t q.
Proof.
  unfold fib_detach. pose proof (t_del_spec t k) as S. destruct (t_del t k) as [t'|e]; cbn [fst]; [apply S|].
  destruct S as [_ G]. destruct (name_eqbP q k) as [->|N]; [exact G|reflexivity].
Qed.

Lemma fib_detach_res t k :
  snd (fib_detach t k) = match t_get t k with Some _ => Ok tt | None => Err EKey end.
Proof.
  unfold fib_detach. pose proof (t_del_spec t k) as S. destruct (t_del t k) as [t'|e]; cbn [snd].
  - destruct S as [G _]. destruct (t_get t k); [reflexivity|contradiction].
  - destruct S as [-> G]. rewrite G. reflexivity.
Qed.

Lemma attached_detach t k q : attached (fst (fib_detach t k)) q = a_upd (attached t) k None q.
Proof. unfold attached at 1, a_upd. rewrite fib_detach_spec. destruct (name_eqb q k); reflexivity. Qed.

Lemma fib_detach_all_cb t k : all_cb t -> all_cb (fst (fib_detach t k)).
Proof.
  intros A p nd H. rewrite fib_detach_spec in H. destruct (name_eqb p k); [discriminate|exact (A p nd H)].
Qed.

Lemma fib_detach_pruned t k : t_pruned t = true -> t_pruned (fst (fib_detach t k)) = true.
Proof.
  intros P. unfold fib_detach. destruct (t_del t k) eqn:D; cbn; [|exact P]. eapply t_pruned_del; eauto.
Qed.

Definition cb_of (nd : pnode) : N := match pn_cb nd with Some h => h | None => 0 end.

Lemma attached_map t : all_cb t -> forall p, attached t p = option_map cb_of (t_get t p).
Proof.
  intros A p. unfold attached, cb_of. destruct (t_get t p) as [nd|] eqn:E; [|reflexivity]. cbn.
  destruct (pn_cb nd) eqn:C; [reflexivity|]. exfalso. eapply A; eauto.
Qed.

Lemma longest_prefix_cb t n p nd : all_cb t -> t_longest_prefix t n = Some (p, nd) -> pn_cb nd <> None.
Proof.
  intros A H. rewrite t_longest_prefix_lp in H. destruct (lp_fun_some _ _ _ _ H) as (G & _). exact (A p nd G).
Qed.

Lemma dispatch_lp t n : all_cb t -> dispatch t n = option_map snd (lp_fun (attached t) n).
Proof.
  intros A. rewrite (lp_fun_rel (t_get t) (attached t) cb_of n (attached_map t A)), <- t_longest_prefix_lp.
  unfold dispatch, fib_lookup. destruct (t_longest_prefix t n) as [[p nd]|] eqn:E; [|reflexivity].
  pose proof (longest_prefix_cb t n p nd A E) as C. cbn. unfold cb_of. destruct (pn_cb nd); [reflexivity|contradiction].
Qed.

Theorem dispatch_lpm t n h :
  all_cb t -> (dispatch t n = Some h <-> exists p, is_lpm (attached t) n p h).
Proof.
  intros A. rewrite dispatch_lp by exact A. split.
  - destruct (lp_fun (attached t) n) as [[p h']|] eqn:E; [|discriminate]. intros [= ->]. exists p. apply lp_fun_some, E.
  - intros [p H]. rewrite (lp_fun_complete _ _ _ _ H). reflexivity.
Qed.

Theorem dispatch_none t n :
  all_cb t -> (dispatch t n = None <-> forall p, prefix p n -> attached t p = None).
Proof.
  intros A. rewrite dispatch_lp by exact A. pose proof (lp_fun_spec (attached t) n) as S.
  destruct (lp_fun (attached t) n) as [[p h']|]; cbn; split; intros H.
  - discriminate.
  - destruct S as (G & P & _). rewrite (H p P) in G. discriminate.
  - exact S.
  - reflexivity.
Qed.

Lemma step_attach fe s k h v ex :
  step fe s (OAttach k h v ex) =
  (mk_st (fst (fib_attach fe (s_fib s) k h v ex)) (s_pending s) (s_calls s),
   match attached (s_fib s) k with Some _ => ObErr EValue | None => ObOk end).
Proof.
  cbn [step]. pose proof (fib_attach_res fe (s_fib s) k h v ex) as E.
  destruct (fib_attach fe (s_fib s) k h v ex) as [t r]. cbn [fst snd] in *. subst r.
  destruct (attached (s_fib s) k); reflexivity.
Qed.

Lemma step_detach fe s k :
  all_cb (s_fib s) ->
  step fe s (ODetach k) =
  (mk_st (fst (fib_detach (s_fib s) k)) (s_pending s) (s_calls s),
   match attached (s_fib s) k with Some _ => ObOk | None => ObErr EKey end).
Proof.
  intros A. cbn [step]. pose proof (fib_detach_res (s_fib s) k) as E.
  destruct (fib_detach (s_fib s) k) as [t r]. cbn [fst snd] in *. subst r. destruct (attached (s_fib s) k) eqn:Ea.
  - unfold attached in Ea. destruct (t_get (s_fib s) k); [reflexivity|discriminate].
  - rewrite (attached_none _ _ A Ea). reflexivity.
Qed.

(* an Interest: the selected handler gets one invocation (queued in the app front-ends, made on the spot by
   Dispatcher.dispatch); with callable handlers Dispatcher's TypeError cannot occur *)
Lemma step_recv fe s n life now :
  all_cb (s_fib s) ->
  let hit := match dispatch (s_fib s) n with
             | Some h => [mk_call h n (deadline_of fe life now)]
             | None => []
             end in
  step fe s (ORecv n life now) =
  match fe with
  | FE_Disp => (mk_st (s_fib s) (s_pending s) (s_calls s ++ hit),
                ObDispatch (match hit with [] => false | _ => true end) hit)
  | _ => (mk_st (s_fib s) (s_pending s ++ hit) (s_calls s), ObRecv (fib_lookup (s_fib s) n))
  end.
Proof.
  intros A. destruct s as [t pe ca]. cbn [s_fib] in A. unfold dispatch. cbn [step s_fib s_pending s_calls].
  unfold fib_lookup. destruct (t_longest_prefix t n) as [[p nd]|] eqn:E.
  - pose proof (longest_prefix_cb t n p nd A E) as C. destruct (pn_cb nd); [|contradiction]. destruct fe; reflexivity.
  - destruct fe; cbn; rewrite app_nil_r; reflexivity.
Qed.

Lemma step_fib fe s o :
  s_fib (fst (step fe s o)) =
  match o with
  | OAttach k h v ex => fst (fib_attach fe (s_fib s) k h v ex)
  | ODetach k => fst (fib_detach (s_fib s) k)
  | OCleanUp => match fe with FE_V1 => t_empty | _ => s_fib s end
  | _ => s_fib s
  end.
Proof.
  destruct o as [k h v ex|k|n life now| |i now running|]; cbn [step].
  - destruct (fib_attach fe (s_fib s) k h v ex). reflexivity.
  - destruct (fib_detach (s_fib s) k). reflexivity.
  - destruct fe; [destruct (fib_lookup (s_fib s) n); reflexivity..|].
    destruct (t_longest_prefix (s_fib s) n) as [[p nd]|]; [destruct (pn_cb nd)|]; reflexivity.
  - reflexivity.
  - destruct fe; try reflexivity. destruct (nth_error (s_calls s) i); reflexivity.
  - destruct fe; reflexivity.
Qed.

Lemma step_all_cb fe s o : wf_op o -> all_cb (s_fib s) -> all_cb (s_fib (fst (step fe s o))).
Proof.
  intros W A. rewrite step_fib. destruct o as [k [h|] v ex|k| | | |]; try exact A.
  - apply fib_attach_all_cb; [exact A|discriminate].
  - destruct W.
  - apply fib_detach_all_cb. exact A.
  - destruct fe; try exact A. apply all_cb_empty.
Qed.

Lemma exec_all_cb fe ops s : Forall wf_op ops -> all_cb (s_fib s) -> all_cb (s_fib (exec fe s ops)).
Proof.
  intros W. revert s. induction W as [|o ops Wo _ IH]; intros s A; [exact A|]. apply IH, step_all_cb; assumption.
Qed.

Lemma reach_all_cb fe ops : Forall wf_op ops -> all_cb (s_fib (exec fe st0 ops)).
Proof. intros W. apply exec_all_cb; [exact W|apply all_cb_empty]. Qed.

Lemma step_pruned fe s o : t_pruned (s_fib s) = true -> t_pruned (s_fib (fst (step fe s o))) = true.
Proof.
  intros P. rewrite step_fib. destruct o as [k h v ex|k| | | |]; try exact P.
  - apply fib_attach_pruned. exact P.
  - apply fib_detach_pruned. exact P.
  - destruct fe; try exact P. reflexivity.
Qed.

Lemma exec_pruned fe ops s : t_pruned (s_fib s) = true -> t_pruned (s_fib (exec fe s ops)) = true.
Proof. apply (fold_left_inv (fun s => t_pruned (s_fib s) = true)). intros a b. apply step_pruned. Qed.

Lemma exec_app fe s l1 l2 : exec fe s (l1 ++ l2) = exec fe (exec fe s l1) l2.
Proof. unfold exec. apply fold_left_app. Qed.

Lemma run_from_exec fe s ops : fst (run_from fe s ops) = exec fe s ops.
Proof.
  revert s. induction ops as [|o ops IH]; intros s; [reflexivity|]. cbn.
  destruct (step fe s o) as [s1 b] eqn:E. specialize (IH s1). destruct (run_from fe s1 ops) as [s2 bs].
  cbn in *. exact IH.
Qed.

Lemma reply_closure_spec d now :
  reply_closure d now true = Ok (s_reply_sent d now, if s_reply_sent d now then RTrue else RFalse).
Proof.
  unfold reply_closure, s_reply_sent. destruct (d <? now) eqn:E, (now <=? d) eqn:F; try reflexivity; lia.
Qed.

Lemma reply_closure_down d now r :
  reply_closure d now false = r -> r = Ok (false, RFalse) /\ d < now \/ r = Err E_NETWORK /\ now <= d.
Proof. unfold reply_closure. destruct (d <? now) eqn:E; intros <-; [left|right]; split; try reflexivity; lia. Qed.

Definition reads_as (s : st) (ss : sst) : Prop :=
  (forall p, attached (s_fib s) p = ss_att ss p) /\ all_cb (s_fib s) /\
  s_pending s = ss_pending ss /\ s_calls s = ss_calls ss.

Lemma reads_as_init : reads_as st0 sst0.
Proof. repeat split; [apply attached_empty | apply all_cb_empty]. Qed.

Lemma reads_as_lookup s ss n : reads_as s ss -> dispatch (s_fib s) n = option_map snd (s_lookup (ss_att ss) n).
Proof. intros (Ra & Rc & _). rewrite dispatch_lp by exact Rc. f_equal. apply lp_fun_ext. exact Ra. Qed.

Lemma reads_as_detach fe s ss k :
  reads_as s ss -> reads_as (fst (step fe s (ODetach k))) (mk_sst (a_upd (ss_att ss) k None) (ss_pending ss) (ss_calls ss)).
Proof.
  intros (Ra & Rc & Rp & Rl). rewrite step_detach by exact Rc. repeat split; try assumption.
  - intros p. cbn. rewrite attached_detach. unfold a_upd. rewrite Ra. reflexivity.
  - apply fib_detach_all_cb. exact Rc.
Qed.

Lemma reads_as_out s ss (bs : list obs) (sbs : list sobs) :
  reads_as s ss /\ map abs_obs bs = map Some sbs ->
  map abs_obs bs = map Some sbs /\ s_calls s = ss_calls ss /\ s_pending s = ss_pending ss /\
  forall p, attached (s_fib s) p = ss_att ss p.
Proof. intros [(Ra & _ & Rp & Rl) Ho]. auto. Qed.

Lemma step_refines fe s ss o so :
  reads_as s ss -> sop_of fe o = Some so ->
  reads_as (fst (step fe s o)) (fst (sstep fe ss so)) /\ abs_obs (snd (step fe s o)) = Some (snd (sstep fe ss so)).
Proof.
  intros HR Ho. pose proof HR as (Ra & Rc & Rp & Rl).
  destruct o as [k [h|] v ex|k|n life now| |i now running|]; cbn [sop_of] in Ho; try discriminate.
  - (* attach *)
    injection Ho as <-. rewrite step_attach. cbn [sstep]. rewrite <- Ra.
    pose proof (fib_attach_all_cb fe (s_fib s) k (Some h) v ex Rc ltac:(discriminate)) as C.
    destruct (attached (s_fib s) k) eqn:E; (split; [|reflexivity]); repeat split; try assumption; intros p; cbn [fst s_fib ss_att].
    + rewrite attached_attach, E. apply Ra.
    + rewrite attached_attach, E. unfold a_upd. rewrite Ra. reflexivity.
  - (* detach *)
    injection Ho as <-. pose proof (reads_as_detach fe s ss k HR) as D. rewrite step_detach in * by exact Rc.
    cbn [sstep]. rewrite <- Ra. destruct (attached (s_fib s) k) eqn:E; (split; [|reflexivity]); [exact D|].
    destruct D as (Da & D). split; [|exact D]. intros p. rewrite Da. cbn. apply a_upd_id. rewrite <- Ra. exact E.
  - (* receive *)
    injection Ho as <-. rewrite step_recv by exact Rc. cbn zeta. rewrite (reads_as_lookup s ss n HR). cbn [sstep].
    destruct (s_lookup (ss_att ss) n) as [[p h]|]; destruct fe; cbn; (split; [|reflexivity]);
      repeat split; cbn; try assumption; congruence.
  - (* settle *)
    injection Ho as <-. cbn. rewrite Rp, Rl. split; [|reflexivity]. repeat split; assumption.
  - (* reply *)
    destruct fe; try discriminate. injection Ho as <-.
    cbn [step sstep]. rewrite <- Rl. destruct (nth_error (s_calls s) i) as [c|]; [|split; [exact HR|reflexivity]].
    split; [exact HR|]. cbn [snd]. unfold s_reply_out. destruct running.
    + rewrite reply_closure_spec, andb_true_r. destruct (s_reply_sent (c_deadline c) now); reflexivity.
    + rewrite andb_false_r. unfold reply_closure. destruct (c_deadline c <? now); reflexivity.
  - (* disconnect *)
    injection Ho as <-. cbn [step sstep]. destruct fe; (split; [|reflexivity]); try exact HR.
    repeat split; try assumption; [apply attached_empty | apply all_cb_empty].
Qed.

Theorem run_refines fe ops sops s ss :
  reads_as s ss -> sops_of fe ops = Some sops ->
  reads_as (fst (run_from fe s ops)) (fst (srun_from fe ss sops)) /\
  map abs_obs (snd (run_from fe s ops)) = map Some (snd (srun_from fe ss sops)).
Proof.
  revert sops s ss. induction ops as [|o ops IH]; intros sops s ss HR Hs.
  - inversion Hs; subst. cbn. auto.
  - cbn [sops_of] in Hs. destruct (sop_of fe o) as [so|] eqn:Eo; [|discriminate].
    destruct (sops_of fe ops) as [sos|] eqn:Es; [|discriminate]. inversion Hs; subst sops. clear Hs.
    destruct (step_refines fe s ss o so HR Eo) as [HR1 Hob].
    cbn [run_from srun_from]. destruct (step fe s o) as [s1 b]. destruct (sstep fe ss so) as [ss1 sb]. cbn in HR1, Hob.
    specialize (IH sos s1 ss1 HR1 eq_refl).
    destruct (run_from fe s1 ops) as [s2 bs]. destruct (srun_from fe ss1 sos) as [ss2 sbs]. cbn in *.
    destruct IH as [IH1 IH2]. split; [exact IH1|]. rewrite Hob, IH2. reflexivity.
Qed.
