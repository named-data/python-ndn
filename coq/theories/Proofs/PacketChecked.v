(* C07: with the end-of-parent check added, the decoder accepts EXACTLY what the strict reading of the format
   accepts, with the same fields, at every nesting depth; and the checked decoder refines the library's.  Hence
   the strict reader refines the library's decoder too. *)
From NDN Require Import Base.Prelude Model.TlvVar Model.Tlv Model.TlvChecked Model.Packet Spec.StrictTlv
  Proofs.BytesLemmas Proofs.TlvAssign Proofs.PacketDecode.
Local Open Scope N_scope.

Lemma strict_split_checked w : strict_split w = to_option (split_checked w).
Proof.
  unfold split_checked, strict_split, split_wire. rewrite strict_elements_eq.
  destruct (elements (S (length w)) w) as [e|]; [|reflexivity]. cbn [bind]. destruct (forallb exactb e); reflexivity.
Qed.

Lemma split_checked_inv w els : split_checked w = Ok els -> split_wire w = Ok els /\ Forall exact els.
Proof.
  unfold split_checked. intros H. apply bind_ok in H as (e & E & H).
  destruct (forallb exactb e) eqn:F; [injection H as <-|discriminate]. split; [exact E|apply forallb_exact, F].
Qed.

Lemma assign_iff_exact pv pv' fs ic els vs : Forall exact els ->
  (forall k e v, exact e -> pv k e = Ok v <-> pv' k e = Ok v) ->
  assign_with pv fs ic PNormal 0 els (blank fs) = Ok vs <-> assign_with pv' fs ic PNormal 0 els (blank fs) = Ok vs.
Proof.
  intros Hall H. rewrite Forall_forall in Hall.
  split; apply assign_mono_in; intros k e v Hin; apply H, Hall, Hin.
Qed.

Lemma val_c_strict : forall d k e v, exact e -> (parse_val_c d k e = Ok v <-> strict_val d k e = Ok v).
Proof.
  induction d as [|d IH]; intros k e v Hex; [split; discriminate|].
  rewrite strict_val_exact by exact Hex. destruct k; try reflexivity. cbn [parse_val_c]. rewrite strict_split_checked.
  destruct (split_checked (e_payload e)) as [els|] eqn:Es; [|split; discriminate]. cbn [bind to_option].
  apply bind_ok_iff. intros vs. apply assign_iff_exact; [exact (proj2 (split_checked_inv _ _ Es))|exact IH].
Qed.

Theorem checked_iff_strict d fs ic w vs :
  parse_model_c d fs ic w = Ok vs <-> strict_model d fs ic w = Ok vs.
Proof.
  unfold parse_model_c, strict_model. rewrite strict_split_checked.
  destruct (split_checked w) as [els|] eqn:Es; [|split; discriminate]. cbn [bind to_option].
  apply assign_iff_exact; [exact (proj2 (split_checked_inv _ _ Es))|intros k e v; apply val_c_strict].
Qed.

Lemma val_c_le : forall d k e v, parse_val_c d k e = Ok v -> parse_val d k e = Ok v.
Proof.
  induction d as [|d IH]; intros k e v H; [discriminate|].
  destruct k; try exact H. cbn [parse_val parse_val_c] in *.
  apply bind_ok in H as (els & Es & H). rewrite (proj1 (split_checked_inv _ _ Es)). cbn [bind].
  revert H. apply bind_ok_mono. intros vs. apply assign_mono_in. intros k0 e0 v0 _. apply IH.
Qed.

Theorem checked_refines d fs ic w vs : parse_model_c d fs ic w = Ok vs -> parse_model d fs ic w = Ok vs.
Proof.
  unfold parse_model_c, parse_model. intros H. apply bind_ok in H as (els & Es & H).
  rewrite (proj1 (split_checked_inv _ _ Es)). cbn [bind]. revert H. apply assign_mono_in. intros k e v _. apply val_c_le.
Qed.

Theorem strict_model_sound d fs ic w vs :
  strict_model d fs ic w = Ok vs -> parse_model d fs ic w = Ok vs.
Proof. intros H. apply checked_refines, checked_iff_strict, H. Qed.

Definition dec_interest_c (w : bytes) := require_name Generated.Schemas.ndn_format_0_3_InterestPacketValue
  (gen_decode parse_model_c TYPE_INTEREST Generated.Schemas.ndn_format_0_3_InterestPacketValue false w).
Definition dec_data_c (w : bytes) := require_name Generated.Schemas.ndn_format_0_3_DataPacketValue
  (gen_decode parse_model_c TYPE_DATA Generated.Schemas.ndn_format_0_3_DataPacketValue false w).
Definition dec_cert_c (w : bytes) := require_name Generated.Schemas.security_v2_CertificateV2Value
  (gen_decode parse_model_c TYPE_DATA Generated.Schemas.security_v2_CertificateV2Value false w).
Definition dec_lp_c (w : bytes) := no_fragmentation Generated.Schemas.ndnlp_v2_LpPacketValue
  (gen_decode parse_model_c TYPE_LP_PACKET Generated.Schemas.ndnlp_v2_LpPacketValue true w).

(* Packet decoders are [gen_decode] followed by a filter [k] on the field values ([require_name],
   [no_fragmentation]); a refinement between two model decoders passes through both. *)
Lemma decode_mono (p p' : nat -> list field -> bool -> bytes -> res (list value)) (k : list value -> res (list value)) :
  (forall d fs ic w vs, p d fs ic w = Ok vs -> p' d fs ic w = Ok vs) ->
  forall outer fs ic w vs,
    bind (gen_decode p outer fs ic w) k = Ok vs -> bind (gen_decode p' outer fs ic w) k = Ok vs.
Proof.
  intros H outer fs ic w vs. apply bind_ok_mono. intros x. unfold gen_decode.
  destruct (parse_and_check_tl w outer); [apply H|discriminate].
Qed.

Section Post.
Variable k : list value -> res (list value).
Variables (outer : N) (fs : list field) (ic : bool) (w : bytes) (vs : list value).

Theorem decode_sound :
  bind (gen_decode strict_model outer fs ic w) k = Ok vs -> bind (gen_decode parse_model outer fs ic w) k = Ok vs.
Proof. apply decode_mono, strict_model_sound. Qed.

Theorem decode_c_iff :
  bind (gen_decode parse_model_c outer fs ic w) k = Ok vs <-> bind (gen_decode strict_model outer fs ic w) k = Ok vs.
Proof. split; apply decode_mono; intros d fs' ic' w' vs'; apply checked_iff_strict. Qed.

(* the converse clause of C07, at every depth: accepted, and the end-of-parent check would not have fired
   => strictly well-formed, with the same fields *)
Theorem accept_no_overrun :
  bind (gen_decode parse_model outer fs ic w) k = Ok vs ->
  (exists vs', bind (gen_decode parse_model_c outer fs ic w) k = Ok vs') ->
  bind (gen_decode strict_model outer fs ic w) k = Ok vs.
Proof.
  intros H (vs' & Hc). apply decode_c_iff.
  pose proof (decode_mono _ _ k checked_refines _ _ _ _ _ Hc) as H'. rewrite H in H'. injection H' as <-. exact Hc.
Qed.
End Post.
