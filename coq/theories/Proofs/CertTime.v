(* C16, time: the validity text new_cert writes is 15 octets "YYYYMMDDTHHMMSS" for years 1000..9999 and reads back
   to the same fields; the day-count arithmetic behind timedelta addition / astimezone(UTC) is inverted by the
   reading of an instant (seconds since the epoch), so the text denotes exactly the requested instant; a valid date
   moved to another year stays valid unless it is a 29 February ([replace_year_valid]). *)
From NDN Require Import Base.Prelude Base.Text Model.Tlv Model.Cert Spec.CertSpec
  Generated.ConstsCert Proofs.TextProofs.
Local Open Scope N_scope.

Definition two_digits (n : N) : str := [48 + n / 10; 48 + n mod 10].
Definition four_digits (n : N) : str := [48 + n / 1000; 48 + n / 100 mod 10; 48 + n / 10 mod 10; 48 + n mod 10].

Lemma pad2_digits n : n < 100 -> pad2 n = two_digits n.
Proof.
  intros H. unfold pad2, two_digits. destruct (N.ltb_spec n 10) as [Hn|Hn].
  - rewrite dec_print_small by exact Hn. repeat f_equal; lia.
  - rewrite dec_print_big, dec_print_small by (exact Hn || lia). reflexivity.
Qed.

Lemma year_digits y : 1000 <= y -> y <= 9999 -> dec_print y = four_digits y.
Proof.
  intros H1 H2. do 3 rewrite dec_print_big by lia. rewrite dec_print_small by lia.
  rewrite !N.div_div by discriminate. reflexivity.
Qed.

Lemma formats_are_iso8601_basic :
  not_before_format = [37; 89; 37; 109; 37; 100; 84; 37; 72; 37; 77; 37; 83] /\ not_after_format = not_before_format.
Proof. split; reflexivity. Qed.

Definition validity_text (t : bdt) : bytes :=
  four_digits (t_year t) ++ two_digits (t_mon t) ++ two_digits (t_day t) ++ [84] ++
  two_digits (t_hour t) ++ two_digits (t_min t) ++ two_digits (t_sec t).

Lemma strftime_raw t :
  strftime not_before_format t =
  Ok (dec_print (t_year t) ++ pad2 (t_mon t) ++ pad2 (t_day t) ++ [84] ++ pad2 (t_hour t) ++ pad2 (t_min t) ++ pad2 (t_sec t)).
Proof.
  destruct formats_are_iso8601_basic as [-> _].
  cbn [strftime N.eqb Pos.eqb]. unfold directive. cbn [N.eqb Pos.eqb bind app].
  rewrite app_nil_r. reflexivity.
Qed.

(* fields in the ranges every datetime satisfies (valid_bdt implies them), year of four digits *)
Definition in_range (t : bdt) : Prop :=
  1000 <= t_year t /\ t_year t <= 9999 /\ t_mon t < 100 /\ t_day t < 100 /\ t_hour t < 100 /\ t_min t < 100 /\ t_sec t < 100.

Theorem strftime_validity t : in_range t -> strftime not_before_format t = Ok (validity_text t) /\
                                             strftime not_after_format t = Ok (validity_text t).
Proof.
  intros (H1 & H2 & H3 & H4 & H5 & H6 & H7).
  destruct formats_are_iso8601_basic as [_ ->]. rewrite strftime_raw.
  rewrite year_digits, !pad2_digits by assumption. split; reflexivity.
Qed.

Lemma validity_text_length t : length (validity_text t) = 15%nat.
Proof. reflexivity. Qed.

Lemma valid_in_range t : valid_bdt t = true -> 1000 <= t_year t -> in_range t.
Proof.
  unfold valid_bdt, in_range, days_in_month. intros H Hy.
  destruct (t_mon t =? 2);
    [destruct (is_leap (t_year t))|destruct ((t_mon t =? 4) || (t_mon t =? 6) || (t_mon t =? 9) || (t_mon t =? 11))]; lia.
Qed.

Lemma is_digit_48 x : x < 10 -> is_digit (48 + x) = true.
Proof. unfold is_digit. lia. Qed.

Lemma is_digit_mod n : is_digit (48 + n mod 10) = true.
Proof. apply is_digit_48, N.mod_lt. discriminate. Qed.

Lemma is_digit_div n : n < 100 -> is_digit (48 + n / 10) = true.
Proof. intros H. apply is_digit_48. lia. Qed.

Lemma dig_48 x : dig (48 + x) = x.
Proof. unfold dig. lia. Qed.

Lemma digits2 n : n / 10 * 10 + n mod 10 = n.
Proof. lia. Qed.

(* from the two-digit splits of n, n / 10 and n / 100, with the quotients and remainders as unknowns: lia is slow
   to check when it has to relate n / 1000 to n / 100 / 10 itself *)
Lemma digits4 n : n / 1000 * 1000 + n / 100 mod 10 * 100 + n / 10 mod 10 * 10 + n mod 10 = n.
Proof.
  pose proof (digits2 n) as A. pose proof (digits2 (n / 10)) as B. pose proof (digits2 (n / 100)) as C.
  rewrite N.div_div in B, C by discriminate. change (10 * 10) with 100 in B. change (100 * 10) with 1000 in C.
  revert A B C. generalize (n / 1000) (n / 100) (n / 10) (n / 100 mod 10) (n / 10 mod 10) (n mod 10). lia.
Qed.

Lemma parse_validity_eq (c : bool) t' t : c = true -> t' = t -> valid_bdt t = true ->
  (if c then if valid_bdt t' then Some t' else None else None) = Some t.
Proof. intros -> -> ->. reflexivity. Qed.

Theorem parse_validity_text t : valid_bdt t = true -> 1000 <= t_year t -> parse_validity (validity_text t) = Some t.
Proof.
  intros Hv Hy. destruct (valid_in_range t Hv Hy) as (_ & H2 & H3 & H4 & H5 & H6 & H7).
  unfold validity_text, four_digits, two_digits, parse_validity. cbn [app]. apply parse_validity_eq; [| |exact Hv].
  - cbn [forallb]. rewrite !is_digit_mod, !is_digit_div by assumption. rewrite is_digit_48 by (clear -H2; lia). reflexivity.
  - rewrite !dig_48, digits4, !digits2. destruct t. reflexivity.
Qed.

Lemma validity_instant_text t : valid_bdt t = true -> 1000 <= t_year t ->
  validity_instant (VBytes (validity_text t)) = Some (bdt_to_secs t).
Proof. intros Hv Hy. unfold validity_instant. rewrite parse_validity_text by assumption. reflexivity. Qed.

(* only a 29 February depends on the year *)
Lemma days_in_month_year y y' m d : d <= days_in_month y m ->
  (m =? 2) && (d =? 29) && negb (is_leap y') = false -> d <= days_in_month y' m.
Proof.
  unfold days_in_month. destruct (m =? 2); [|intros H _; exact H].
  destruct (is_leap y), (is_leap y'); lia.
Qed.

Lemma replace_year_valid t y e : valid_bdt t = true -> replace_year t y = Ok e ->
  valid_bdt e = true /\ t_year e = y /\ t_mon e = t_mon t /\ t_day e = t_day t /\ t_hour e = t_hour t /\
  t_min e = t_min t /\ t_sec e = t_sec t.
Proof.
  unfold replace_year. intros Hv.
  destruct ((y <? 1) || (9999 <? y)) eqn:Ey; [discriminate|].
  destruct ((t_mon t =? 2) && (t_day t =? 29) && negb (is_leap y)) eqn:Ef; [discriminate|].
  intros H. injection H as <-. cbn [t_year t_mon t_day t_hour t_min t_sec].
  split; [|repeat split; reflexivity].
  unfold valid_bdt in *. cbn [t_year t_mon t_day t_hour t_min t_sec].
  pose proof (fun H => days_in_month_year (t_year t) y _ _ H Ef) as Hd. clear Ef. lia.
Qed.

Local Open Scope Z_scope.

Definition zleap (y : Z) : bool := ((y mod 4 =? 0) && negb (y mod 100 =? 0)) || (y mod 400 =? 0).
Definition zdim (y m : Z) : Z :=
  if m =? 2 then (if zleap y then 29 else 28)
  else if (m =? 4) || (m =? 6) || (m =? 9) || (m =? 11) then 30 else 31.

(* The split of a day of the 400-year era (counted from 1 March) into a year of the era and a day of that year;
   day 365 exists only before the 1 March that follows a 29 February.  The constants are those of civil_from_days
   in Model/Cert.v: an era has 146097 days, 4 years 1461, a century 36524; a March-based month starts on day
   (153 * mp + 2) / 5 of its year.  Division is by constants throughout, so
   these are linear facts; one call of lia per conjunct is far cheaper to check than one for all three. *)
Lemma year_of_era doe yoe doy : 0 <= doe < 146097 ->
  yoe = (doe - doe / 1460 + doe / 36524 - doe / 146096) / 365 -> doy = doe - (365 * yoe + yoe / 4 - yoe / 100) ->
  0 <= yoe < 400 /\ 0 <= doy <= 365 /\ (doy = 365 -> zleap (yoe + 1) = true).
Proof. intros H -> ->. split; [lia|]. split; [lia|]. unfold zleap. lia. Qed.

Lemma month_of_year doy mp d : 0 <= doy <= 365 -> mp = (5 * doy + 2) / 153 -> d = doy - (153 * mp + 2) / 5 + 1 ->
  0 <= mp <= 11 /\ 1 <= d /\
  forall y, (doy = 365 -> zleap y = true) -> d <= zdim y (if mp <? 10 then mp + 3 else mp - 9).
Proof.
  intros H Emp Ed. split; [subst mp; lia|]. split; [subst d mp; lia|]. intros y Hy. unfold zdim.
  (* by the length of the month: February with or without its 29th day, 30 days, 31 days *)
  destruct (mp <? 10) eqn:E1; (destruct (_ =? 2) eqn:E2; [destruct (zleap y)|destruct (_ || _) eqn:E3]); subst d mp; lia.
Qed.

Lemma zleap_period y e c : zleap (y + e * 400 + c) = zleap (y + c).
Proof.
  unfold zleap.
  replace ((y + e * 400 + c) mod 4) with ((y + c) mod 4) by lia.
  replace ((y + e * 400 + c) mod 100) with ((y + c) mod 100) by lia.
  replace ((y + e * 400 + c) mod 400) with ((y + c) mod 400) by lia. reflexivity.
Qed.

Lemma era_split z' : 0 <= z' - z' / 146097 * 146097 < 146097.
Proof. lia. Qed.

Lemma march_month mp : 0 <= mp <= 11 ->
  let m := if mp <? 10 then mp + 3 else mp - 9 in 1 <= m <= 12 /\ (if 2 <? m then m - 3 else m + 9) = mp.
Proof.
  intros H. cbv zeta. destruct (Z.ltb_spec mp 10); [destruct (Z.ltb_spec 2 (mp + 3))|destruct (Z.ltb_spec 2 (mp - 9))]; lia.
Qed.

Lemma days_from_march y m d era yoe mp :
  (if m <=? 2 then y - 1 else y) = yoe + era * 400 -> 0 <= yoe < 400 -> (if 2 <? m then m - 3 else m + 9) = mp ->
  days_from_civil y m d = era * 146097 + (yoe * 365 + yoe / 4 - yoe / 100 + ((153 * mp + 2) / 5 + d - 1)) - 719468.
Proof.
  intros Ey Hy Em. unfold days_from_civil. cbv zeta. rewrite Ey, Em.
  replace ((yoe + era * 400) / 400) with era by lia. replace (yoe + era * 400 - era * 400) with yoe by ring. reflexivity.
Qed.

(* counting days to a date inverts splitting a day count into a date; the date exists.  Stated with the
   intermediate quantities of civil_from_days as local definitions, so that no step sees them expanded. *)
Lemma civil_from_days_parts z :
  let era := (z + 719468) / 146097 in
  let doe := z + 719468 - era * 146097 in
  let yoe := (doe - doe / 1460 + doe / 36524 - doe / 146096) / 365 in
  let doy := doe - (365 * yoe + yoe / 4 - yoe / 100) in
  let mp := (5 * doy + 2) / 153 in
  let d := doy - (153 * mp + 2) / 5 + 1 in
  let m := if mp <? 10 then mp + 3 else mp - 9 in
  let y := yoe + era * 400 + (if m <=? 2 then 1 else 0) in
  days_from_civil y m d = z /\ 1 <= m <= 12 /\ 1 <= d <= zdim y m.
Proof.
  intros era doe yoe doy mp d m y.
  destruct (year_of_era doe yoe doy (era_split (z + 719468)) eq_refl eq_refl) as (Hyoe & Hdoy & Hleap).
  destruct (month_of_year doy mp d Hdoy eq_refl eq_refl) as (Hmp & Hd & Hdim).
  assert (Hfeb : doy = 365 -> mp = 11) by (intros E; subst mp; rewrite E; reflexivity).
  destruct (march_month mp Hmp) as [Hm Em]. split; [|split; [exact Hm|split; [exact Hd|]]].
  - rewrite (days_from_march y m d era yoe mp); [unfold d, doy, doe; ring| |exact Hyoe|exact Em].
    subst y. destruct (m <=? 2); ring.
  - apply Hdim. intros E. subst y m. clearbody mp. rewrite (Hfeb E). change (zleap (yoe + era * 400 + 1) = true).
    rewrite zleap_period. exact (Hleap E).
Qed.

Theorem days_civil_inverse z :
  let '(y, m, d) := civil_from_days z in
  days_from_civil y m d = z /\ 1 <= m <= 12 /\ 1 <= d <= zdim y m.
Proof. exact (civil_from_days_parts z). Qed.

Lemma leap_N_Z y : 0 <= y -> is_leap (Z.to_N y) = zleap y.
Proof.
  intros H. unfold is_leap, zleap.
  replace ((Z.to_N y mod 4 =? 0)%N) with (y mod 4 =? 0) by lia.
  replace ((Z.to_N y mod 100 =? 0)%N) with (y mod 100 =? 0) by lia.
  replace ((Z.to_N y mod 400 =? 0)%N) with (y mod 400 =? 0) by lia. reflexivity.
Qed.

Lemma dim_N_Z y m : 0 <= y -> Z.of_N (days_in_month (Z.to_N y) (Z.to_N m)) = zdim y m.
Proof.
  intros Hy. unfold days_in_month, zdim. rewrite leap_N_Z by exact Hy.
  destruct (N.eqb_spec (Z.to_N m) 2), (Z.eqb_spec m 2); try lia; [destruct (zleap y); reflexivity|].
  destruct ((Z.to_N m =? 4) || (Z.to_N m =? 6) || (Z.to_N m =? 9) || (Z.to_N m =? 11))%N eqn:A,
           ((m =? 4) || (m =? 6) || (m =? 9) || (m =? 11)) eqn:B; (reflexivity || lia).
Qed.

Lemma bdt_of_Z y m d r : 1 <= y <= 9999 -> 1 <= m <= 12 -> 1 <= d <= zdim y m -> 0 <= r < 86400 ->
  let t := {| t_year := Z.to_N y; t_mon := Z.to_N m; t_day := Z.to_N d;
              t_hour := Z.to_N (r / 3600); t_min := Z.to_N (r mod 3600 / 60); t_sec := Z.to_N (r mod 60) |} in
  bdt_to_secs t = days_from_civil y m d * 86400 + r /\ valid_bdt t = true.
Proof.
  intros Hy Hm Hd Hr. rewrite <- dim_N_Z in Hd by lia. split.
  - unfold bdt_to_secs. cbn [t_year t_mon t_day t_hour t_min t_sec]. rewrite !Z2N.id by lia. lia.
  - unfold valid_bdt. cbn [t_year t_mon t_day t_hour t_min t_sec]. repeat (apply andb_true_iff; split); lia.
Qed.

Theorem secs_to_bdt_sound s t : secs_to_bdt s = Ok t -> bdt_to_secs t = s /\ valid_bdt t = true.
Proof.
  unfold secs_to_bdt. cbv zeta. set (days := s / 86400).
  pose proof (days_civil_inverse days) as Hc.
  destruct (civil_from_days days) as [[y m] d]. destruct Hc as (Hd & Hm & Hdd).
  destruct ((y <? MINYEAR) || (MAXYEAR <? y)) eqn:Ey; [discriminate|]. intros H. injection H as <-.
  apply orb_false_elim in Ey. destruct Ey as [Ey1%Z.ltb_ge Ey2%Z.ltb_ge].
  destruct (bdt_of_Z y m d (s - days * 86400) (conj Ey1 Ey2) Hm Hdd) as [-> Hv]; [unfold days; lia|].
  split; [rewrite Hd; ring|exact Hv].
Qed.

Theorem add_seconds_sound t e t' : add_seconds t e = Ok t' -> bdt_to_secs t' = bdt_to_secs t + e /\ valid_bdt t' = true.
Proof.
  unfold add_seconds. destruct ((e / 86400 <? -999999999) || (999999999 <? e / 86400)); [discriminate|].
  apply secs_to_bdt_sound.
Qed.

(* the instant an (aware or naive) datetime designates: its fields read as UTC, minus the UTC offset *)
Definition instant_of (a : atime) : Z :=
  bdt_to_secs (a_fields a) - match a_offset a with Some o => o | None => 0 end.

Theorem to_utc_sound a t : valid_bdt (a_fields a) = true -> to_utc a = Ok t -> bdt_to_secs t = instant_of a /\ valid_bdt t = true.
Proof.
  unfold to_utc, instant_of. intros Hv. destruct (a_offset a) as [o|].
  - destruct (o =? 0) eqn:Eo.
    + intros H. injection H as <-. split; [lia|exact Hv].
    + apply secs_to_bdt_sound.
  - intros H. injection H as <-. split; [lia|exact Hv].
Qed.
