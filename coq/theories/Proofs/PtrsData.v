(* C02 (receiving side, Data and certificates): on every well-formed packet value that the decoder accepts,
   the signature-covered range and the signature value it REPORTS are the specified ones. *)
From NDN Require Import Base.Prelude Model.PacketPtrs Spec.SignedPortion Proofs.TlvAssign Proofs.PtrsSpecView
  Proofs.PtrsSplit Proofs.PtrsWalk.
From NDN Require Generated.Schemas.
Local Open Scope N_scope.

Definition LD : layout := Generated.Schemas.ndn_format_0_3_DataPacketValue_layout.
(* LD is [start marker; 7; 20; 21; 22; 23]: below, MARK_SIG_START sits at position 0, Name (7) at 1 and
   SignatureValue (23) at 5; each such pair is checked against LD by the [eq_refl] that follows it. *)

Lemma LD_nodup : NoDup (lfields LD).
Proof. apply nodupb_spec. reflexivity. Qed.

Lemma event_types : forall ts idx pos marks ev,
  walk LD idx ts pos marks = Ok ev -> Forall (fun e => In (snd (fst e)) ts) ev.
Proof. exact (walk_event_types LD LD_nodup). Qed.

(* the start marker, declared first, is recorded by the first element assigned to any field; before the first
   Name nothing is assigned, because the Name is critical and the first field *)
Lemma data_before_name ts ev k7 :
  walk LD 0 ts 0 [] = Ok ev -> idx_of 7 ts = Some k7 -> Forall (before LD 0) (firstn k7 ts).
Proof.
  intros W I7. destruct (idx_of_split _ _ _ I7) as (E & _ & _). rewrite E in W.
  eapply Forall_impl; [|exact (walk_none_later LD LD_nodup 7 1 eq_refl eq_refl _ _ _ _ _ _ W (Nat.le_0_l _))].
  (* position 0 holds the marker: no field has index 0 *)
  intros x Hx j Hj. pose proof (Hx j Hj).
  change (lay_index LD 0 x) with (lay_index (tl LD) 1 x) in Hj. apply lay_index_ge in Hj. lia.
Qed.

Theorem ptrs_data_spec v sel p :
  strict_split (S (length v)) v = Some sel ->
  ptrs_data_with LD v = Ok p ->
  p_sig_value p = value_of_type (S (length v)) 23 v /\
  (forall s, signed_portion_data v = Some s -> concat (p_sig_covered p) = s) /\
  (value_of_type (S (length v)) 23 v = None -> p_sig_covered p = [] /\ p_sig_value p = None).
Proof.
  intros Hs Hp.
  destruct (split_raw_strict _ _ Hs) as (rs & Ers & Hag).
  unfold ptrs_data_with in Hp. rewrite Ers in Hp. cbn [bind] in Hp.
  rewrite (agrees_types _ _ Hag) in Hp.
  destruct (walk LD 0 (types sel) 0 []) as [ev|] eqn:W; [|discriminate]. cbn [bind] in Hp.
  assert (Ep : p = Ptrs (fst (sig_part 23 rs ev)) (snd (sig_part 23 rs ev)) [] None).
  { destruct (sig_part 23 rs ev). injection Hp as <-. reflexivity. }
  subst p. clear Hp. cbn [p_sig_value p_sig_covered].
  destruct (split_scan v sel 23 Hs) as (_ & _ & Hv). cbv zeta in Hv. rewrite Hv.
  destruct (sig_part_value LD LD_nodup 23 5 eq_refl (or_introl eq_refl) rs sel ev Hag W) as (Eval & Enone).
  split; [exact Eval|]. split.
  - intros s Hsp. change (between 7 23 v = Some s) in Hsp. rewrite (between_view _ _ _ _ Hs) in Hsp.
    destruct (idx_of 23 (types sel)) as [k23|] eqn:I23; [|discriminate].
    destruct (idx_of 7 (firstn k23 (types sel))) as [k7|] eqn:I7; [|discriminate]. injection Hsp as <-.
    rewrite (sig_part_between LD LD_nodup 23 5 eq_refl (or_introl eq_refl) 0 7 1 eq_refl eq_refl Nat.lt_0_1 (Nat.le_0_l _)
               rs sel ev k7 k23 Hag W I23 I7 (data_before_name _ _ _ W (proj1 (idx_of_firstn _ _ _ _ I7)))).
    cbn [concat]. apply app_nil_r.
  - intros Hnone. destruct (idx_of 23 (types sel)) as [k23|] eqn:I23.
    + (* the SignatureValue element is there and has a value *)
      pose proof (idx_of_lt _ _ _ I23) as Hk. unfold types in Hk. rewrite map_length in Hk.
      destruct (agrees_value_some _ _ _ Hag Hk Hnone).
    + rewrite Eval. split; [exact (Enone eq_refl)|reflexivity].
Qed.

Theorem ptrs_cert_spec v sel p :
  strict_split (S (length v)) v = Some sel ->
  ptrs_data_with Generated.Schemas.security_v2_CertificateV2Value_layout v = Ok p ->
  p_sig_value p = value_of_type (S (length v)) 23 v /\
  (forall s, signed_portion_data v = Some s -> concat (p_sig_covered p) = s) /\
  (value_of_type (S (length v)) 23 v = None -> p_sig_covered p = [] /\ p_sig_value p = None).
Proof. (* the certificate's layout is the same list as LD *) exact (ptrs_data_spec v sel p). Qed.
