(* A numbered rule chain (Model/LvsCompiler.chain) REPRESENTS a source-level flat chain (Spec/LvsSem.flat):
   same literals, named patterns numbered by the symbol table, every temporary occurrence carrying the (resolved)
   constraints written for it.  For such a pair, [chain_sem] (Proofs/LvsGenTree.v, on tags and contexts) and
   [chain_match] (Spec/LvsSem.v, on identifiers and environments) agree. *)
From NDN Require Import Base.Prelude Model.Name Model.LvsAst Model.LvsCompiler
  Spec.LvsSem Spec.LvsTree Proofs.LvsFlatten Proofs.LvsGenTree Proofs.ListLemmas Proofs.LvsTraverse.
Local Open Scope N_scope.

Section Represents.
  Variable ufn : ident -> option (bytes -> list (option bytes) -> res bool).
  Variable named : list (ident * N).
  Hypothesis Hinj : forall p q t, al_get ident_eqb named p = Some t -> al_get ident_eqb named q = Some t -> p = q.

  Definition env_ctx (e : env) (c : tctx) : Prop :=
    Forall2 (fun pv tw => al_get ident_eqb named (fst pv) = Some (fst tw) /\ snd pv = snd tw) e c.

  Lemma env_ctx_get e c q t : env_ctx e c -> al_get ident_eqb named q = Some t -> tget c t = al_get ident_eqb e q.
  Proof.
    intros H Hq. unfold tget. induction H as [|[p v] [t' w] e c [Hp Hv] _ IH]; [reflexivity|]. cbn in *. subst w.
    destruct (N.eqb_spec t t') as [->|Hne].
    - rewrite (Hinj _ _ _ Hq Hp). rewrite (proj2 (ident_eqb_eq p p) eq_refl). reflexivity.
    - destruct (ident_eqb q p) eqn:E; [apply ident_eqb_eq in E; subst; congruence | exact IH].
  Qed.

  Definition opt_rel (o : opt) (no : nopt) : Prop := resolve_opt named o = Ok no.

  Lemma arg_rel e c a na : env_ctx e c -> resolve_arg named a = Ok na -> targ c (fst (enc_arg na)) = arg_val e a.
  Proof.
    intros He. destruct a as [x|q]; cbn.
    - intros H; inversion H; subst. reflexivity.
    - destruct (is_temp_pat q); [discriminate|]. unfold resolve_named. destruct (al_get ident_eqb named q) as [t|] eqn:Eq; cbn; [|discriminate].
      intros H; inversion H; subst. cbn. unfold targ. cbn. rewrite (env_ctx_get e c q t He Eq). destruct (al_get ident_eqb e q); reflexivity.
  Qed.

  Lemma opt_rel_true e c v o no : env_ctx e c -> opt_rel o no ->
    (option_true ufn v c (fst (enc_opt no)) <-> opt_holds ufn e v o = true).
  Proof.
    intros He. unfold opt_rel. destruct o as [x|q|f args]; cbn [resolve_opt].
    - intros H; inversion H; subst. cbn. rewrite bytes_eqb_spec. reflexivity.
    - destruct (is_temp_pat q); [discriminate|]. unfold resolve_named. destruct (al_get ident_eqb named q) as [t|] eqn:Eq; cbn; [|discriminate].
      intros H; inversion H; subst. unfold option_true. cbn. rewrite (env_ctx_get e c q t He Eq).
      destruct (al_get ident_eqb e q) as [w|]; [|split; discriminate]. rewrite bytes_eqb_spec. split; [intros E; inversion E; reflexivity | intros ->; reflexivity].
    - destruct (rmap (resolve_arg named) args) as [nargs|] eqn:Ea; cbn; [|discriminate]. intros H; inversion H; subst. clear H.
      unfold option_true. cbn.
      assert (Hargs : map (targ c) (map fst (map enc_arg nargs)) = map (arg_val e) args).
      { apply BytesLemmas.rmap_ok_iff in Ea. clear - Ea He Hinj. induction Ea as [|a na l l' Hr _ IH]; [reflexivity|]. cbn. rewrite IH. f_equal. eapply arg_rel; eauto. }
      rewrite Hargs. split.
      + intros (fid & g & Ef & Eg & Er). inversion Ef; subst fid. rewrite Eg, Er. reflexivity.
      + destruct (ufn f) as [g|] eqn:Eg; [|discriminate]. destruct (g v (map (arg_val e) args)) as [[|]|] eqn:Er; try discriminate.
        intros _. exists f, g. auto.
  Qed.

  Definition optlist_rel (opts : list opt) (nopts : list nopt) : Prop := Forall2 opt_rel opts nopts.

  Lemma optlist_true e c v opts nopts : env_ctx e c -> optlist_rel opts nopts ->
    (Exists (option_true ufn v c) (map (fun o => fst (enc_opt o)) nopts) <-> existsb (opt_holds ufn e v) opts = true).
  Proof.
    intros He H. induction H as [|o no opts nopts Hr _ IH]; cbn.
    - split; [intros E; inversion E | discriminate].
    - rewrite orb_true_iff, <- IH, <- (opt_rel_true e c v o no He Hr). split.
      + intros E; inversion E; subst; auto.
      + intros [E|E]; [left; exact E | right; exact E].
  Qed.

  Lemma cnf_true_rel e c v (L : list (list opt)) (NL : list (list nopt)) : env_ctx e c -> Forall2 optlist_rel L NL ->
    (cnf_true ufn v c (map (fun nopts => map (fun o => fst (enc_opt o)) nopts) NL) <-> cons_hold ufn e v L = true).
  Proof.
    intros He H. unfold cnf_true, cons_hold. induction H as [|opts nopts L NL Hr _ IH]; cbn.
    - split; [reflexivity | constructor].
    - rewrite andb_true_iff, <- IH, <- (optlist_true e c v opts nopts He Hr). split.
      + intros F; inversion F; subst; auto.
      + intros [F1 F2]; constructor; assumption.
  Qed.

  Definition cons_opts_for (rc : chain) (t : Z) : list (list nopt) :=
    map nc_opts (filter (fun c => zmem t (nc_pat c)) (ch_cons rc)).

  Lemma cons_for_opts rc t : cons_for rc t = map (fun nopts => map (fun o => fst (enc_opt o)) nopts) (cons_opts_for rc t).
  Proof. unfold cons_for, cons_opts_for. rewrite map_map. apply map_ext. intros c. unfold enc_cons. cbn. rewrite map_map. reflexivity. Qed.

  Definition comp_rep (rc : chain) (fc : fcomp) (nc : ncomp) : Prop :=
    match fc, nc with
    | FLit x, NLit y => x = y
    | FNamed p, NPat t => (0 < t)%Z /\ al_get ident_eqb named p = Some (Z.to_N t)
    | FTemp cs, NPat t => (t < 0)%Z /\ Forall2 optlist_rel cs (cons_opts_for rc t)
    | _, _ => False
    end.

  (* [rp_named] speaks of every named pattern of the table, not only those of the chain: when the chain is a key's, the
     constraints on a pattern the packet has bound are evaluated too *)
  Record represents (rc : chain) (f : flat) : Prop := {
    rp_comps : Forall2 (comp_rep rc) (f_comps f) (ch_name rc);
    rp_named : forall p t, al_get ident_eqb named p = Some t -> Forall2 optlist_rel (cons_on p (f_ncons f)) (cons_opts_for rc (Z.of_N t))
  }.

  (* Both semantics consume one component of the chain and one of the name at a time.  On the source side the step is
     a function of the environment and of the named patterns seen so far; on the tree side it is tstep. *)
  Definition fstep (ncons : list tagcons) (fc : fcomp) (v : bytes) (e : env) (seen : list ident) : option (env * list ident) :=
    match fc with
    | FLit x => if bytes_eqb x v then Some (e, seen) else None
    | FTemp cs => if cons_hold ufn e v cs then Some (e, seen) else None
    | FNamed p =>
        match al_get ident_eqb e p with
        | Some w => if negb (bytes_eqb v w) then None else if imem p seen then Some (e, seen)
                    else if cons_hold ufn e v (cons_on p ncons) then Some (e, p :: seen) else None
        | None => if cons_hold ufn e v (cons_on p ncons) then Some (e ++ [(p, v)], p :: seen) else None
        end
    end.

  Lemma chain_match_cons ncons fc ch v n e seen :
    chain_match ufn ncons (fc :: ch) (v :: n) e seen =
    match fstep ncons fc v e seen with Some (e1, s1) => chain_match ufn ncons ch n e1 s1 | None => None end.
  Proof.
    destruct fc as [x|p|cs]; cbn.
    - destruct (bytes_eqb x v); reflexivity.
    - destruct (al_get ident_eqb e p) as [w|]; [destruct (negb (bytes_eqb v w)), (imem p seen); try reflexivity|];
        destruct (cons_hold ufn e v (cons_on p ncons)); reflexivity.
    - destruct (cons_hold ufn e v cs); reflexivity.
  Qed.

  Definition seen_rel (seen : list ident) (seen_t : list Z) : Prop :=
    forall p t, al_get ident_eqb named p = Some t -> imem p seen = zmem (Z.of_N t) seen_t.

  Definition bound_inv (e : env) (seen : list ident) : Prop :=
    NoDup (map fst e) /\ forall p, imem p seen = true -> exists w, al_get ident_eqb e p = Some w.

  Lemma imem_cons q p seen : imem q (p :: seen) = true <-> q = p \/ imem q seen = true.
  Proof. unfold imem. cbn. rewrite orb_true_iff, ident_eqb_eq. reflexivity. Qed.

  Lemma seen_rel_cons seen seen_t p t : seen_rel seen seen_t -> al_get ident_eqb named p = Some t ->
    seen_rel (p :: seen) (Z.of_N t :: seen_t).
  Proof.
    intros H Hp q u Hq. change (imem q (p :: seen)) with (ident_eqb q p || imem q seen). rewrite zmem_cons, (H q u Hq). f_equal.
    apply eq_true_iff_eq. rewrite ident_eqb_eq, Z.eqb_eq. split; [intros ->; congruence | intros E; apply N2Z.inj in E; subst u; eapply Hinj; eauto].
  Qed.

  Lemma seen_rel_temp seen seen_t t : seen_rel seen seen_t -> (t < 0)%Z -> seen_rel seen (t :: seen_t).
  Proof. intros H Ht q u Hq. rewrite zmem_cons, (H q u Hq). destruct (Z.eqb_spec (Z.of_N u) t); [lia | reflexivity]. Qed.

  Lemma seen_rel_dup seen seen_t p t : seen_rel seen seen_t -> al_get ident_eqb named p = Some t -> imem p seen = true ->
    seen_rel seen (Z.of_N t :: seen_t).
  Proof.
    intros H Hp Hs q u Hq. rewrite zmem_cons, <- (H q u Hq). destruct (Z.eqb_spec (Z.of_N u) (Z.of_N t)) as [E|]; [|reflexivity].
    apply N2Z.inj in E. subst u. rewrite (Hinj _ _ _ Hq Hp). exact Hs.
  Qed.

  Lemma bound_inv_cons e seen p w : bound_inv e seen -> al_get ident_eqb e p = Some w -> bound_inv e (p :: seen).
  Proof. intros [Hnd H] Hp. split; [exact Hnd|]. intros q Hq. apply imem_cons in Hq. destruct Hq as [->|Hq]; [eauto | apply H, Hq]. Qed.

  Lemma bound_inv_snoc e seen p v : bound_inv e seen -> al_get ident_eqb e p = None -> bound_inv (e ++ [(p, v)]) (p :: seen).
  Proof.
    intros [Hnd H] Hp. split; [rewrite map_app; apply NoDup_snoc; [exact Hnd | apply (al_get_none ident_eqb ident_eqb_eq), Hp]|].
    intros q Hq. rewrite (al_get_app ident_eqb). apply imem_cons in Hq. destruct Hq as [->|Hq].
    - rewrite Hp. cbn. rewrite (eqb_refl' ident_eqb ident_eqb_eq). eauto.
    - destruct (H q Hq) as (w & ->). eauto.
  Qed.

  Lemma step_agree rc f fc t v e c seen seen_t :
    represents rc f -> comp_rep rc fc (NPat t) -> env_ctx e c -> seen_rel seen seen_t -> bound_inv e seen ->
    match fstep (f_ncons f) fc v e seen with
    | Some (e1, s1) => exists c1, env_ctx e1 c1 /\ seen_rel s1 (t :: seen_t) /\ bound_inv e1 s1 /\
                                  forall c2, tstep ufn t (if (0 <=? t)%Z && zmem t seen_t then [] else cons_for rc t) v c c2 <-> c2 = c1
    | None => forall c2, ~ tstep ufn t (if (0 <=? t)%Z && zmem t seen_t then [] else cons_for rc t) v c c2
    end.
  Proof.
    intros Hrep Hc He Hs Hb. unfold tstep. destruct fc as [x|p|cs]; cbn in Hc; [contradiction| |]; cbn [fstep].
    - destruct Hc as [Hpos Hp]. pose proof (Z2N.id t ltac:(lia)) as Ht. revert Hp Ht. generalize (Z.to_N t). intros u Hp <-.
      rewrite (proj2 (Z.leb_le 0 _)) by lia. cbn [andb]. rewrite (env_ctx_get e c p u He Hp), cons_for_opts.
      rewrite <- (Hs p u Hp).     (* the tree has seen the tag iff the source side has seen the pattern *)
      pose proof (cnf_true_rel e c v _ _ He (rp_named _ _ Hrep p u Hp)) as Hcnf.
      destruct (al_get ident_eqb e p) as [w|] eqn:Ew; [destruct (bytes_eqb v w) eqn:Evw; cbn [negb]; [destruct (imem p seen) eqn:Esn|]|].
      + (* bound to v, seen before in this name: no constraints are checked again *)
        apply bytes_eqb_spec in Evw. subst w. exists c. split; [exact He|]. split; [eapply seen_rel_dup; eauto|]. split; [exact Hb|].
        intros c2. split; [intros (_ & _ & ->); reflexivity | intros ->; split; [constructor | auto]].
      + (* bound to v by an earlier name (the packet's, when checking a key): first occurrence here *)
        apply bytes_eqb_spec in Evw. subst w. destruct (cons_hold ufn e v (cons_on p (f_ncons f))).
        * exists c. split; [exact He|]. split; [apply seen_rel_cons; auto|]. split; [eapply bound_inv_cons; eauto|].
          intros c2. split; [intros (_ & _ & ->); reflexivity | intros ->; split; [apply Hcnf; reflexivity | auto]].
        * intros c2 (H & _). apply Hcnf in H. discriminate.
      + (* bound to another value *)
        intros c2 (_ & -> & _). rewrite bytes_eqb_refl in Evw. discriminate.
      + (* not bound, hence not seen: the pattern is bound here *)
        replace (imem p seen) with false by (destruct (imem p seen) eqn:Esn; [destruct (proj2 Hb p Esn); congruence | reflexivity]).
        destruct (cons_hold ufn e v (cons_on p (f_ncons f))).
        * exists (c ++ [(u, v)]). split; [apply Forall2_app; [exact He | repeat constructor; exact Hp]|]. split; [apply seen_rel_cons; auto|]. split; [apply bound_inv_snoc; assumption|].
          intros c2. split; [intros (_ & ->); reflexivity | intros ->; split; [apply Hcnf; reflexivity | reflexivity]].
        * intros c2 (H & _). apply Hcnf in H. discriminate.
    - destruct Hc as [Hneg Hcs]. replace (0 <=? t)%Z with false by (symmetry; apply Z.leb_gt; lia). cbn [andb].
      rewrite cons_for_opts. pose proof (cnf_true_rel e c v _ _ He Hcs) as Hcnf. destruct (cons_hold ufn e v cs).
      + exists c. split; [exact He|]. split; [apply seen_rel_temp; auto|]. split; [exact Hb|].
        intros c2. split; [intros (_ & ->); reflexivity | intros ->; split; [apply Hcnf; reflexivity | reflexivity]].
      + intros c2 (H & _). apply Hcnf in H. discriminate.
  Qed.

  Theorem represents_sem rc f : represents rc f ->
    forall comps ncomps, Forall2 (comp_rep rc) comps ncomps ->
    forall name e c seen seen_t, env_ctx e c -> seen_rel seen seen_t -> bound_inv e seen ->
    (forall c', chain_sem ufn (cons_for rc) seen_t ncomps name c c' ->
                exists e', chain_match ufn (f_ncons f) comps name e seen = Some e' /\ env_ctx e' c' /\ NoDup (map fst e')) /\
    (forall e', chain_match ufn (f_ncons f) comps name e seen = Some e' ->
                exists c', env_ctx e' c' /\ NoDup (map fst e') /\ chain_sem ufn (cons_for rc) seen_t ncomps name c c').
  Proof.
    intros Hrep comps ncomps Hf. induction Hf as [|fc nc comps ncomps Hc _ IH]; intros name e c seen seen_t He Hs Hb; destruct name as [|v name].
    - cbn. destruct Hb as [Hnd _]. split; [intros c' ->; exists e; auto | intros e' H; injection H as <-; exists c; auto].
    - cbn. split; [intros c' [] | intros e' H; discriminate].
    - cbn. split; [intros c' H; destruct nc; destruct H | intros e' H; destruct fc; discriminate].
    - destruct nc as [y|t|r]; [| | destruct fc; destruct Hc].
      + destruct fc as [x|p|cs]; cbn in Hc; try contradiction. subst y. cbn [chain_sem chain_match].
        destruct (IH name e c seen seen_t He Hs Hb) as [IH1 IH2]. split.
        * intros c' [-> H]. rewrite bytes_eqb_refl. apply IH1, H.
        * intros e' H. destruct (bytes_eqb x v) eqn:E; [|discriminate]. apply bytes_eqb_spec in E. subst x.
          destruct (IH2 e' H) as (c' & He' & Hnd' & Hsem). exists c'. auto.
      + cbn [chain_sem]. rewrite chain_match_cons. pose proof (step_agree rc f fc t v e c seen seen_t Hrep Hc He Hs Hb) as Hstep.
        destruct (fstep (f_ncons f) fc v e seen) as [[e1 s1]|].
        * destruct Hstep as (c1 & He1 & Hs1 & Hb1 & Hstep). destruct (IH name e1 c1 s1 _ He1 Hs1 Hb1) as [IH1 IH2]. split.
          -- intros c' (c2 & H2 & H3). apply Hstep in H2. subst c2. apply IH1, H3.
          -- intros e' H. destruct (IH2 e' H) as (c' & He' & Hnd' & Hsem). exists c'. split; [exact He'|]. split; [exact Hnd'|].
             exists c1. split; [apply Hstep; reflexivity | exact Hsem].
        * split; [intros c' (c2 & H2 & _); destruct (Hstep c2 H2) | intros e' H; discriminate].
  Qed.

  Lemma seen_rel_nil : seen_rel [] [].
  Proof. intros p t _. reflexivity. Qed.

  Lemma bound_inv_nil e : NoDup (map fst e) -> bound_inv e [].
  Proof. intros Hnd. split; [exact Hnd | intros p Hp; discriminate Hp]. Qed.
End Represents.
