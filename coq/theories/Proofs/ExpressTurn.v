(* C03 / C05 — one loop turn of the whole state reduces to the per-record turn ([rturn]) plus a filter of the PIT;
   the state after the turn simulates the automata when every record satisfies its per-record obligation ([turn_rep]). *)
From NDN Require Import Base.Prelude Spec.ExpressSpec Model.ExpressPipeline Proofs.ExpressBasics Proofs.ExpressInv
  Proofs.ExpressSafety Proofs.ExpressRec.
Local Open Scope N_scope.

(* a turn reads and writes [ints], [pit] and [now] only *)
Definition core_eq (s s' : st) : Prop := ints s = ints s' /\ pit s = pit s' /\ now s = now s'.
Lemma core_eq_refl s : core_eq s s. Proof. repeat split. Qed.
Lemma core_upd_all f s s' : core_eq s s' -> core_eq (upd_all f s) (upd_all f s').
Proof. intros [A [B C]]. unfold core_eq, upd_all; cbn. rewrite A, B, C. auto. Qed.
Lemma core_fire b t s s' : core_eq s s' -> core_eq (fire b t s) (fire b t s').
Proof. apply core_upd_all. Qed.
Lemma core_settle fe s s' : core_eq s s' -> core_eq (settle fe s) (settle fe s').
Proof.
  intros H. apply (core_upd_all (sv_rec fe)) in H. unfold settle.
  set (s1 := upd_all (sv_rec fe) s) in *. set (s1' := upd_all (sv_rec fe) s') in *. destruct H as [A [B C]].
  cbn [now set_pit]. rewrite A, B, C. apply core_upd_all. repeat split; assumption.
Qed.

Lemma srep_core fe sb s s' sg : core_eq s' s -> srep fe sb s sg -> srep fe sb s' sg.
Proof.
  intros [A [B C]]. unfold srep, inv_struct, pit_ok, pit_entries, get_int. rewrite A, B, C. auto.
Qed.

(* the batch form of the operations of Model/ExpressPipeline.v *)
Definition gsync (g : N -> irec -> eff) (kp : name -> N -> entry -> bool) (s : st) : st :=
  upd_all g (set_pit s (pit_map kp (pit s))).

(* one loop turn around the synchronous effect [gsync g kp]: before it the timers due mid-turn (tie [Mid]), after it the
   timers with strictness [sb], then [settle] *)
Definition turn (fe : frontend) (mid sb : bool) (t : N) (g : N -> irec -> eff) (kp : name -> N -> entry -> bool) (s : st) : st :=
  settle fe (fire sb t (gsync g kp (if mid then fire false t s else s))).

Lemma pit_ok_gsync s g kp : pit_ok s -> (forall i r, same_static r (f_rec (g i r))) -> pit_ok (gsync g kp s).
Proof. intros P SS. apply pit_ok_upd_all; [apply pit_ok_filter, P | exact SS]. Qed.

(* the stages of a turn: [tA0] after the mid-turn timers; [tA3] after the event's synchronous effect, the timers and
   the validation tasks; [tA4] once the PIT has lost the entries of the records that ask for cleanup *)
Definition tA0 (mid : bool) (t : N) (s : st) : st := if mid then fire false t s else s.
Definition tA3 (fe : frontend) (mid sb : bool) (t : N) g kp (s : st) : st :=
  upd_all (sv_rec fe) (fire sb t (gsync g kp (tA0 mid t s))).
Definition tclean (fe : frontend) (mid sb : bool) (t : N) g kp (s : st) (pn : name) (nid : N) (e : entry) : bool :=
  negb (cleaning (ints (tA3 fe mid sb t g kp s)) pn nid e).
Definition tA4 (fe : frontend) (mid sb : bool) (t : N) g kp (s : st) : st :=
  set_pit (tA3 fe mid sb t g kp s) (pit_map (tclean fe mid sb t g kp s) (pit (tA3 fe mid sb t g kp s))).

Lemma tA0_pit mid t s : pit (tA0 mid t s) = pit s. Proof. unfold tA0. destruct mid; reflexivity. Qed.
Lemma tA0_now mid t s : now (tA0 mid t s) = now s. Proof. unfold tA0. destruct mid; reflexivity. Qed.
Lemma tA0_shut mid t s : shut (tA0 mid t s) = shut s. Proof. unfold tA0. destruct mid; reflexivity. Qed.

Lemma settle_unfold fe x :
  settle fe x = gsync (ws_rec fe (now x)) (fun pn nid e => negb (cleaning (ints (upd_all (sv_rec fe) x)) pn nid e))
                      (upd_all (sv_rec fe) x).
Proof. reflexivity. Qed.

Lemma turn_unfold fe mid sb t g kp s :
  turn fe mid sb t g kp s = gsync (ws_rec fe (now s)) (tclean fe mid sb t g kp s) (tA3 fe mid sb t g kp s).
Proof.
  unfold turn. rewrite settle_unfold.
  replace (now (fire sb t (gsync g kp (if mid then fire false t s else s)))) with (now s) by (destruct mid; reflexivity).
  reflexivity.
Qed.

Lemma turn_now fe mid sb t g kp s : now (turn fe mid sb t g kp s) = now s.
Proof. unfold turn, settle, fire, gsync. destruct mid; reflexivity. Qed.

Lemma tA3_get fe mid sb t g kp s i :
  get_int (tA3 fe mid sb t g kp s) i = option_map (rready fe mid sb t (g i) i) (get_int s i).
Proof.
  unfold tA3, fire, gsync. rewrite !get_int_upd_all, get_int_set_pit. unfold tA0.
  destruct mid; [unfold fire; rewrite get_int_upd_all|]; destruct (get_int s i); reflexivity.
Qed.

Lemma turn_get fe mid sb t g kp s i :
  now s = t -> get_int (turn fe mid sb t g kp s) i = option_map (rturn fe mid sb t (g i) i) (get_int s i).
Proof.
  intros <-. rewrite turn_unfold. unfold gsync. rewrite get_int_upd_all, get_int_set_pit, tA3_get.
  destruct (get_int s i); reflexivity.
Qed.

Lemma tA3_pit fe mid sb t g kp s : pit (tA3 fe mid sb t g kp s) = pit_map kp (pit s).
Proof. unfold tA3, fire, gsync, tA0. rewrite !upd_all_pit. cbn [pit set_pit]. destruct mid; reflexivity. Qed.

Lemma turn_pit fe mid sb t g kp s :
  pit (turn fe mid sb t g kp s) = pit_map (tclean fe mid sb t g kp s) (pit_map kp (pit s)).
Proof. rewrite turn_unfold. unfold gsync at 1. rewrite upd_all_pit. cbn [pit set_pit]. rewrite tA3_pit. reflexivity. Qed.

Lemma turn_ids fe mid sb t g kp s : map fst (ints (turn fe mid sb t g kp s)) = map fst (ints s).
Proof.
  unfold turn. rewrite settle_ids, fire_ids. unfold gsync. rewrite ids_upd_all. cbn [ints set_pit].
  destruct mid; [apply fire_ids | reflexivity].
Qed.

Lemma pit_ok_fire b t s : pit_ok s -> pit_ok (fire b t s).
Proof. intros P. apply pit_ok_upd_all; [exact P | intros i r; apply (benign_fire b t i r)]. Qed.
Lemma pit_ok_tA0 mid t s : pit_ok s -> pit_ok (tA0 mid t s).
Proof. destruct mid; [apply pit_ok_fire | auto]. Qed.

Lemma pit_ok_tA3 fe mid sb t g kp s :
  pit_ok s -> (forall i r, same_static r (f_rec (g i r))) -> pit_ok (tA3 fe mid sb t g kp s).
Proof.
  intros P SS. unfold tA3. apply pit_ok_upd_all; [|intros; apply benign_sv].
  apply pit_ok_fire, pit_ok_gsync; [apply pit_ok_tA0, P | exact SS].
Qed.

Lemma cleaning_self l i r :
  al_get N.eqb l i = Some r -> cleaning l (i_name r) (i_node r) (entry_of i r) = wants_cleanup r.
Proof.
  intros G. unfold cleaning. cbn [e_id entry_of]. rewrite G, name_eqb_refl, N.eqb_refl, !andb_true_r. reflexivity.
Qed.

Lemma turn_sim fe mid sb t g kp s s' (sg' : N -> istate) :
  core_eq s' (turn fe mid sb t g kp s) ->
  now s = t -> inv_struct s ->
  (forall i r, same_static r (f_rec (g i r))) ->
  (forall i, match get_int s i with
             | Some r => turn_rep fe sb t i (sg' i) (kp (i_name r) (i_node r) (entry_of i r)) r (rready fe mid sb t (g i) i r)
             | None => sg' i = INone
             end) ->
  srep fe sb s' sg' /\ now s' = t.
Proof.
  intros CE Nw [K [P M]] SS HR.
  assert (G' : forall i, get_int (turn fe mid sb t g kp s) i = option_map (rturn fe mid sb t (g i) i) (get_int s i))
    by (intros i; apply turn_get, Nw).
  split; [apply (srep_core fe sb _ _ sg' CE); split; [split; [|split]|] | destruct CE as [_ [_ ->]]; rewrite turn_now; exact Nw].
  - rewrite turn_ids. exact K.
  - rewrite turn_unfold. apply pit_ok_gsync; [apply pit_ok_tA3; auto | intros; apply benign_ws].
  - intros i r' Gi. rewrite G' in Gi. specialize (HR i). destruct (get_int s i) as [r|] eqn:G; [|discriminate]. injection Gi as <-.
    pose proof (tA3_get fe mid sb t g kp s i) as G3. rewrite G in G3. cbn [option_map] in G3.
    rewrite (mem_pit_map (tA3 fe mid sb t g kp s) (turn fe mid sb t g kp s) i _ (tclean fe mid sb t g kp s)
               (pit_ok_tA3 fe mid sb t g kp s P SS) G3) by (rewrite turn_pit, tA3_pit; reflexivity).
    rewrite (mem_pit_map s (tA3 fe mid sb t g kp s) i r kp P G (tA3_pit fe mid sb t g kp s)), (M i r G).
    unfold tclean. rewrite (cleaning_self _ i _ G3). symmetry. apply HR.
  - intros i. rewrite turn_now, Nw, G'. specialize (HR i). destruct (get_int s i) as [r|]; [apply HR | exact HR].
Qed.
