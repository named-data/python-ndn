(* Model/Svs.v refines Spec/SvsSpec.v.  The loops and the timer test of the model are the specification's functions;
   what one received vector does is said once ([recv_rejected], [recv_accepted]) and every statement about a step that
   receives is read off that pair.  Along a run: the invariant [wf] and the growth of the local vector, the local vector
   as [spec_run] of the history, and the aggregate as the specification's [heard] while in suppression, which gives
   [suppression_expiry]. *)
From NDN Require Import Base.Prelude Model.Svs Spec.SvsSpec Proofs.ListLemmas Proofs.SvsSpecFacts.
Local Open Scope N_scope.

Lemma sv_get_vget v k : sv_get v k = vget v k.
Proof. symmetry. apply vget_al_get. Qed.

Lemma sv_set_assign v k x : sv_set v k x = assign v k x.
Proof. reflexivity. Qed.

Lemma build_rsv_spec self q es : forall acc,
  build_rsv self q es acc = if acceptedb self q es then Some (denote_from acc es) else None.
Proof.
  induction es as [|e es IH]; intros acc; [reflexivity|].
  rewrite acceptedb_cons, denote_from_cons. destruct e as [[k|] [x|]]; cbn [build_rsv elem_ok].
  - destruct (bytes_eqb k self && (q <? x)); cbn [negb andb]; [reflexivity|]. apply IH.
  - reflexivity.
  - apply IH.
  - apply IH.
Qed.

(* The second loop and the aggregation both raise entry [i] to at least [q] for each pair of the received vector
   in turn; for a vector without repeated ids the result is the entry-wise maximum. *)
Lemma max_cons_fresh v v1 i q r :
  ~ In i (keys r) ->
  (forall k, vget v1 k = if bytes_eqb k i then N.max (vget v i) q else vget v k) ->
  forall k, N.max (vget v1 k) (vget r k) = N.max (vget v k) (vget ((i, q) :: r) k).
Proof.
  intros NI H k. rewrite H. cbn [vget].
  destruct (bytes_eqbP k i) as [->|_]; [rewrite (vget_notin r i NI); lia|reflexivity].
Qed.

Lemma vget_raise v i q k :
  vget (if vget v i <? q then assign v i q else v) k = if bytes_eqb k i then N.max (vget v i) q else vget v k.
Proof.
  destruct (N.ltb_spec (vget v i) q); [rewrite vget_assign|]; destruct (bytes_eqbP k i) as [->|_]; lia.
Qed.

(* one round of the second loop; what becomes of [n], the code's need_notif, is left open *)
Lemma merge_loop_cons i q r loc n f res :
  merge_loop ((i, q) :: r) loc n f = res ->
  exists n1, merge_loop r (if vget loc i <? q then assign loc i q else loc) n1 (f || (vget loc i <? q)) = res.
Proof.
  intros <-. cbn [merge_loop]. rewrite sv_get_vget. destruct (vget loc i <? q).
  - exists n. rewrite orb_true_r. reflexivity.
  - rewrite orb_false_r. destruct (q <? vget loc i); eexists; reflexivity.
Qed.

(* [f'], the code's need_fetch, is set exactly when an entry is raised *)
Lemma merge_loop_spec rsv : NoDup (keys rsv) -> forall loc n f loc' n' f',
  merge_loop rsv loc n f = (loc', n', f') ->
  (forall k, vget loc' k = N.max (vget loc k) (vget rsv k)) /\
  (f' = true <-> f = true \/ exists k, vget loc k < vget loc' k) /\
  (NoDup (keys loc) -> NoDup (keys loc')).
Proof.
  induction rsv as [|[i q] r IH]; intros ND loc n f loc' n' f' H.
  - injection H as <- _ <-. split; [|split]; [intros k; cbn; lia| |auto].
    split; [auto|]. intros [F|(k & Hk)]; [exact F|lia].
  - cbn [keys map fst] in ND. inversion ND as [|? ? NI ND']; subst.
    apply merge_loop_cons in H as [n1 H].
    apply IH in H; [|assumption]. destruct H as (A & B & C).
    split; [intros k; rewrite A; apply max_cons_fresh; [exact NI|apply vget_raise]|].
    specialize (A i). rewrite vget_raise, bytes_eqb_refl in A.
    destruct (N.ltb_spec (vget loc i) q) as [L|L].
    + split; [|intros NDl; apply C, nodup_assign, NDl].
      split; intros _; [|apply B; left; apply orb_true_r].
      right. exists i. lia.
    + rewrite orb_false_r in B. split; assumption.
Qed.

Lemma aggregate_get rsv : NoDup (keys rsv) -> forall ag k,
  vget (aggregate rsv ag) k = N.max (vget ag k) (vget rsv k).
Proof.
  induction rsv as [|[i q] r IH]; intros ND ag k; [cbn; lia|].
  cbn [keys map fst] in ND. inversion ND as [|? ? NI ND']; subst.
  cbn [aggregate]. rewrite IH by assumption. apply max_cons_fresh; [assumption|].
  intros k'. rewrite sv_get_vget. apply vget_assign.
Qed.

(* [needs_sync] reads the aggregate only entry by entry, so any vector equal to it entry-wise will do *)
Lemma needs_sync_spec loc ag hd :
  NoDup (keys loc) -> veq ag hd -> (needs_sync loc ag = true <-> newer loc hd).
Proof.
  intros ND V. unfold needs_sync, newer. rewrite existsb_exists. split.
  - intros ([k x] & HI & L). cbn [fst snd] in L. exists k.
    rewrite (vget_in_nodup loc k x ND HI), <- V, <- sv_get_vget. lia.
  - intros (k & L). exists (k, vget loc k). split.
    + apply vget_in_pair. lia.
    + cbn [fst snd]. rewrite sv_get_vget, V. lia.
Qed.

Lemma recv_rejected c s now r es :
  ~ accepted (c_self c) (self_seq s) es -> handle_vector c s now r es = (s, quiet 3).
Proof.
  intros A. destruct es as [|e es'].
  - destruct A. apply acceptedb_spec. reflexivity.
  - unfold handle_vector. rewrite build_rsv_spec.
    destruct (acceptedP (c_self c) (self_seq s) (e :: es')); [contradiction|reflexivity].
Qed.

Lemma recv_accepted c s now r es :
  accepted (c_self c) (self_seq s) es ->
  let s' := fst (handle_vector c s now r es) in
  let o := snd (handle_vector c s now r es) in
  (forall k, vget (local s') k = N.max (vget (local s) k) (vget (denote es) k)) /\
  (o_cb o = true <-> exists k, vget (local s) k < vget (local s') k) /\
  self_seq s' = self_seq s /\
  (NoDup (keys (local s)) -> NoDup (keys (local s'))) /\
  o_emit o = None /\ o_raise o = false /\
  match mode s, mode s' with
  | Steady, Steady => True
  | Steady, Suppression => agg s' = denote es
  | Suppression, Suppression => veq (agg s') (pmax (agg s) (denote es))
  | Suppression, Steady => False
  end.
Proof.
  intros A. apply acceptedb_spec in A. unfold handle_vector. destruct es as [|e es'].
  - cbn. repeat split; try lia; try discriminate; auto.
    + intros (k & Hk). lia.
    + destruct (mode s); [exact I|]. intros k. rewrite pmax_get. cbn. lia.
  - (* past the emptiness test only the vector as a whole matters: keep it folded *)
    cbv iota. set (es := e :: es') in *. clearbody es.
    rewrite build_rsv_spec, A, denote_from_nil.
    destruct (merge_loop (denote es) (local s) (has_new_key (denote es) (local s)) false)
      as [[loc notif] fetch] eqn:M.
    apply merge_loop_spec in M; [|apply denote_nodup]. destruct M as (G & F & C).
    assert (F' : fetch = true <-> exists k, vget (local s) k < vget loc k).
    { rewrite F. split; [intros [?|?]; [discriminate|assumption]|auto]. }
    assert (Hagg : veq (aggregate (denote es) (agg s)) (pmax (agg s) (denote es))).
    { intros k. rewrite aggregate_get, pmax_get by apply denote_nodup. reflexivity. }
    (* only the last clause depends on the notification and the mode *)
    destruct notif, (mode s); cbn;
      refine (conj G (conj F' (conj eq_refl (conj C (conj eq_refl (conj eq_refl _)))))).
    + reflexivity.
    + exact Hagg.
    + exact I.
    + exact Hagg.
Qed.

Theorem not_accepted_ignored c s now r x :
  match x with RVec es => ~ accepted (c_self c) (self_seq s) es | _ => True end ->
  fst (step c s (ERecv now r x)) = s /\
  o_cb (snd (step c s (ERecv now r x))) = false /\ o_emit (snd (step c s (ERecv now r x))) = None.
Proof.
  intros NA. destruct x as [| | | |es]; cbn; auto.
  rewrite recv_rejected by exact NA. cbn. auto.
Qed.

Lemma sync_handler_other c s now r x :
  (forall es, x <> RVec es) -> fst (sync_handler c s now r x) = s /\
  o_cb (snd (sync_handler c s now r x)) = false /\ o_emit (snd (sync_handler c s now r x)) = None.
Proof. intros H. apply (not_accepted_ignored c s now r x). destruct x; try exact I. destruct (H es eq_refl). Qed.

Lemma clock_due c s now r : next_timing s <= now -> step c s (EClock now r) = timer_fire c s now r.
Proof. intros H. apply N.leb_le in H. cbn [step]. rewrite H. reflexivity. Qed.

Lemma clock_early c s now r : now < next_timing s -> step c s (EClock now r) = (s, quiet 13).
Proof. intros H. apply N.leb_gt in H. cbn [step]. rewrite H. reflexivity. Qed.

Lemma run_cons c s e h : run c s (e :: h) = run c (fst (step c s e)) h.
Proof. reflexivity. Qed.

Definition wf (c : cfg) (s : st) : Prop :=
  NoDup (keys (local s)) /\ vget (local s) (c_self c) <= self_seq s.

Lemma wf_set_self c s x ag m q t :
  wf c s -> x <= q ->
  wf c {| local := sv_set (local s) (c_self c) x; agg := ag; mode := m; self_seq := q; next_timing := t |}.
Proof.
  intros [ND _] L. split; cbn.
  - apply nodup_assign, ND.
  - rewrite sv_set_assign, vget_assign_same. exact L.
Qed.

Lemma wf_new_data c s : wf c s -> wf c (new_data c s).
Proof. intros W. apply wf_set_self; [exact W|lia]. Qed.

Lemma wf_iter c k s : wf c s -> wf c (Nat.iter k (new_data c) s).
Proof. intros W. induction k; cbn [Nat.iter]; [exact W|apply wf_new_data, IHk]. Qed.

Lemma wf_construct c last : wf c (construct last).
Proof. split; cbn; [constructor|lia]. Qed.

(* start() -- also a re-start after stop() -- of any well-formed (constructed / stopped) state.  Publications made while
   the instance is not running are [new_data] steps of that state ([publish] below holds for every state). *)
Lemma wf_start c s : wf c s -> wf c (start c s).
Proof. intros W. apply wf_set_self; [exact W|lia]. Qed.

Lemma wf_init c last k : wf c (init c last k).
Proof. apply wf_start, wf_iter, wf_construct. Qed.

Lemma start_spec c s :
  self_seq (start c s) = self_seq s /\
  vget (local (start c s)) (c_self c) = self_seq s /\
  (forall k, k <> c_self c -> vget (local (start c s)) k = vget (local s) k) /\
  next_timing (start c s) = next_timing s /\ mode (start c s) = mode s.
Proof.
  cbn. rewrite sv_set_assign. repeat split.
  - apply vget_assign_same.
  - intros k H. apply vget_assign_other. assumption.
Qed.

Lemma step_wf c s e :
  wf c s -> wf c (fst (step c s e)) /\ forall k, vget (local s) k <= vget (local (fst (step c s e))) k.
Proof.
  intros W. assert (Same : wf c s /\ forall k, vget (local s) k <= vget (local s) k).
  { split; [exact W|]. intros k. apply N.le_refl. }
  destruct W as [ND LE]. destruct e as [now r x| |now r]; cbn [step].
  - destruct x as [| | | |es]; cbn [sync_handler fst]; try exact Same.
    destruct (acceptedP (c_self c) (self_seq s) es) as [A|A]; [|rewrite recv_rejected by exact A; exact Same].
    destruct (recv_accepted c s now r es A) as (G & _ & Q & C & _). pose proof (accepted_self_le _ _ _ A).
    repeat split; [apply C, ND|rewrite G, Q; lia|intros k; rewrite G; lia].
  - split; [apply wf_new_data, (proj1 Same)|]. intros k. cbn. rewrite sv_set_assign, vget_assign.
    destruct (bytes_eqbP k (c_self c)) as [->|_]; lia.
  - destruct (next_timing s <=? now); exact Same.
Qed.

Lemma run_keeps c h s :
  wf c s -> wf c (run c s h) /\ forall k, vget (local s) k <= vget (local (run c s h)) k.
Proof.
  apply (fold_left_keeps (wf c) (fun a b => forall k, vget (local a) k <= vget (local b) k)).
  - intros a k. apply N.le_refl.
  - intros a b d H1 H2 k. exact (N.le_trans _ _ _ (H1 k) (H2 k)).
  - intros a e. apply step_wf.
Qed.

Lemma wf_run c h s : wf c s -> wf c (run c s h).
Proof. intros W. apply (run_keeps c h s W). Qed.

Theorem missing_iff_raised c s now r x :
  o_cb (snd (step c s (ERecv now r x))) = true <->
  exists k, vget (local s) k < vget (local (fst (step c s (ERecv now r x)))) k.
Proof.
  assert (Same : false = true <-> exists k, vget (local s) k < vget (local s) k).
  { split; [discriminate|]. intros (k & Hk). lia. }
  destruct x as [| | | |es]; cbn [step sync_handler]; try exact Same.
  destruct (acceptedP (c_self c) (self_seq s) es) as [A|A]; [|rewrite recv_rejected by exact A; exact Same].
  apply (recv_accepted c s now r es A).
Qed.

Theorem missing_iff_raises_accepted c s now r es :
  accepted (c_self c) (self_seq s) es ->
  (o_cb (snd (step c s (ERecv now r (RVec es)))) = true <-> raises (local s) es).
Proof.
  intros A. rewrite missing_iff_raised. unfold raises. cbn [step sync_handler].
  split; intros (k & Hk); exists k; rewrite (proj1 (recv_accepted c s now r es A) k) in *; lia.
Qed.

Theorem monotone c h : forall s, wf c s -> forall k, vget (local s) k <= vget (local (run c s h)) k.
Proof. intros s W. apply (run_keeps c h s W). Qed.

Definition habs (e : event) : hev :=
  match e with ERecv _ _ (RVec es) => HRecv es | EPublish => HPublish | _ => HOther end.

Definition tracks (s : st) (ls : vec * N) : Prop := veq (local s) (fst ls) /\ self_seq s = snd ls.

Lemma local_step_refines c s ls e :
  tracks s ls -> tracks (fst (step c s e)) (spec_step (c_self c) ls (habs e)).
Proof.
  intros [V Q]. destruct e as [now r x| |now r]; cbn [step habs].
  - destruct x as [| | | |es]; cbn [sync_handler fst spec_step]; try (split; assumption).
    rewrite <- Q. destruct (acceptedP (c_self c) (self_seq s) es) as [A|A];
      [|rewrite recv_rejected by exact A; split; assumption].
    destruct (recv_accepted c s now r es A) as (G & _ & Q' & _).
    split; cbn [fst snd]; [|exact Q']. intros k. rewrite G, pmax_get, V. reflexivity.
  - split; cbn; [|lia]. rewrite sv_set_assign, Q. apply assign_veq. assumption.
  - cbn [spec_step]. destruct (next_timing s <=? now); split; assumption.
Qed.

Theorem local_history c h : forall s ls,
  tracks s ls -> tracks (run c s h) (spec_run (c_self c) ls (map habs h)).
Proof.
  induction h as [|e h IH]; intros s ls T; [exact T|].
  exact (IH _ _ (local_step_refines c s ls e T)).
Qed.

Theorem publish c s :
  let s' := fst (step c s EPublish) in
  self_seq s' = self_seq s + 1 /\
  vget (local s') (c_self c) = self_seq s + 1 /\
  (forall k, k <> c_self c -> vget (local s') k = vget (local s) k) /\
  next_timing s' = 0 /\
  forall now r, o_emit (snd (step c s' (EClock now r))) = Some (local s') /\
                local (fst (step c s' (EClock now r))) = local s'.
Proof.
  cbv zeta. change (fst (step c s EPublish)) with (new_data c s). repeat split; try reflexivity.
  - apply vget_assign_same.
  - intros k N. apply vget_assign_other, N.
  - rewrite clock_due by apply N.le_0_l. reflexivity.
  - rewrite clock_due by apply N.le_0_l. reflexivity.
Qed.

Definition in_suppression (s : st) : bool := match mode s with Suppression => true | Steady => false end.

Definition observe (c : cfg) (s : st) (e : event) : obs :=
  (match e with
   | ERecv _ _ (RVec es) => if acceptedb (c_self c) (self_seq s) es then Some (denote es) else None
   | _ => None
   end,
   in_suppression (fst (step c s e))).

Fixpoint trace (c : cfg) (s : st) (h : list event) : list obs :=
  match h with
  | [] => []
  | e :: h' => observe c s e :: trace c (fst (step c s e)) h'
  end.

Definition window_inv (s : st) (cur : option vec) : Prop :=
  match mode s with
  | Steady => cur = None
  | Suppression => exists hd, cur = Some hd /\ veq (agg s) hd
  end.

Lemma window_step c s e cur :
  window_inv s cur -> window_inv (fst (step c s e)) (heard_step cur (observe c s e)).
Proof.
  intros J.
  assert (Same : window_inv s (heard_step cur (None, in_suppression s))).
  { unfold window_inv, heard_step, in_suppression in *. cbn. destruct (mode s); auto. }
  destruct e as [now r x| |now r]; unfold observe; cbn [step].
  - destruct x as [| | | |es]; try exact Same. cbn [sync_handler].
    destruct (acceptedP (c_self c) (self_seq s) es) as [A|A]; [|rewrite recv_rejected by exact A; exact Same].
    destruct (recv_accepted c s now r es A) as (_ & _ & _ & _ & _ & _ & AG).
    unfold window_inv, heard_step, in_suppression in *. cbn [fst snd].
    destruct (mode s), (mode (fst (handle_vector c s now r es))); try easy.
    + subst cur. exists (denote es). split; [reflexivity|]. rewrite AG. intros k. reflexivity.
    + destruct J as (hd & -> & V). exists (pmax hd (denote es)). split; [reflexivity|].
      intros k. rewrite AG, !pmax_get, V. reflexivity.
  - reflexivity.
  - destruct (next_timing s <=? now); [reflexivity|exact Same].
Qed.

Lemma window_run c h : forall s cur,
  window_inv s cur -> window_inv (run c s h) (fold_left heard_step (trace c s h) cur).
Proof.
  induction h as [|e h IH]; intros s cur J; [exact J|].
  rewrite run_cons. cbn [trace fold_left]. apply IH. apply window_step. exact J.
Qed.

(* at the expiry of a suppression period a sync Interest (with the full vector) is emitted iff the
   local vector is newer in some entry than the merge of the vectors heard in the period *)
Theorem suppression_expiry c s0 h :
  wf c s0 -> mode s0 = Steady ->
  let s := run c s0 h in
  mode s = Suppression ->
  exists hd, heard (trace c s0 h) = Some hd /\
    forall now r,
      (next_timing s <= now ->
         (newer (local s) hd -> o_emit (snd (step c s (EClock now r))) = Some (local s)) /\
         (~ newer (local s) hd -> o_emit (snd (step c s (EClock now r))) = None) /\
         mode (fst (step c s (EClock now r))) = Steady) /\
      (now < next_timing s -> step c s (EClock now r) = (s, quiet 13)).
Proof.
  intros W St s Sup.
  assert (J : window_inv s (heard (trace c s0 h))).
  { apply window_run. unfold window_inv. rewrite St. reflexivity. }
  unfold window_inv in J. rewrite Sup in J. destruct J as (hd & Hh & V).
  exists hd. split; [assumption|]. intros now r. split; [|apply clock_early].
  intros Due. rewrite (clock_due c s now r Due). unfold timer_fire. rewrite Sup. cbn [fst snd o_emit mode].
  pose proof (needs_sync_spec (local s) (agg s) hd (proj1 (wf_run c h s0 W)) V) as NS.
  destruct (needs_sync (local s) (agg s)); repeat split; try easy.
  - intros Hn. destruct Hn. apply NS. reflexivity.
  - intros Hn. apply NS in Hn. discriminate.
Qed.

Theorem steady_expiry c s now r :
  mode s = Steady -> next_timing s <= now ->
  o_emit (snd (step c s (EClock now r))) = Some (local s).
Proof. intros St Due. rewrite (clock_due c s now r Due). unfold timer_fire. rewrite St. reflexivity. Qed.

Theorem emit_full_vector c s e v :
  o_emit (snd (step c s e)) = Some v -> v = local s /\ local (fst (step c s e)) = local s.
Proof.
  destruct e as [now r x| |now r]; cbn [step].
  - destruct x as [| | | |es]; cbn [sync_handler]; try discriminate.
    destruct (acceptedP (c_self c) (self_seq s) es) as [A|A]; [|rewrite recv_rejected by exact A; discriminate].
    assert (E : o_emit (snd (handle_vector c s now r es)) = None) by apply (recv_accepted c s now r es A).
    rewrite E. discriminate.
  - discriminate.
  - destruct (next_timing s <=? now); cbn; [|discriminate].
    destruct (match mode s with Steady => true | Suppression => needs_sync (local s) (agg s) end);
      [|discriminate].
    intros E. injection E as <-. auto.
Qed.
