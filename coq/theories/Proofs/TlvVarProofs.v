(* Variable-size number / non-negative-integer codec: a successful read has the canonical form [tl_form]; round trips,
   sizes, shortest form. *)
From NDN Require Import Base.Prelude Model.TlvVar Proofs.BytesLemmas.
Local Open Scope N_scope.

Lemma pow256_2 : 256 ^ N.of_nat 2 = 65536. Proof. reflexivity. Qed.
Lemma pow256_4 : 256 ^ N.of_nat 4 = 4294967296. Proof. reflexivity. Qed.
Lemma pow256_8 : 256 ^ N.of_nat 8 = two64. Proof. reflexivity. Qed.
Lemma pow256_1 : 256 ^ N.of_nat 1 = 256. Proof. reflexivity. Qed.

(* width of the big-endian number that follows the marker byte [b] (253, 254 or 255) *)
Definition lenw (b : N) : nat := if b =? 253 then 2 else if b =? 254 then 4 else 8.

(* [w] begins with a variable-size number of value [v] that occupies [n] bytes *)
Inductive tl_form : bytes -> N -> nat -> Prop :=
| tlf_small b r : b <= 252 -> tl_form (b :: r) b 1
| tlf_big b x r : 252 < b -> length x = lenw b -> tl_form (b :: x ++ r) (be_to_N x) (S (lenw b)).

Lemma unpack_be_spec k r v : unpack_be k r = Ok v <-> exists x r', r = x ++ r' /\ length x = k /\ v = be_to_N x.
Proof.
  unfold unpack_be. split.
  - destruct (Nat.eqb_spec (length (firstn k r)) k) as [E|]; [|discriminate]. intros H; injection H as <-.
    exists (firstn k r), (skipn k r). rewrite firstn_skipn. auto.
  - intros (x & r' & -> & <- & ->). rewrite firstn_app_exact, Nat.eqb_refl. reflexivity.
Qed.

Lemma unpack_be_leb k r :
  unpack_be k r = if Nat.leb k (length r) then Ok (be_to_N (firstn k r)) else Err EStruct.
Proof.
  unfold unpack_be. rewrite firstn_length. destruct (Nat.leb_spec k (length r)).
  - rewrite Nat.min_l, Nat.eqb_refl by assumption. reflexivity.
  - rewrite Nat.min_r by lia. replace (Nat.eqb (length r) k) with false by lia. reflexivity.
Qed.

Lemma tl_dec_cons b r :
  tl_dec (b :: r) = if b <=? 252 then Ok (b, 1%nat) else do v <- unpack_be (lenw b) r ;; Ok (v, S (lenw b)).
Proof. cbn [tl_dec]. unfold lenw. destruct (b <=? 252), (b =? 253), (b =? 254); reflexivity. Qed.

Theorem tl_dec_spec w v n : tl_dec w = Ok (v, n) <-> tl_form w v n.
Proof.
  split.
  - destruct w as [|b r]; [discriminate|]. rewrite tl_dec_cons.
    destruct (N.leb_spec b 252) as [Hb|Hb]; [intros H; injection H as <- <-; constructor; exact Hb|].
    intros H. apply bind_ok in H as (x & U & H). injection H as <- <-.
    apply unpack_be_spec in U as (y & r' & -> & Hy & ->). constructor; assumption.
  - intros [b r Hb|b x r Hb Hx]; rewrite tl_dec_cons.
    + replace (b <=? 252) with true by lia. reflexivity.
    + replace (b <=? 252) with false by lia.
      rewrite (proj2 (unpack_be_spec _ _ _) (ex_intro _ x (ex_intro _ r (conj eq_refl (conj Hx eq_refl))))). reflexivity.
Qed.

Lemma tl_dec_ok w v n : tl_dec w = Ok (v, n) -> (1 <= n <= length w)%nat.
Proof. intros H. apply tl_dec_spec in H. destruct H; cbn [length]; rewrite ?app_length; lia. Qed.

Lemma tl_dec_prefix w v n : tl_dec w = Ok (v, n) ->
  forall m r', (n <= m)%nat -> tl_dec (firstn m w ++ r') = Ok (v, n).
Proof.
  intros H m r' Hm. apply tl_dec_spec in H. apply tl_dec_spec. destruct m as [|m]; [destruct H; lia|].
  destruct H as [b r Hb|b x r Hb Hx]; cbn [firstn app]; [constructor; exact Hb|].
  rewrite firstn_app, firstn_all2, <- app_assoc by lia. constructor; assumption.
Qed.

Lemma tl_dec_ext b x r :
  (b <=? 252) = false -> length x = lenw b -> tl_dec (b :: x ++ r) = Ok (be_to_N x, S (length x)).
Proof. intros Hb Hx. rewrite Hx. apply tl_dec_spec. constructor; [lia|exact Hx]. Qed.

Lemma tl_dec_firstn w v sz n : tl_dec w = Ok (v, sz) -> (sz <= n)%nat -> tl_dec (firstn n w) = Ok (v, sz).
Proof. intros H L. rewrite <- (app_nil_r (firstn n w)). exact (tl_dec_prefix _ _ _ H n [] L). Qed.

Lemma tl_size_mono a b : a <= b -> (tl_size a <= tl_size b)%nat.
Proof.
  intros H. unfold tl_size.
  destruct (a <=? 252) eqn:?; [destruct (b <=? 252), (b <=? 65535), (b <=? 4294967295); lia|].
  replace (b <=? 252) with false by lia.
  destruct (a <=? 65535) eqn:?; [destruct (b <=? 65535), (b <=? 4294967295); lia|].
  replace (b <=? 65535) with false by lia.
  destruct (a <=? 4294967295) eqn:?; [destruct (b <=? 4294967295); lia|].
  replace (b <=? 4294967295) with false by lia. lia.
Qed.

Lemma tl_size_pos t : (1 <= tl_size t)%nat.
Proof. unfold tl_size. destruct (t <=? 252); destruct (t <=? 65535); destruct (t <=? 4294967295); lia. Qed.

Lemma tl_size_add_inj m n : (tl_size (N.of_nat m) + m = tl_size (N.of_nat n) + n)%nat -> m = n.
Proof.
  intros H. destruct (Nat.lt_trichotomy m n) as [L|[E|L]]; [|exact E|].
  - pose proof (tl_size_mono (N.of_nat m) (N.of_nat n)). lia.
  - pose proof (tl_size_mono (N.of_nat n) (N.of_nat m)). lia.
Qed.

Lemma tl_enc_small v : v <= 252 -> tl_enc v = [v].
Proof. intros H. unfold tl_enc. replace (v <=? 252) with true by lia. reflexivity. Qed.

(* the writer: one table for the three extended forms, from which length, well-formedness and the form that is read
   back are taken *)
Lemma tl_enc_big v : 252 < v ->
  exists b, tl_enc v = b :: N_to_be (lenw b) v /\ tl_size v = S (lenw b) /\ 253 <= b <= 255 /\
            (v < two64 -> v < 256 ^ N.of_nat (lenw b)).
Proof.
  intros H. unfold tl_enc, tl_size. replace (v <=? 252) with false by lia.
  destruct (v <=? 65535) eqn:E2; [|destruct (v <=? 4294967295) eqn:E3].
  - exists 253. change (lenw 253) with 2%nat. rewrite pow256_2. repeat split; reflexivity || (unfold two64; lia).
  - exists 254. change (lenw 254) with 4%nat. rewrite pow256_4. repeat split; reflexivity || (unfold two64; lia).
  - exists 255. change (lenw 255) with 8%nat. rewrite pow256_8. repeat split; reflexivity || (unfold two64; lia).
Qed.

Lemma lenw_size b v : v < 256 ^ N.of_nat (lenw b) -> v < two64 /\ (tl_size v <= S (lenw b))%nat.
Proof.
  unfold lenw, tl_size, two64.
  destruct (b =? 253); [rewrite pow256_2|destruct (b =? 254); [rewrite pow256_4|rewrite pow256_8; unfold two64]];
    intros H; destruct (v <=? 252); destruct (v <=? 65535) eqn:?; destruct (v <=? 4294967295) eqn:?; lia.
Qed.

Lemma tl_enc_r_ok t : t < two64 -> tl_enc_r t = Ok (tl_enc t).
Proof. intros H. unfold tl_enc_r. replace (t <? two64) with true by lia. reflexivity. Qed.

Lemma nni_enc_r_ok v : v < two64 -> nni_enc_r v = Ok (nni_enc v).
Proof. intros H. unfold nni_enc_r. replace (v <? two64) with true by lia. reflexivity. Qed.

Lemma tl_enc_length v : length (tl_enc v) = tl_size v.
Proof.
  destruct (N.leb_spec v 252) as [H|H].
  - rewrite tl_enc_small by exact H. unfold tl_size. replace (v <=? 252) with true by lia. reflexivity.
  - destruct (tl_enc_big v H) as (b & -> & -> & _). cbn [length]. rewrite N_to_be_length. reflexivity.
Qed.

Lemma tl_enc_r_inv t th : tl_enc_r t = Ok th -> th = tl_enc t /\ t < two64.
Proof. unfold tl_enc_r. destruct (N.ltb_spec t two64) as [H|_]; [|discriminate]. intros E. injection E as <-. exact (conj eq_refl H). Qed.

Lemma tl_enc_r_length t th : tl_enc_r t = Ok th -> length th = tl_size t.
Proof. intros H. apply tl_enc_r_inv in H as [-> _]. apply tl_enc_length. Qed.

Lemma tl_enc_wf v : v < two64 -> wf_bytes (tl_enc v).
Proof.
  intros Hv. destruct (N.leb_spec v 252) as [H|H].
  - rewrite tl_enc_small by exact H. constructor; [lia|constructor].
  - destruct (tl_enc_big v H) as (b & -> & _ & Hb & _). constructor; [lia|apply N_to_be_wf].
Qed.


Theorem tl_enc_form v r : v < two64 -> tl_form (tl_enc v ++ r) v (tl_size v).
Proof.
  intros Hv. destruct (N.leb_spec v 252) as [H|H].
  - rewrite tl_enc_small by exact H. unfold tl_size. replace (v <=? 252) with true by lia. constructor. exact H.
  - destruct (tl_enc_big v H) as (b & -> & -> & Hb & Hlt).
    rewrite <- (be_to_N_to_be_small (lenw b) v (Hlt Hv)) at 2. constructor; [lia|apply N_to_be_length].
Qed.

Theorem tl_dec_enc v r : v < two64 -> tl_dec (tl_enc v ++ r) = Ok (v, tl_size v).
Proof. intros Hv. apply tl_dec_spec, tl_enc_form, Hv. Qed.

Lemma parse_and_check_tl_ok w t a l b :
  tl_dec w = Ok (t, a) -> tl_dec (skipn a w) = Ok (l, b) -> N.of_nat (length w) = N.of_nat (a + b) + l ->
  parse_and_check_tl w t = Ok (skipn (a + b) w).
Proof.
  intros E1 E2 L. unfold parse_and_check_tl. rewrite E1. cbn [bind]. rewrite E2. cbn [bind].
  rewrite L, !N.eqb_refl. reflexivity.
Qed.

(* the only ways to fail: nothing to read (IndexError), number cut short (struct.error) *)
Lemma tl_dec_err w e : tl_dec w = Err e -> e = EIndex \/ e = EStruct.
Proof.
  destruct w as [|b r]; [intros H; injection H as <-; left; reflexivity|]. rewrite tl_dec_cons.
  destruct (b <=? 252); [discriminate|]. unfold unpack_be. destruct (Nat.eqb _ _); [discriminate|].
  intros H; injection H as <-. right. reflexivity.
Qed.

Theorem tl_dec_inv w v n :
  wf_bytes w -> tl_dec w = Ok (v, n) ->
  (n <= length w)%nat /\ v < two64 /\ (tl_size v <= n)%nat /\ (1 <= n)%nat.
Proof.
  intros Hw H. pose proof (tl_dec_ok _ _ _ H) as Hn.
  assert (Hv : v < two64 /\ (tl_size v <= n)%nat); [|lia].
  apply tl_dec_spec in H. destruct H as [b r Hb|b x r Hb Hx].
  - unfold tl_size, two64. replace (b <=? 252) with true by lia. lia.
  - apply lenw_size. rewrite <- Hx. apply be_to_N_bound.
    inversion Hw as [|? ? _ Hr]; subst. exact (proj1 (proj1 (Forall_app _ _ _) Hr)).
Qed.

Theorem tl_dec_canonical w v :
  wf_bytes w -> tl_dec w = Ok (v, tl_size v) -> firstn (tl_size v) w = tl_enc v.
Proof.
  intros Hw H. apply tl_dec_spec in H. remember (tl_size v) as n eqn:En.
  destruct H as [b r Hb|b x r Hb Hx]; [rewrite tl_enc_small by exact Hb; reflexivity|].
  inversion Hw as [|? ? Hb6 Hr]; subst. apply Forall_app in Hr as [Hwx _].
  assert (Hbig : 252 < be_to_N x).
  { unfold tl_size, lenw in En. destruct (be_to_N x <=? 252) eqn:E; [|lia]. destruct (b =? 253), (b =? 254); discriminate. }
  destruct (tl_enc_big _ Hbig) as (b' & -> & Hs' & Hb' & _). rewrite Hs' in En. injection En as En.
  cbn [firstn]. rewrite <- Hx, firstn_app_exact.
  rewrite <- En, <- Hx, (N_to_be_be_to_N x Hwx). f_equal.
  revert En. unfold lenw.
  destruct (b =? 253) eqn:?, (b =? 254) eqn:?, (b' =? 253) eqn:?, (b' =? 254) eqn:?; intros Hs; try discriminate; lia.
Qed.

Lemma nni_enc_length v : length (nni_enc v) = nni_width v.
Proof. apply N_to_be_length. Qed.

Lemma nni_enc_wf v : wf_bytes (nni_enc v).
Proof. apply N_to_be_wf. Qed.

Lemma nni_width_bound v : v < two64 -> v < 256 ^ N.of_nat (nni_width v).
Proof.
  intros Hv. unfold nni_width.
  destruct (v <=? 255) eqn:?; [rewrite pow256_1; lia|].
  destruct (v <=? 65535) eqn:?; [rewrite pow256_2; lia|].
  destruct (v <=? 4294967295) eqn:?; [rewrite pow256_4; lia|].
  rewrite pow256_8; lia.
Qed.

Lemma nni_width_cases v : (nni_width v = 1 \/ nni_width v = 2 \/ nni_width v = 4 \/ nni_width v = 8)%nat.
Proof. unfold nni_width. destruct (v <=? 255); destruct (v <=? 65535); destruct (v <=? 4294967295); auto. Qed.

Lemma nni_width_le r : (nni_width r <= 8)%nat.
Proof. destruct (nni_width_cases r) as [E|[E|[E|E]]]; lia. Qed.

Lemma nni_enc_len_small v : N.of_nat (length (nni_enc v)) < two64.
Proof. rewrite nni_enc_length. pose proof (nni_width_le v). unfold two64. lia. Qed.

Theorem nni_dec_enc v r : v < two64 -> nni_dec (N.of_nat (nni_width v)) (nni_enc v ++ r) = Ok v.
Proof.
  intros Hv. unfold nni_dec.
  replace (_ || _ || _ || _) with true by (destruct (nni_width_cases v) as [W|[W|[W|W]]]; rewrite W; reflexivity).
  rewrite Nat2N.id.
  replace (Nat.leb (nni_width v) (length (nni_enc v ++ r))) with true
    by (symmetry; apply Nat.leb_le; rewrite app_length, nni_enc_length; lia).
  rewrite (firstn_app_exact' (nni_width v)) by (symmetry; apply nni_enc_length).
  unfold nni_enc. rewrite be_to_N_to_be_small by (apply nni_width_bound; exact Hv). reflexivity.
Qed.

Theorem nni_width_minimal v k :
  (k = 1 \/ k = 2 \/ k = 4 \/ k = 8)%nat -> v < 256 ^ N.of_nat k -> (nni_width v <= k)%nat.
Proof.
  intros Hk Hv. unfold nni_width.
  destruct (N.leb_spec v 255); [lia|]. destruct (N.leb_spec v 65535).
  { destruct Hk as [ -> | Hk]; [rewrite pow256_1 in Hv|]; lia. }
  destruct (N.leb_spec v 4294967295).
  { destruct Hk as [ -> | [ -> | Hk]]; [rewrite pow256_1 in Hv|rewrite pow256_2 in Hv|]; lia. }
  destruct Hk as [ -> | [ -> | [ -> | -> ]]]; [rewrite pow256_1 in Hv|rewrite pow256_2 in Hv|rewrite pow256_4 in Hv|]; lia.
Qed.

Theorem nni_dec_inv len w v :
  wf_bytes w -> nni_dec len w = Ok v ->
  (len = 1 \/ len = 2 \/ len = 4 \/ len = 8) /\ (N.to_nat len <= length w)%nat /\ v = be_to_N (firstn (N.to_nat len) w).
Proof.
  intros Hw. unfold nni_dec.
  destruct ((len =? 1) || (len =? 2) || (len =? 4) || (len =? 8)) eqn:E; [|discriminate].
  destruct (Nat.leb (N.to_nat len) (length w)) eqn:L; [|discriminate].
  intros H; inversion H; subst. apply Nat.leb_le in L. repeat split; try assumption. lia.
Qed.
