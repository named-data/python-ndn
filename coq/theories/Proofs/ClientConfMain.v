(* C20 — precedence in terms of the specification only: read_client_conf on a world whose first existing
   candidate holds a well-formed client.conf; when reading fails; the platform's paths and default transport. *)
From NDN Require Import Base.Prelude Base.Text Model.ConfBase Model.ClientConf Spec.ClientConfSpec
  Proofs.ConfBaseLemmas Proofs.ClientConfProofs Proofs.ConfIni.
From Coq Require Strings.String Strings.Ascii.
Import Coq.Strings.String.StringSyntax Coq.Strings.Ascii.AsciiSyntax.
Local Open Scope N_scope.

Definition env_of (w : world) (name : str) : option str := env_get (w_env w) name.

Lemma file_of_render w lines :
  wf_conf lines = true -> nonempty (get_path w) = true -> read_file w (get_path w) = Ok (render lines) ->
  file_of w = Ok (entries_of lines).
Proof.
  intros Hwf Hp Hr. unfold file_of. rewrite Hp, Hr. cbn [bind]. apply ini_read_render. exact Hwf.
Qed.

Theorem precedence_file w lines :
  wf_conf lines = true -> nonempty (get_path w) = true -> read_file w (get_path w) = Ok (render lines) ->
  exists c, read_client_conf w = Ok c /\
    c_transport c = spec_value (env_of w (slit "NDN_CLIENT_TRANSPORT")) (file_lookup key_transport lines)
                               (default_transport (the_platform w)) /\
    setting_ok w Pib (spec_value (env_of w (slit "NDN_CLIENT_PIB")) (file_lookup key_pib lines)
                                 (default_pib_scheme (the_platform w))) (c_pib c) /\
    setting_ok w Tpm (spec_value (env_of w (slit "NDN_CLIENT_TPM")) (file_lookup key_tpm lines)
                                 (default_tpm_scheme (the_platform w))) (c_tpm c).
Proof.
  intros Hwf Hp Hr. unfold env_of. rewrite !file_lookup_entries.
  exact (read_client_conf_sources w _ (file_of_render w lines Hwf Hp Hr)).
Qed.

Theorem read_client_conf_error_iff w e :
  read_client_conf w = Err e <-> file_of w = Err e.
Proof.
  destruct (file_of w) as [f|e'] eqn:Ef.
  - destruct (read_client_conf_sources w f Ef) as (c & -> & _). split; discriminate.
  - rewrite read_client_conf_flow, Ef. cbn [bind]. split; intros [= ->]; reflexivity.
Qed.

Theorem candidates_plain w :
  contains ch_dollar (user_home w) = false ->
  expanded_candidates w = client_conf_paths (the_platform w) /\
  expanded_defaults w Pib = default_pib_paths (the_platform w) /\
  expanded_defaults w Tpm = default_tpm_paths (the_platform w).
Proof.
  intros H. unfold expanded_candidates, expanded_defaults, the_platform, linux_platform, item_paths.
  cbn [client_conf_paths default_pib_paths default_tpm_paths].
  (* each list begins with a path under the home directory; the other paths are literals *)
  repeat split; apply map_expandvars_plain; cbn [forallb]; rewrite contains_app, H; reflexivity.
Qed.

Theorem platform_transport_face nf w :
  default_face nf (default_transport (the_platform w)) = Ok (FUnix (slit "/run/nfd/nfd.sock")) \/
  default_face nf (default_transport (the_platform w)) = Ok (FUnix (slit "/run/nfd.sock")).
Proof.
  unfold the_platform, linux_platform. cbn [default_transport]. unfold linux_default_transport.
  destruct (negb (w_exists w (slit "/run/nfd/nfd.sock")) && w_exists w (slit "/run/nfd.sock")); [right|left]; reflexivity.
Qed.
