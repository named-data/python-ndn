(* History-level consequences for C04: a detached handler receives nothing; representation
   independence of attach/detach (corollary of the C09 normalisation theorem). *)
From NDN Require Import Base.Prelude Model.TlvVar Model.Name Model.Dispatch Spec.DispatchSpec
  Proofs.BytesLemmas Proofs.TrieProofs Proofs.DispatchProofs Proofs.NameUriName Proofs.NameNormalize.
Local Open Scope N_scope.

Definition h_free (s : st) (h : N) : Prop :=
  (forall p, attached (s_fib s) p <> Some h) /\ Forall (fun c => c_h c <> h) (s_pending s).
Definition no_attach_of (h : N) (o : op) : Prop :=
  match o with OAttach _ (Some h') _ _ => h' <> h | _ => True end.

Lemma dispatch_attached t n h : all_cb t -> dispatch t n = Some h -> exists p, attached t p = Some h.
Proof. intros A H. apply dispatch_lpm in H; [|exact A]. destruct H as (p & G & _). eauto. Qed.

Lemma step_silent fe s o h :
  all_cb (s_fib s) -> wf_op o -> no_attach_of h o -> h_free s h ->
  h_free (fst (step fe s o)) h /\
  exists new, s_calls (fst (step fe s o)) = s_calls s ++ new /\ Forall (fun c => c_h c <> h) new.
Proof.
  intros A W NA [Fa Fp].
  assert (Z : exists new, s_calls s = s_calls s ++ new /\ Forall (fun c => c_h c <> h) new)
    by (exists []; rewrite app_nil_r; auto).
  destruct o as [k [h'|] v ex|k|n life now| |i now running|].
  - rewrite step_attach. split; [split; [|exact Fp]|exact Z]. intros p. cbn [fst s_fib].
    rewrite attached_attach. destruct (attached (s_fib s) k); [apply Fa|].
    unfold a_upd. destruct (name_eqbP p k); [cbn in NA; congruence|apply Fa].
  - destruct W.
  - rewrite step_detach by exact A. split; [split; [|exact Fp]|exact Z]. intros p. cbn [fst s_fib].
    rewrite attached_detach. unfold a_upd. destruct (name_eqbP p k); [discriminate|apply Fa].
  - rewrite step_recv by exact A. cbv zeta.
    set (hit := match dispatch (s_fib s) n with Some h0 => _ | None => _ end).
    assert (D : Forall (fun c => c_h c <> h) hit).
    { subst hit. destruct (dispatch (s_fib s) n) as [h0|] eqn:E; constructor; [|constructor].
      destruct (dispatch_attached _ _ _ A E) as (p & G). cbn. intros ->. exact (Fa p G). }
    assert (Q : h_free (mk_st (s_fib s) (s_pending s ++ hit) (s_calls s)) h)
      by (split; [exact Fa|apply Forall_app; split; assumption]).
    destruct fe; cbn [fst]; [split; [exact Q|exact Z]..|].
    split; [split; assumption|]. exists hit. split; [reflexivity|exact D].
  - cbn. split; [split; [exact Fa|constructor]|]. exists (s_pending s). split; [reflexivity|exact Fp].
  - replace (fst (step fe s (OReply i now running))) with s; [split; [split; assumption|exact Z]|].
    cbn. destruct fe; try reflexivity. destruct (nth_error (s_calls s) i); reflexivity.
  - destruct fe; cbn; (split; [split; [|exact Fp]|exact Z]); try exact Fa.
    intros p. cbn. rewrite attached_empty. discriminate.
Qed.

Theorem exec_silent fe ops s h :
  all_cb (s_fib s) -> Forall wf_op ops -> Forall (no_attach_of h) ops -> h_free s h ->
  exists new, s_calls (exec fe s ops) = s_calls s ++ new /\ Forall (fun c => c_h c <> h) new.
Proof.
  revert s. induction ops as [|o ops IH]; intros s A W NA F.
  - exists []. rewrite app_nil_r. auto.
  - inversion W; subst. inversion NA; subst. cbn [exec fold_left].
    destruct (step_silent fe s o h A H1 H3 F) as (F1 & n1 & E1 & N1).
    destruct (IH (fst (step fe s o)) (step_all_cb fe s o H1 A) H2 H4 F1) as (n2 & E2 & N2).
    exists (n1 ++ n2). split; [|apply Forall_app; auto].
    unfold exec in E2 |- *. rewrite E2, E1, app_assoc. reflexivity.
Qed.

(* the statement of the property: detach p, where h was attached only at p and no invocation of h
   is still queued; from then on h receives nothing until somebody attaches it again *)
Theorem detached_receives_nothing fe s p h ops :
  all_cb (s_fib s) ->
  attached (s_fib s) p = Some h -> (forall q, attached (s_fib s) q = Some h -> q = p) ->
  Forall (fun c => c_h c <> h) (s_pending s) ->
  Forall wf_op ops -> Forall (no_attach_of h) ops ->
  exists new, s_calls (exec fe s (ODetach p :: ops)) = s_calls s ++ new /\ Forall (fun c => c_h c <> h) new.
Proof.
  intros A Hp Hu Fp W NA. cbn [exec fold_left].
  pose proof (step_all_cb fe s (ODetach p) I A) as A1.
  assert (F1 : h_free (fst (step fe s (ODetach p))) h).
  { rewrite step_detach by exact A. split; [|exact Fp]. intros q. cbn [fst s_fib].
    rewrite attached_detach. unfold a_upd. destruct (name_eqbP q p) as [->|N]; [discriminate|].
    intros H. apply N, Hu, H. }
  destruct (exec_silent fe ops _ h A1 W NA F1) as (new & E & Fn).
  exists new. split; [|exact Fn]. unfold exec in E. rewrite E, step_detach by exact A. reflexivity.
Qed.

(* representation independence, from C09's normalize_agree: an entry point f that normalises its argument and
   then runs g acts on the same key whatever representation names it *)
Lemma repr_independent {A} (f : ns_name -> A) (g : name -> A) n :
  (forall x, name_normalize x = Ok n -> f x = g n) ->
  Forall uri_comp n -> N.of_nat (name_value_length n) < two64 ->
  f (NSWire (name_encode n)) = g n /\
  f (NSList (map NCBytes n)) = g n /\
  (forall u, name_to_canonical_uri n = Ok u -> f (NSStr u) = g n) /\
  (forall ss, canon_strs n = Ok ss -> f (NSList (map NCStr ss)) = g n).
Proof.
  intros F H L. destruct (normalize_agree n H L) as (A1 & B & C & D). repeat split.
  - apply F, A1.
  - apply F, B.
  - intros u E. rewrite E in C. apply F, C.
  - intros ss E. rewrite E in D. apply F, D.
Qed.

Lemma fib_attach_ns_ok fe t x k h v ex :
  name_normalize x = Ok k -> fib_attach_ns fe t x h v ex = fib_attach fe t k h v ex.
Proof. intros E. unfold fib_attach_ns. rewrite E. reflexivity. Qed.

Lemma fib_detach_ns_ok t x k : name_normalize x = Ok k -> fib_detach_ns t x = fib_detach t k.
Proof. intros E. unfold fib_detach_ns. rewrite E. reflexivity. Qed.
