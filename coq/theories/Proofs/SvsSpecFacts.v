(* Pointwise characterisation of the executable definitions of Spec/SvsSpec.v. *)
From NDN Require Import Base.Prelude Spec.SvsSpec Proofs.ListLemmas.
Local Open Scope N_scope.

Lemma vget_al_get v k : vget v k = match al_get bytes_eqb v k with Some x => x | None => 0 end.
Proof. induction v as [|[k' x] r IH]; cbn; [|destruct (bytes_eqb k k')]; auto. Qed.

Lemma assign_al_set v k x : assign v k x = al_set bytes_eqb v k x.
Proof. reflexivity. Qed.

Lemma vget_notin v k : ~ In k (keys v) -> vget v k = 0.
Proof. intros H. apply (al_get_none bytes_eqb bytes_eqb_spec) in H. rewrite vget_al_get, H. reflexivity. Qed.

Lemma vget_in_pair v k : vget v k <> 0 -> In (k, vget v k) v.
Proof.
  rewrite vget_al_get. destruct (al_get bytes_eqb v k) eqn:E; [intros _|congruence].
  apply (al_get_some_in bytes_eqb bytes_eqb_spec), E.
Qed.

Lemma vget_pos_in v k : vget v k <> 0 -> In k (keys v).
Proof. intros H. exact (in_map fst _ _ (vget_in_pair v k H)). Qed.

Lemma vget_in_nodup v k x : NoDup (keys v) -> In (k, x) v -> vget v k = x.
Proof.
  intros ND HI. rewrite vget_al_get, (al_get_of_in bytes_eqb bytes_eqb_spec _ _ _ ND HI). reflexivity.
Qed.

Lemma vget_assign v k x k' : vget (assign v k x) k' = if bytes_eqb k' k then x else vget v k'.
Proof.
  rewrite !vget_al_get, assign_al_set, (al_get_set bytes_eqb bytes_eqb_spec). destruct (bytes_eqb k' k); reflexivity.
Qed.

Lemma vget_assign_same v k x : vget (assign v k x) k = x.
Proof. rewrite vget_assign, bytes_eqb_refl. reflexivity. Qed.

Lemma vget_assign_other v k x k' : k' <> k -> vget (assign v k x) k' = vget v k'.
Proof. intros H. rewrite vget_assign. destruct (bytes_eqbP k' k); [contradiction|reflexivity]. Qed.

Lemma in_keys_assign v k x k' : In k' (keys (assign v k x)) <-> k' = k \/ In k' (keys v).
Proof. rewrite or_comm. exact (al_set_keys bytes_eqb bytes_eqb_spec v k x k'). Qed.

Lemma nodup_assign v k x : NoDup (keys v) -> NoDup (keys (assign v k x)).
Proof. exact (al_set_nodup bytes_eqb bytes_eqb_spec v k x). Qed.

Lemma assign_veq a a' k x : veq a a' -> veq (assign a k x) (assign a' k x).
Proof. intros H k'. rewrite !vget_assign, H. reflexivity. Qed.

Lemma vget_tabulate (g : id -> N) (l : list id) k :
  (~ In k l -> g k = 0) -> vget (map (fun k => (k, g k)) l) k = g k.
Proof.
  induction l as [|k0 l IH]; cbn [map vget]; intros H; [symmetry; apply H; tauto|].
  destruct (bytes_eqbP k k0) as [->|NE]; [reflexivity|].
  apply IH. intros NI. apply H. intros [E|HI]; [congruence|contradiction].
Qed.

Theorem pmax_get a b k : vget (pmax a b) k = N.max (vget a k) (vget b k).
Proof.
  apply (vget_tabulate (fun k => N.max (vget a k) (vget b k))). intros NI.
  rewrite in_app_iff in NI. rewrite (vget_notin a k), (vget_notin b k) by tauto. reflexivity.
Qed.

Lemma pmax_veq a a' b b' : veq a a' -> veq b b' -> veq (pmax a b) (pmax a' b').
Proof. intros H1 H2 k. rewrite !pmax_get, H1, H2. reflexivity. Qed.

Lemma pmax_nil_r a : veq (pmax a []) a.
Proof. intros k. rewrite pmax_get. cbn. lia. Qed.

Theorem newerb_spec a b : newerb a b = true <-> newer a b.
Proof.
  unfold newerb, newer. rewrite existsb_exists. split.
  - intros (k & _ & H). exists k. lia.
  - intros (k & H). exists k. split; [|lia]. apply vget_pos_in. lia.
Qed.

Definition denote_from (acc : vec) (w : wire) : vec :=
  fold_left (fun acc e => match e with (Some k, Some x) => assign acc k x | _ => acc end) w acc.

Lemma denote_from_cons acc e w :
  denote_from acc (e :: w) = denote_from (match e with (Some k, Some x) => assign acc k x | _ => acc end) w.
Proof. reflexivity. Qed.

Lemma denote_from_nil w : denote_from [] w = denote w.
Proof. reflexivity. Qed.

Lemma denote_nodup w : NoDup (keys (denote w)).
Proof.
  apply (fold_left_inv (fun v => NoDup (keys v))); [|constructor].
  intros v [[k|] [x|]] ND; auto using nodup_assign.
Qed.

Lemma denote_snoc w k x : denote (w ++ [(Some k, Some x)]) = assign (denote w) k x.
Proof. unfold denote. rewrite fold_left_app. reflexivity. Qed.

Fixpoint wentries (w : wire) : list (id * N) :=
  match w with
  | [] => []
  | (Some k, Some x) :: r => (k, x) :: wentries r
  | _ :: r => wentries r
  end.

Lemma denote_from_distinct w : forall acc,
  NoDup (keys acc ++ keys (wentries w)) -> denote_from acc w = acc ++ wentries w.
Proof.
  induction w as [|[[k0|] [x|]] w IH]; intros acc ND; [symmetry; apply app_nil_r| |exact (IH acc ND) ..].
  cbn [wentries keys map fst] in ND. rewrite denote_from_cons, assign_al_set, al_set_fresh.
  - rewrite IH, <- app_assoc; [reflexivity|]. unfold keys. rewrite map_app, <- app_assoc. exact ND.
  - apply (al_get_none bytes_eqb bytes_eqb_spec). intros HI.
    apply NoDup_remove_2 in ND. apply ND, in_or_app. left. exact HI.
Qed.

Theorem denote_get_distinct w k :
  NoDup (keys (wentries w)) -> vget (denote w) k = vget (wentries w) k.
Proof. intros ND. rewrite <- denote_from_nil, (denote_from_distinct w [] ND). reflexivity. Qed.

Lemma well_formedb_spec w : well_formedb w = true <-> well_formed w.
Proof.
  unfold well_formedb, well_formed. rewrite forallb_forall. split.
  - intros H k HI. specialize (H _ HI). discriminate.
  - intros H [[k|] [x|]] HI; auto. destruct (H k HI).
Qed.

Lemma overclaimsb_spec self q w : overclaimsb self q w = true <-> overclaims self q w.
Proof.
  unfold overclaimsb, overclaims. rewrite existsb_exists. split.
  - intros ([[k|] [x|]] & HI & H); try discriminate.
    apply andb_true_iff in H as [E L]. apply bytes_eqb_spec in E. subst k.
    exists x. split; [assumption|lia].
  - intros (x & HI & L). exists (Some self, Some x). split; [assumption|].
    rewrite bytes_eqb_refl. cbn. lia.
Qed.

Theorem acceptedb_spec self q w : acceptedb self q w = true <-> accepted self q w.
Proof.
  unfold acceptedb, accepted. rewrite andb_true_iff, negb_true_iff, well_formedb_spec.
  rewrite <- (overclaimsb_spec self q w). destruct (overclaimsb self q w); intuition congruence.
Qed.

Lemma acceptedP self q w : reflect (accepted self q w) (acceptedb self q w).
Proof. apply iff_reflect. symmetry. apply acceptedb_spec. Qed.

Definition elem_ok (self : id) (q : N) (e : wentry) : bool :=
  match e with
  | (Some k, None) => false
  | (Some k, Some x) => negb (bytes_eqb k self && (q <? x))
  | _ => true
  end.

Lemma acceptedb_cons self q e w : acceptedb self q (e :: w) = elem_ok self q e && acceptedb self q w.
Proof.
  unfold acceptedb, well_formedb, overclaimsb. cbn [forallb existsb].
  fold (well_formedb w) (overclaimsb self q w).
  destruct e as [[k|] [x|]]; cbn [elem_ok]; try destruct (bytes_eqb k self && (q <? x));
    destruct (well_formedb w), (overclaimsb self q w); reflexivity.
Qed.

Lemma accepted_self_le_from self q w : acceptedb self q w = true ->
  forall acc, vget acc self <= q -> vget (denote_from acc w) self <= q.
Proof.
  induction w as [|e w IH]; intros A acc H; [exact H|].
  rewrite acceptedb_cons in A. apply andb_true_iff in A as [E A].
  rewrite denote_from_cons. apply IH; [assumption|].
  destruct e as [[k|] [x|]]; cbn [elem_ok] in E; try assumption; try discriminate.
  rewrite vget_assign. destruct (bytes_eqbP self k) as [<-|_]; [|assumption].
  rewrite bytes_eqb_refl in E. cbn in E. lia.
Qed.

Lemma accepted_self_le self q w : accepted self q w -> vget (denote w) self <= q.
Proof.
  intros A. apply acceptedb_spec in A. rewrite <- denote_from_nil. apply (accepted_self_le_from self q w A []). cbn. lia.
Qed.
