(* C02 (Interest): signed portion, digest portion and digest component of what make_interest sends. *)
From NDN Require Import Base.Prelude Model.TlvVar Model.Name Model.Tlv Model.Packet Model.PacketEnc
  Spec.SignedPortion Generated.Schemas Proofs.BytesLemmas Proofs.TlvVarProofs Proofs.NameWire Proofs.TlvSplit
  Proofs.TlvRoundtrip Proofs.TlvRoundtrip2 Proofs.TlvAssign Proofs.SignedPortionProofs Proofs.PtrsSpecView.
Local Open Scope N_scope.

(* the components are elements in the specification's sense, and [components] is the strict split without the Types *)
Lemma components_concat n fuel :
  Forall wf_comp64 n -> (length (concat n) < fuel)%nat -> components fuel (concat n) = Some n.
Proof.
  intros H Hf.
  assert (exists sel, raws sel = n /\ Forall is_el sel) as (sel & <- & Hel).
  { clear Hf. induction H as [|c n Hc _ (sel & <- & Hel)]; [exists []; split; [reflexivity|apply Forall_nil]|].
    destruct (comp_as_elem c Hc) as (e & -> & Hok). exists ((e_type e, ser_elem e) :: sel).
    split; [reflexivity|constructor; [exact (el_ok_is_el e Hok)|exact Hel]]. }
  pose proof (length_le_concat sel Hel).
  rewrite components_strict, strict_split_concat by (exact Hel || lia). reflexivity.
Qed.

Theorem interest_covered fname segs a s_info sv :
  Forall wf_comp64 fname ->
  Forall2 slot [T_CAN_BE_PREFIX; T_MUST_BE_FRESH; T_FORWARDING_HINT; T_NONCE; T_LIFETIME; T_HOP_LIMIT] segs ->
  slot T_ISIG_INFO s_info ->
  let body := name_encode fname ++ concat segs ++ tlv T_APP_PARAM a ++ s_info ++ tlv T_ISIG_VALUE sv in
  N.of_nat (length body) < two64 ->
  value_of_type (S (length body)) T_NAME body = Some (concat fname) /\
  signed_portion_interest body
    = Some (concat (filter (fun c => negb (comp_type c =? 2)) fname) ++ tlv T_APP_PARAM a ++ s_info) /\
  digest_portion body = Some (tlv T_APP_PARAM a ++ s_info ++ tlv T_ISIG_VALUE sv).
Proof.
  intros Hn F6 S8 body Hl.
  unfold T_NAME, T_APP_PARAM, T_ISIG_VALUE in *.
  pose proof (Forall2_cons _ _ (slot_name fname) F6 : Forall2 slot [7; 33; 18; 30; 10; 12; 34] _) as F7.
  assert (Hv : value_of_type (S (length body)) 7 body = Some (concat fname)).
  { subst body. rewrite name_encode_tlv in *. rewrite !app_length in Hl. unfold TYPE_NAME in Hl.
    apply (scan_slots 7 (concat fname) _ [] [] _ (Forall2_nil _) (Forall_nil _) eq_refl); [cbn [concat app]; lia|apply Nat.lt_succ_diag_r]. }
  assert (H36 : forall rest fuel, let w := name_encode fname ++ concat segs ++ tlv 36 a ++ rest in
            (length w <= length body)%nat -> (length w < fuel)%nat -> from_type fuel 36 w = Some (tlv 36 a ++ rest)).
  { intros rest fuel w Hw Hf. pose proof (scan_slots 36 a rest _ _ fuel F7) as G. cbn [concat] in G.
    rewrite <- !app_assoc in G. apply G; [repeat constructor; discriminate|reflexivity| |exact Hf].
    subst w. rewrite !app_length in *. lia. }
  split; [exact Hv|]. split; [|exact (H36 _ _ (le_n _) (Nat.lt_succ_diag_r _))].
  unfold signed_portion_interest, T_NAME. rewrite Hv, components_concat; [|exact Hn|apply Nat.lt_succ_diag_r].
  pose proof (scan_slots 46 sv [] [7; 33; 18; 30; 10; 12; 34; 36; 44] _ (S (length body))
                (Forall2_app F7 (Forall2_cons _ _ (slot_tlv 36 a) (Forall2_cons _ _ S8 (Forall2_nil _))))) as G.
  rewrite concat_app in G. cbn [concat] in G. rewrite !app_nil_r, <- !app_assoc in G. unfold body in *.
  destruct G as (-> & _); [repeat constructor; discriminate|reflexivity|exact Hl|apply Nat.lt_succ_diag_r|].
  rewrite H36; [reflexivity| |apply Nat.lt_succ_diag_r]. rewrite !app_length. lia.
Qed.

(* what a successful scan of the name guarantees: the position it reports is that of the only ParametersSha256
   component *)
Lemma scan_name_spec nd : forall n idx dp0 dp,
  scan_name nd idx dp0 n = Ok dp ->
  match dp0, dp with
  | Some p0, _ => dp = Some p0 /\ Forall (fun c => comp_type c <> 2) n
  | None, None => Forall (fun c => comp_type c <> 2) n
  | None, Some p => exists a c b, n = a ++ c :: b /\ (idx + length a)%nat = p /\ comp_type c = 2 /\
                                  Forall (fun c => comp_type c <> 2) a /\ Forall (fun c => comp_type c <> 2) b
  end.
Proof.
  induction n as [|c n IH]; intros idx dp0 dp H.
  - cbn [scan_name] in H. injection H as ->. destruct dp; [split; [reflexivity|constructor]|constructor].
  - cbn [scan_name] in H. unfold comp_get_type in H.
    destruct (tl_dec c) as [[t sz]|] eqn:Et; [|discriminate]. cbn [bind fst] in H.
    pose proof (comp_type_dec _ _ _ Et) as Ect.
    destruct (t =? 0); [discriminate|].
    destruct (N.eqb_spec t TYPE_PARAMETERS_SHA256) as [E2|E2]; unfold TYPE_PARAMETERS_SHA256 in E2.
    + destruct nd; [|discriminate]. destruct dp0 as [p0|]; [discriminate|].
      destruct (negb _ || negb _); [discriminate|].
      destruct (IH _ _ _ H) as [-> Hall]. exists [], c, n.
      split; [reflexivity|]. split; [apply Nat.add_0_r|]. split; [congruence|]. split; [constructor|exact Hall].
    + specialize (IH _ _ _ H). destruct dp0 as [p0|]; [|destruct dp as [p|]].
      * destruct IH as [-> Hall]. split; [reflexivity|]. constructor; [congruence|exact Hall].
      * destruct IH as (a & c' & b & -> & Hla & Hc' & Ha & Hb). exists (c :: a), c', b. cbn [app length].
        split; [reflexivity|]. split; [lia|]. split; [exact Hc'|]. split; [constructor; [congruence|exact Ha]|exact Hb].
      * constructor; [congruence|exact IH].
Qed.

Lemma filter_no_digest l : Forall (fun c => comp_type c <> 2) l ->
  filter (fun c => negb (comp_type c =? 2)) l = l /\ filter (fun c => comp_type c =? 2) l = [].
Proof.
  induction 1 as [|x l Hx _ [IH1 IH2]]; cbn [filter]; [split; reflexivity|].
  apply N.eqb_neq in Hx. rewrite Hx, IH1, IH2. split; reflexivity.
Qed.

Lemma remove_nth_app {A} (a : list A) c b : remove_nth (a ++ c :: b) (length a) = a ++ b.
Proof. induction a as [|x a IH]; cbn [app length remove_nth]; [reflexivity|]. rewrite IH. reflexivity. Qed.
Lemma set_nth_app {A} (a : list A) c b x : set_nth (a ++ c :: b) (length a) x = a ++ x :: b.
Proof. induction a as [|y a IH]; cbn [app length set_nth]; [reflexivity|]. rewrite IH. reflexivity. Qed.

Lemma digest_comp_wf d : length d = 32%nat -> wf_comp64 (digest_comp d) /\ comp_type (digest_comp d) = 2.
Proof.
  intros Hd. assert (E : digest_comp d = comp_enc 2 d).
  { unfold digest_comp, comp_enc, TYPE_PARAMETERS_SHA256. rewrite Hd. reflexivity. }
  split.
  - exists 2, d. split; [exact E|]. rewrite Hd. unfold two64. split; [lia|]. cbn. lia.
  - rewrite E. exact (comp_type_dec _ _ _ (tl_dec_enc 2 _ eq_refl)).
Qed.

(* the name that is sent: the digest component put where the scan found one, or appended; without it, the name
   the signer was given *)
Lemma final_name_parts n dp dg :
  scan_name true 0 None n = Ok dp -> Forall wf_comp64 n -> wf_comp64 dg -> comp_type dg = 2 ->
  let fname := match dp with Some p => set_nth n p dg | None => n ++ [dg] end in
  Forall wf_comp64 fname /\
  filter (fun c => negb (comp_type c =? 2)) fname = match dp with Some p => remove_nth n p | None => n end /\
  filter (fun c => comp_type c =? 2) fname = [dg].
Proof.
  intros Hscan Hn Hdw Hdt fname. subst fname. apply scan_name_spec in Hscan. cbv beta iota in Hscan.
  destruct dp as [p|].
  - destruct Hscan as (a & c & b & -> & <- & _ & Ha & Hb). cbn [Nat.add].
    rewrite set_nth_app, remove_nth_app. apply Forall_app in Hn. destruct Hn as [Hna Hnb]. inversion Hnb; subst.
    split; [apply Forall_app; split; [exact Hna|constructor; assumption]|].
    destruct (filter_no_digest a Ha) as [A1 A2], (filter_no_digest b Hb) as [B1 B2].
    rewrite !filter_app. cbn [filter]. rewrite Hdt, A1, A2, B1, B2. split; reflexivity.
  - split; [apply Forall_app; split; [exact Hn|constructor; [exact Hdw|constructor]]|].
    destruct (filter_no_digest n Hscan) as [A1 A2].
    rewrite !filter_app. cbn [filter]. rewrite Hdt, A1, A2, app_nil_r. split; reflexivity.
Qed.

Section InterestPortion.
Variable sha : bytes -> bytes.
Variable sign : bytes -> bytes.
Hypothesis sha_len : forall x, length (sha x) = 32%nat.

(* the value make_interest encodes as ForwardingHint (the [match] on [i_hint] in Model/PacketEnc.v); no proof here uses
   it, Properties/C02.v states hypotheses with it *)
Definition hint_value (h : list (list bytes)) : value :=
  match h with [] => VNone | l => VModel [VList (map VName l)] end.

(* what make_interest sends with a signer, for every forwarding hint and InterestSignatureInfo that it encodes at all *)
Lemma make_interest_slots i m s :
  make_interest sha sign i = Ok m -> i_sig i = Some s -> Forall wf_comp64 (i_name i) ->
  exists segs a s_info,
    Forall2 slot [T_CAN_BE_PREFIX; T_MUST_BE_FRESH; T_FORWARDING_HINT; T_NONCE; T_LIFETIME; T_HOP_LIMIT] segs /\
    slot T_ISIG_INFO s_info /\ Forall wf_comp64 (m_final_name m) /\
    filter (fun c => comp_type c =? 2) (m_final_name m) = [digest_comp (sha (m_digest_covered m))] /\
    m_sig_covered m = concat (filter (fun c => negb (comp_type c =? 2)) (m_final_name m)) ++ tlv T_APP_PARAM a ++ s_info /\
    m_digest_covered m = tlv T_APP_PARAM a ++ s_info ++ tlv T_ISIG_VALUE (sign (m_sig_covered m)) /\
    m_wire m = tlv TYPE_INTEREST (name_encode (m_final_name m) ++ concat segs ++ m_digest_covered m).
Proof.
  intros H Es Hn. unfold make_interest in H. rewrite Es in H.
  (* a signed Interest always carries ApplicationParameters, empty if none were given *)
  assert (Ea : exists a, match i_app i with Some b => Some b | None => Some [] end = Some a)
    by (destruct (i_app i); eexists; reflexivity).
  destruct Ea as (a & Ea). rewrite Ea in H. cbn [vbytes] in H.
  apply bind_ok in H as (dp & Escan & H).
  apply bind_ok in H as (s1 & E1 & H). apply bind_ok in H as (s2 & E2 & H). apply bind_ok in H as (s3 & E3 & H).
  apply bind_ok in H as (s4 & E4 & H). apply bind_ok in H as (s5 & E5 & H). apply bind_ok in H as (s6 & E6 & H).
  apply bind_ok in H as (s7 & E7 & H). apply bind_ok in H as (s8 & E8 & H). apply bind_ok in H as (s9 & E9 & H).
  apply bind_ok in E9 as (_ & _ & E9). apply Ok_inj in H. subst m.
  cbn [m_wire m_final_name m_sig_covered m_digest_covered]. cbv beta iota.
  apply enc_bytes_tlv in E7, E9; try reflexivity. subst s7 s9. set (dg := digest_comp _).
  destruct (digest_comp_wf _ (sha_len _) : wf_comp64 dg /\ comp_type dg = 2) as [Hdw Hdt].
  destruct (final_name_parts _ _ _ Escan Hn Hdw Hdt) as (Hfw & Hfilt & Hfd).
  pose proof (fun t v w => enc_by_slot _ t v w (wf_fieldsb_spec _ wf_ndn_format_0_3_InterestPacketValue) eq_refl) as Sl.
  exists [s1; s2; s3; s4; s5; s6], a, s8. cbn [concat]. rewrite app_nil_r, <- !app_assoc.
  exact (conj (Forall2_cons _ _ (Sl _ _ _ E1) (Forall2_cons _ _ (Sl _ _ _ E2) (Forall2_cons _ _ (Sl _ _ _ E3) (Forall2_cons _ _ (Sl _ _ _ E4)
                 (Forall2_cons _ _ (Sl _ _ _ E5) (Forall2_cons _ _ (Sl _ _ _ E6) (Forall2_nil _)))))))
         (conj (Sl _ _ _ E8) (conj Hfw (conj Hfd (conj (f_equal (fun l => concat l ++ tlv T_APP_PARAM a ++ s8) (eq_sym Hfilt))
            (conj eq_refl eq_refl)))))).
Qed.

Theorem interest_sign_covers i m s :
  make_interest sha sign i = Ok m -> i_sig i = Some s ->
  N.of_nat (length (m_wire m)) < two64 -> Forall wf_comp64 (i_name i) ->
  exists body,
    m_wire m = tlv TYPE_INTEREST body /\
    signed_portion_interest body = Some (m_sig_covered m) /\
    digest_portion body = Some (m_digest_covered m) /\
    digest_component body = Some (sha (m_digest_covered m)).
Proof.
  intros H Es Hl Hn. destruct (make_interest_slots i m s H Es Hn) as (segs & a & s8 & F6 & S8 & Hfw & Hfd & Ec & Ed & Ew).
  rewrite Ew, Ed in Hl. apply tlv_len_bound in Hl.
  destruct (interest_covered _ segs a s8 _ Hfw F6 S8 Hl) as (Hv & Hsp & Hdp).
  rewrite <- Ec in Hsp. rewrite <- Ed in Hv, Hsp, Hdp. eexists. split; [exact Ew|]. split; [exact Hsp|]. split; [exact Hdp|].
  unfold digest_component. rewrite Hv, components_concat; [|exact Hfw|apply Nat.lt_succ_diag_r]. rewrite Hfd.
  unfold digest_comp, TYPE_PARAMETERS_SHA256. cbn [app tl_dec N.leb N.compare Pos.compare Pos.compare_cont bind skipn Nat.add].
  reflexivity.
Qed.

End InterestPortion.
