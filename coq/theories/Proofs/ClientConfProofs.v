(* C20 — read_client_conf: data flow (which source wins), location resolution, keychain dispatch. *)
From NDN Require Import Base.Prelude Base.Text Model.ConfBase Model.ClientConf Spec.ClientConfSpec
  Proofs.TextProofs Proofs.ConfBaseLemmas.
From Coq Require Strings.String Strings.Ascii.
Import Coq.Strings.String.StringSyntax Coq.Strings.Ascii.AsciiSyntax.
Local Open Scope N_scope.

Lemma first_existing_find w paths :
  first_existing w paths = find (w_exists w) (map (expandvars (w_env w)) paths).
Proof.
  induction paths as [|p r IH]; cbn; [reflexivity|].
  destruct (w_exists w (expandvars (w_env w) p)); [reflexivity|exact IH].
Qed.

Definition expanded_candidates (w : world) : list str :=
  map (expandvars (w_env w)) (client_conf_paths (the_platform w)).

Theorem get_path_first_existing w :
  get_path w = match find (w_exists w) (expanded_candidates w) with Some p => p | None => [] end.
Proof. unfold get_path. rewrite first_existing_find. reflexivity. Qed.

Definition item_paths (P : platform) (it : item) : list str :=
  match it with Pib => default_pib_paths P | Tpm => default_tpm_paths P end.
Definition cfg_of (path : str) : option str := if nonempty path then Some path else None.
Definition expanded_defaults (w : world) (it : item) : list str :=
  map (expandvars (w_env w)) (item_paths (the_platform w) it).

Lemma rel_of_cfg path loc :
  match cfg_of path with Some c => path_join (path_dirname c) loc | None => loc end = path_join (path_dirname path) loc.
Proof. destruct path; [symmetry; apply path_join_nil | reflexivity]. Qed.

Lemma path_join_nonempty a b : nonempty b = true -> nonempty (path_join a b) = true.
Proof.
  intros Hb. unfold path_join. destruct (starts_with [ch_slash] b); [exact Hb|].
  destruct (negb (nonempty a) || ends_with_char ch_slash a); destruct a; try reflexivity. exact Hb.
Qed.

(* the fallback: the first existing default, anything when there is none *)
Lemma fallback_ok (o : option str) x :
  match o with Some e => str_eqb (match o with Some p => p | None => x end) e | None => true end = true.
Proof. destruct o; [apply str_eqb_refl | reflexivity]. Qed.

Theorem resolve_location_spec w path it value :
  exists out,
    resolve_location w path it value = Ok (fst (split_setting value) ++ ch_colon :: out) /\
    location_ok (w_exists w) (cfg_of path) (expanded_defaults w it) (snd (split_setting value)) out = true.
Proof.
  unfold resolve_location, location_ok, spec_location, expanded_defaults.
  change (match partition_on ch_colon value with (a, Some b) => (a, b) | (c, None) => (c, []) end)
    with (split_setting value).
  rewrite first_existing_find, rel_of_cfg. destruct (split_setting value) as [a b]. cbn [fst snd].
  eexists. split; [reflexivity|].
  destruct (nonempty b) eqn:Hb; cbn [negb orb andb]; [|rewrite Hb; apply fallback_ok].
  rewrite (path_join_nonempty _ _ Hb). cbn [negb orb].
  destruct (w_exists w b); cbn [negb]; [apply str_eqb_refl|].
  destruct (w_exists w (path_join _ b)); cbn [negb]; [apply str_eqb_refl | apply fallback_ok].
Qed.

Lemma location_as_given ex cfg dflts loc out :
  location_ok ex cfg dflts loc out = true -> nonempty loc = true -> ex loc = true -> out = loc.
Proof.
  unfold location_ok, spec_location. intros H Hn He. rewrite Hn, He in H. cbn in H. apply str_eqb_spec. exact H.
Qed.

Lemma location_relative ex c dflts loc out :
  location_ok ex (Some c) dflts loc out = true -> nonempty loc = true -> ex loc = false ->
  ex (path_join (path_dirname c) loc) = true -> out = path_join (path_dirname c) loc.
Proof.
  unfold location_ok, spec_location. intros H Hn He Hr. rewrite Hn, He, Hr in H. cbn in H. apply str_eqb_spec. exact H.
Qed.

Lemma location_default ex cfg dflts loc out p :
  location_ok ex cfg dflts loc out = true ->
  (nonempty loc = false \/
   (ex loc = false /\ match cfg with Some c => ex (path_join (path_dirname c) loc) = false | None => True end)) ->
  find ex dflts = Some p -> out = p.
Proof.
  unfold location_ok, spec_location. intros H Hc Hf. apply str_eqb_spec. rewrite Hf in H.
  destruct Hc as [Hn|[He Hr]].
  - rewrite Hn in H. exact H.
  - rewrite He, andb_false_r in H. destruct cfg as [c|]; [rewrite Hr in H | rewrite He in H];
      rewrite andb_false_r in H; exact H.
Qed.

Definition file_of (w : world) : res (list (str * str)) :=
  if nonempty (get_path w)
  then do text <- read_file w (get_path w) ;; ini_read (slit "[DEFAULT]" ++ ch_nl :: text)
  else Ok [].

Lemma overlay_spec e f d : overlay e (overlay f d) = spec_value e f d.
Proof. destruct e, f; reflexivity. Qed.

Definition raw_setting (w : world) (file : list (str * str)) (key dflt : str) : str :=
  spec_value (env_get (w_env w) (env_name key)) (ini_get file key) dflt.

Theorem read_client_conf_flow w :
  read_client_conf w =
  do file <- file_of w ;;
  do p <- resolve_location w (get_path w) Pib (raw_setting w file key_pib (default_pib_scheme (the_platform w))) ;;
  do m <- resolve_location w (get_path w) Tpm (raw_setting w file key_tpm (default_tpm_scheme (the_platform w))) ;;
  Ok (mk_conf (raw_setting w file key_transport (default_transport (the_platform w))) p m).
Proof.
  unfold read_client_conf, file_of, raw_setting. cbv zeta.
  destruct (nonempty (get_path w)).
  - destruct (read_file w (get_path w)) as [text|e]; [|reflexivity]. cbn [bind].
    destruct (ini_read _) as [d|e]; [|reflexivity]. cbn [bind].
    rewrite !overlay_spec. reflexivity.
  - cbn [bind]. rewrite !overlay_spec. reflexivity.
Qed.

Definition setting_ok (w : world) (it : item) (raw out : str) : Prop :=
  exists o, out = fst (split_setting raw) ++ ch_colon :: o /\
            location_ok (w_exists w) (cfg_of (get_path w)) (expanded_defaults w it) (snd (split_setting raw)) o = true.

Theorem read_client_conf_sources w file :
  file_of w = Ok file ->
  exists c, read_client_conf w = Ok c /\
    c_transport c = raw_setting w file key_transport (default_transport (the_platform w)) /\
    setting_ok w Pib (raw_setting w file key_pib (default_pib_scheme (the_platform w))) (c_pib c) /\
    setting_ok w Tpm (raw_setting w file key_tpm (default_tpm_scheme (the_platform w))) (c_tpm c).
Proof.
  intros Hf. rewrite read_client_conf_flow, Hf. cbn [bind].
  edestruct (resolve_location_spec w (get_path w) Pib) as (op & Ep & Lp).
  edestruct (resolve_location_spec w (get_path w) Tpm) as (om & Em & Lm).
  rewrite Ep, Em. cbn [bind]. eexists. split; [reflexivity|]. cbn [c_transport c_pib c_tpm].
  split; [reflexivity|]. split; [exists op|exists om]; split; auto.
Qed.

Theorem read_client_conf_ok_inv w c :
  read_client_conf w = Ok c -> exists file, file_of w = Ok file.
Proof.
  rewrite read_client_conf_flow. destruct (file_of w) as [f|e]; [eexists; reflexivity|discriminate].
Qed.

Theorem env_wins_transport w c v :
  read_client_conf w = Ok c -> env_get (w_env w) (env_name key_transport) = Some v -> c_transport c = v.
Proof.
  intros H He. destruct (read_client_conf_ok_inv w c H) as (file & Hf).
  destruct (read_client_conf_sources w file Hf) as (c' & E & Ht & _). rewrite H in E. injection E as <-.
  rewrite Ht. unfold raw_setting. rewrite He. reflexivity.
Qed.

Theorem env_wins_store w c it v :
  read_client_conf w = Ok c ->
  env_get (w_env w) (env_name (match it with Pib => key_pib | Tpm => key_tpm end)) = Some v ->
  setting_ok w it v (match it with Pib => c_pib c | Tpm => c_tpm c end).
Proof.
  intros H He. destruct (read_client_conf_ok_inv w c H) as (file & Hf).
  destruct (read_client_conf_sources w file Hf) as (c' & E & _ & Hp & Hm). rewrite H in E. injection E as <-.
  destruct it; unfold raw_setting in *; rewrite He in *; cbn [spec_value] in *; assumption.
Qed.

Lemma file_of_nofile w : get_path w = [] -> file_of w = Ok [].
Proof. unfold file_of. intros ->. reflexivity. Qed.

Theorem default_keychain_known pib_loc tpm_loc :
  default_keychain (slit "pib-sqlite3" ++ ch_colon :: pib_loc) (slit "tpm-file" ++ ch_colon :: tpm_loc)
  = Ok (path_join pib_loc (slit "pib.db"), tpm_loc).
Proof.
  unfold default_keychain.
  rewrite (partition_on_app ch_colon (slit "pib-sqlite3") pib_loc) by reflexivity.
  rewrite (partition_on_app ch_colon (slit "tpm-file") tpm_loc) by reflexivity.
  reflexivity.
Qed.

Theorem default_keychain_ok_inv pib tpm r :
  default_keychain pib tpm = Ok r ->
  fst (split_setting pib) = slit "pib-sqlite3" /\ fst (split_setting tpm) = slit "tpm-file" /\
  r = (path_join (snd (split_setting pib)) (slit "pib.db"), snd (split_setting tpm)).
Proof.
  unfold default_keychain, split_setting.
  destruct (partition_on ch_colon pib) as [ps [pl|]]; [|discriminate].
  destruct (partition_on ch_colon tpm) as [ts [tl|]]; [|discriminate].
  destruct (str_eqb ts (slit "tpm-file")) eqn:Et.
  - destruct (str_eqb ps (slit "pib-sqlite3")) eqn:Ep; [|discriminate].
    intros [= <-]. apply str_eqb_spec in Et, Ep. cbn [fst snd]. auto.
  - destruct (str_eqb ts (slit "tpm-osxkeychain") || str_eqb ts (slit "tpm-cng")); discriminate.
Qed.
