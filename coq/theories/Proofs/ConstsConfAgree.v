(* T1 tie for C20: what tools/gen_consts_conf.py reflected from ndn.platform / ndn.client_conf /
   the face classes on this run is what the hand-written model uses. *)
From NDN Require Import Base.Prelude Base.Text Model.ConfBase Model.ClientConf Spec.ClientConfSpec.
From NDN Require Generated.ConstsConf.
From Coq Require Strings.String Strings.Ascii.
Import Coq.Strings.String.StringSyntax Coq.Strings.Ascii.AsciiSyntax.
Module G := Generated.ConstsConf.
Local Open Scope N_scope.

(* Platform() under HOME = G.home: every answer that does not depend on the file system *)
Theorem platform_agree (ex : str -> bool) :
  let P := linux_platform G.home ex in
  client_conf_paths P = G.client_conf_paths /\
  default_pib_scheme P = G.default_pib_scheme /\ default_pib_paths P = G.default_pib_paths /\
  default_tpm_scheme P = G.default_tpm_scheme /\ default_tpm_paths P = G.default_tpm_paths.
Proof. repeat split; reflexivity. Qed.

Theorem home_agree ex files pw extra :
  user_home (mk_world ((slit "HOME", G.home) :: extra) ex files pw) = G.home.
Proof. reflexivity. Qed.

(* default_transport() for the four answers os.path.exists can give about the two NFD sockets *)
Definition sock_fs (new old : bool) (p : str) : bool :=
  if str_eqb p (slit "/run/nfd/nfd.sock") then new else if str_eqb p (slit "/run/nfd.sock") then old else false.

Theorem transport_agree :
  map (fun ab => (ab, linux_default_transport (sock_fs (fst ab) (snd ab))))
      [(false, false); (false, true); (true, false); (true, true)] = G.default_transport_table.
Proof. vm_compute. reflexivity. Qed.

Theorem keys_agree :
  G.conf_keys = [key_transport; key_pib; key_tpm] /\
  map env_name G.conf_keys = map (fun k => G.env_prefix ++ upper k) G.conf_keys /\
  map env_name G.conf_keys = [slit "NDN_CLIENT_TRANSPORT"; slit "NDN_CLIENT_PIB"; slit "NDN_CLIENT_TPM"].
Proof. repeat split; reflexivity. Qed.

Theorem face_consts_agree :
  G.unix_face_default_path = unix_default_path /\ G.tcp_face_default_host = tcp_default_host /\
  G.default_face_port = default_port /\ G.default_face_port = spec_default_port /\
  G.udp_face_default_port = default_port /\ G.tcp_face_default_port = default_port.
Proof. repeat split; reflexivity. Qed.

Theorem schemes_agree :
  G.default_face_schemes = [slit "tcp"; slit "tcp4"; slit "tcp6"; slit "udp"; slit "udp4"; slit "udp6"; slit "unix"] /\
  forallb (fun s => existsb (str_eqb s) G.default_face_schemes) (map fst scheme_table) = true /\
  forallb (fun s => match scheme_kind s with Some _ => true | None => false end) G.default_face_schemes = true.
Proof. repeat split; vm_compute; reflexivity. Qed.

Theorem keychain_literals_agree :
  G.default_keychain_literals = [slit "pib-sqlite3"; slit "tpm-cng"; slit "tpm-file"; slit "tpm-osxkeychain"].
Proof. reflexivity. Qed.
