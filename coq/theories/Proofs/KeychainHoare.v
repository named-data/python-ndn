(* A small program logic for the keychain monad: weakest-precondition style rules for the combinators
   and for the effects (with the injected fault as an explicit branch). *)
From NDN Require Import Base.Prelude Model.Keychain.
Local Open Scope N_scope.

Definition wp {A} (m : M A) (Q : res A -> st -> Prop) (s : st) : Prop := Q (fst (m s)) (snd (m s)).

Lemma wp_conseq {A} (m : M A) (Q Q' : res A -> st -> Prop) s :
  wp m Q s -> (forall r s', Q r s' -> Q' r s') -> wp m Q' s.
Proof. unfold wp. auto. Qed.
Lemma wp_ret {A} (a : A) (Q : res _ -> st -> Prop) s : Q (Ok a) s -> wp (ret a) Q s.
Proof. auto. Qed.
Lemma wp_throw {A} e (Q : res A -> st -> Prop) s : Q (Err e) s -> wp (throw e) Q s.
Proof. auto. Qed.
Lemma wp_bind {A B} (m : M A) (f : A -> M B) (Q : res _ -> st -> Prop) s :
  wp m (fun r s' => match r with Ok a => wp (f a) Q s' | Err e => Q (Err e) s' end) s -> wp (mbind m f) Q s.
Proof. unfold wp, mbind. destruct (m s) as [[a|e] s']; cbn; auto. Qed.
Lemma wp_getc {A} (g : cst -> res A) (Q : res _ -> st -> Prop) c f : Q (g c) (mkSt c f) -> wp (getc g) Q (mkSt c f).
Proof. auto. Qed.
Lemma wp_reads {A} (g : tables -> A) (Q : res _ -> st -> Prop) c f : Q (Ok (g (db c))) (mkSt c f) -> wp (reads g) Q (mkSt c f).
Proof. auto. Qed.
Lemma wp_readr {A} (g : tables -> res A) (Q : res _ -> st -> Prop) c f : Q (g (db c)) (mkSt c f) -> wp (readr g) Q (mkSt c f).
Proof. auto. Qed.
Lemma wp_updc g (Q : res _ -> st -> Prop) c f : Q (Ok tt) (mkSt (g c) f) -> wp (updc g) Q (mkSt c f).
Proof. auto. Qed.
Lemma wp_mwhen b m (Q : res _ -> st -> Prop) s : (b = true -> wp m Q s) -> (b = false -> Q (Ok tt) s) -> wp (mwhen b m) Q s.
Proof. destruct b; cbn; intros H1 H2; [apply H1 | apply H2]; reflexivity. Qed.

(* the injector never re-arms *)
Definition quiet (f f' : option nat) : Prop := f = None -> f' = None.
Lemma quiet_refl f : quiet f f. Proof. red; auto. Qed.
Lemma quiet_trans f g h : quiet f g -> quiet g h -> quiet f h. Proof. unfold quiet; auto. Qed.
Lemma quiet_none f : quiet f None. Proof. red; auto. Qed.
Lemma quiet_ne f f' : quiet f f' -> f' <> None -> f <> None.
Proof. unfold quiet. intros H N E. auto. Qed.
Local Hint Resolve quiet_refl quiet_none : core.

Lemma wp_tick (Q : res _ -> st -> Prop) c f :
  (forall f', quiet f f' -> Q (Ok tt) (mkSt c f')) ->
  (f <> None -> Q (Err EFault) (mkSt c None)) ->
  wp tick Q (mkSt c f).
Proof.
  intros H1 H2. unfold wp, tick. destruct f as [[|k]|]; cbn.
  - apply H2. discriminate.
  - apply H1. red. discriminate.
  - apply H1. auto.
Qed.

Lemma wp_sql_w fn (Q : res _ -> st -> Prop) c f :
  (forall t f', fn (db c) = Ok t -> quiet f f' -> Q (Ok tt) (mkSt (set_db t c) f')) ->
  (forall e, (e = EFault /\ f <> None) \/ fn (db c) = Err e -> Q (Err e) (mkSt c None)) ->
  wp (sql_w fn) Q (mkSt c f).
Proof.
  intros H1 H2. unfold sql_w. apply wp_bind. apply wp_tick.
  - intros f' Hq. unfold wp. cbn. destruct (fn (db c)) as [t|e] eqn:E; cbn.
    + apply H1; auto.
    + apply H2. auto.
  - intros Hf. apply H2. auto.
Qed.
Lemma wp_tick_updc g (Q : res _ -> st -> Prop) c f :
  (forall f', quiet f f' -> Q (Ok tt) (mkSt (g c) f')) ->
  (f <> None -> Q (Err EFault) (mkSt c None)) ->
  wp (tick >> updc g) Q (mkSt c f).
Proof. intros H1 H2. apply wp_bind. apply wp_tick; [|assumption]. intros f' Hq. apply wp_updc. auto. Qed.
Lemma wp_commit (Q : res _ -> st -> Prop) s :
  (forall f', quiet (flt s) f' -> Q (Ok tt) (mkSt (do_commit (core s)) f')) ->
  (flt s <> None -> Q (Err EFault) (mkSt (core s) None)) ->
  wp commit Q s.
Proof. destruct s. intros H1 H2. apply wp_tick_updc; assumption. Qed.
Lemma wp_tpm_save k m (Q : res _ -> st -> Prop) c f :
  (forall f', quiet f f' -> Q (Ok tt) (mkSt (set_tpm (al_set name_eqb (tpm c) k m) c) f')) ->
  (f <> None -> Q (Err EFault) (mkSt c None)) ->
  wp (tpm_save k m) Q (mkSt c f).
Proof. intros H1 H2. apply wp_tick_updc; assumption. Qed.
Lemma wp_tpm_delete k (Q : res _ -> st -> Prop) c f :
  (forall f', quiet f f' -> Q (Ok tt) (mkSt (set_tpm (al_del name_eqb (tpm c) k) c) f')) ->
  (f <> None -> Q (Err EFault) (mkSt c None)) ->
  wp (tpm_delete k) Q (mkSt c f).
Proof. intros H1 H2. apply wp_tick_updc; assumption. Qed.
Lemma wp_tpm_delete_quiet k (Q : res unit -> st -> Prop) c :
  Q (Ok tt) (mkSt (set_tpm (al_del name_eqb (tpm c) k) c) None) -> wp (tpm_delete k) Q (mkSt c None).
Proof.
  intros H. apply wp_tpm_delete.
  - intros f' Hq. rewrite (Hq eq_refl). assumption.
  - intros N. contradiction.
Qed.
Lemma wp_tpm_read k (Q : res _ -> st -> Prop) c f :
  (forall m f', al_get name_eqb (tpm c) k = Some m -> quiet f f' -> Q (Ok m) (mkSt c f')) ->
  (forall e, (e = EFault /\ f <> None) \/ (e = EKey /\ al_get name_eqb (tpm c) k = None) -> Q (Err e) (mkSt c None)) ->
  wp (tpm_read k) Q (mkSt c f).
Proof.
  intros H1 H2. unfold tpm_read. apply wp_bind. apply wp_tick.
  - intros f' Hq. unfold wp. cbn. destruct (al_get name_eqb (tpm c) k) as [m|] eqn:E; cbn.
    + apply H1; auto.
    + apply H2. auto.
  - intros Hf. apply H2. auto.
Qed.

(* the key id of generate_key: given, or drawn *)
Lemma wp_kid idn ks (Q : res N -> st -> Prop) c f :
  Q (match ks with KidExplicit k => Ok k | KidRandom cs => pick_kid idn cs (tpm c) end) (mkSt c f) ->
  wp (match ks with KidExplicit k => ret k | KidRandom cs => getc (fun c0 => pick_kid idn cs (tpm c0)) end) Q (mkSt c f).
Proof. intros HQ. destruct ks; [apply wp_getc | apply wp_ret]; exact HQ. Qed.

Lemma wp_with_conn {A} (body : M A) (Q : res _ -> st -> Prop) s :
  wp body (fun r s1 => match r with
                       | Ok a => (forall f', quiet (flt s1) f' -> Q (Ok a) (mkSt (do_commit (core s1)) f')) /\
                                 (flt s1 <> None -> Q (Err EFault) (mkSt (do_rollback (core s1)) None))
                       | Err e => Q (Err e) (mkSt (do_rollback (core s1)) (flt s1))
                       end) s ->
  wp (with_conn body) Q s.
Proof.
  unfold wp at 1 2, with_conn. destruct (body s) as [[a|e] s1]; cbn [fst snd]; [|auto].
  intros [H1 H2].
  pose proof (wp_commit (fun r s2 => match r with Ok _ => Q (Ok a) s2 | Err e => Q (Err e) (rollback s2) end) s1 H1 H2) as C.
  unfold wp in C. destruct (commit s1) as [[u|e] s2]; exact C.
Qed.
Lemma wp_on_error {A} (body : M A) h (Q : res _ -> st -> Prop) s :
  wp body (fun r s1 => match r with
                       | Ok a => Q (Ok a) s1
                       | Err e => wp h (fun r2 s2 => match r2 with Ok _ => Q (Err e) s2 | Err e' => Q (Err e') s2 end) s1
                       end) s ->
  wp (on_error body h) Q s.
Proof.
  unfold wp, on_error. destruct (body s) as [[a|e] s1]; cbn; [auto|].
  destruct (h s1) as [[u|e'] s2]; cbn; auto.
Qed.
(* loop: [I rest] holds before the remaining elements are processed *)
Lemma wp_mfor {A} (l : list A) (f : A -> M unit) (I : list A -> st -> Prop) (Q : res _ -> st -> Prop) s :
  I l s ->
  (forall x r s', I (x :: r) s' -> wp (f x) (fun res s'' => match res with Ok _ => I r s'' | Err e => Q (Err e) s'' end) s') ->
  (forall s', I [] s' -> Q (Ok tt) s') ->
  wp (mfor l f) Q s.
Proof.
  intros HI Hstep Hend. revert s HI. induction l as [|x r IH]; intros s HI; cbn [mfor].
  - apply wp_ret. auto.
  - apply wp_bind. eapply wp_conseq; [apply Hstep; eassumption|].
    intros [u|e] s'; cbn; auto.
Qed.

Lemma rollback_clean c : disk c = db c -> do_rollback c = c.
Proof. destruct c; cbn. intros ->. reflexivity. Qed.
Lemma rollback_set_db t c : disk c = db c -> do_rollback (set_db t c) = c.
Proof. destruct c; cbn. intros ->. reflexivity. Qed.
Lemma st_eta s : mkSt (core s) (flt s) = s.
Proof. destruct s; reflexivity. Qed.

Lemma run_op_wp (f : option nat) o c (Q : res rv -> cst -> Prop) :
  wp (op_sem o) (fun r s' => Q r (core s')) (mkSt c f) -> Q (fst (run_op f o c)) (snd (run_op f o c)).
Proof. unfold wp, run_op. destruct (op_sem o (mkSt c f)) as [r s']; cbn. auto. Qed.

Definition quiet_m {A} (m : M A) : Prop := forall s, quiet (flt s) (flt (snd (m s))).
Lemma qm_disarm {A} e : quiet_m (@disarm A e). Proof. intros s. cbn. auto. Qed.
Lemma qm_fun {A} (m : M A) : (forall s, quiet (flt s) (flt (snd (m s)))) -> quiet_m m.
Proof. auto. Qed.
