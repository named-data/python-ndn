(* The boolean well-formedness check of Spec/TlvWf.v implies the inductive one ([wf_fieldsb_spec]).  The scan loop
   ([assign_with]): its step as a function of the element alone, hence monotone in the element reader
   ([assign_mono_in]), and the loop on the element list produced by encoding
   the fields of a model, for an arbitrary element parser [pv]: every field gets its value back.  In between, the
   general facts about [find_from] and [upd] (Model/Tlv.v) and the length of what the loop returns. *)
From NDN Require Import Base.Prelude Model.Tlv Spec.TlvWf Proofs.BytesLemmas Proofs.TlvSplit.
Local Open Scope N_scope.

Lemma nodupb_spec l : nodupb l = true -> NoDup l.
Proof.
  induction l as [|x l IH]; intros H; [constructor|]. cbn [nodupb] in H. apply andb_true_iff in H.
  destruct H as [H1 H2]. constructor; [|apply IH; exact H2].
  rewrite <- (existsb_eqb_in N.eqb N.eqb_eq). apply negb_true_iff in H1. congruence.
Qed.

Lemma wfkb_spec : forall d t k, wfkb d t k = true -> wfk t k.
Proof.
  induction d as [|d IH]; intros t k H; [discriminate|]. destruct k; cbn [wfkb] in H.
  - apply andb_true_iff in H. destruct H. constructor; [lia|assumption].
  - constructor. lia.
  - constructor. lia.
  - apply N.eqb_eq in H. subst. constructor.
  - rewrite !andb_true_iff in H. destruct H as [[H1 H2] H3].
    constructor; [lia|]. constructor; [apply nodupb_spec; exact H2|].
    intros t' k' Hin. rewrite forallb_forall in H3. apply IH. apply (H3 (t', k') Hin).
  - apply andb_true_iff in H. destruct H. constructor; [assumption|apply IH; assumption].
  - rewrite !andb_true_iff in H. destruct H as [[[H1 H2] H3] H4]. constructor; auto.
Qed.

Theorem wf_fieldsb_spec fs : wf_fieldsb fs = true -> wf_fields fs.
Proof.
  unfold wf_fieldsb. intros H. apply andb_true_iff in H. destruct H as [H1 H2].
  constructor; [apply nodupb_spec; exact H1|]. intros t k Hin. rewrite forallb_forall in H2.
  eapply wfkb_spec. apply (H2 (t, k) Hin).
Qed.

(* What the loop does with one element before the element reader is consulted: skip it, fail, or ask the reader
   for a value of kind [k] and go on from the state, position and values [c x]. *)
Inductive scan_req := RSkip | RFail | RAsk (k : fkind) (c : value -> pstate * nat * list value).

Definition step_req (fs : list field) (ic : bool) (st : pstate) (pos : nat) (acc : list value) (e : elem) : scan_req :=
  let unknown := if N.odd (e_type e) && negb ic then RFail else RSkip in
  match st with
  | PAwait i key vt vk =>
      if e_type e =? vt then
        RAsk vk (fun x => (PNormal, i, upd acc i (fun old => match old with VMap l => VMap (map_store l key x) | _ => VMap [(key, x)] end)))
      else unknown
  | PNormal =>
      match find_from fs 0 pos (e_type e) with
      | Some (i, KRepeated ek) =>
          RAsk ek (fun x => (PNormal, i, upd acc i (fun old => match old with VList l => VList (l ++ [x]) | _ => VList [x] end)))
      | Some (i, KMap kk vt vk) => RAsk kk (fun key => (PAwait i key vt vk, i, acc))
      | Some (i, k) => RAsk k (fun x => (PNormal, S i, upd acc i (fun _ => x)))
      | None => unknown
      end
  end.

Lemma assign_with_cons pv fs ic st pos e r acc :
  assign_with pv fs ic st pos (e :: r) acc =
  match step_req fs ic st pos acc e with
  | RSkip => assign_with pv fs ic st pos r acc
  | RFail => Err EDecode
  | RAsk k c => do x <- pv k e ;; let '(st', pos', acc') := c x in assign_with pv fs ic st' pos' r acc'
  end.
Proof.
  destruct st as [|i key vt vk]; cbn [assign_with step_req].
  - destruct (find_from fs 0 pos (e_type e)) as [[i k]|]; [destruct k; reflexivity|].
    destruct (N.odd (e_type e) && negb ic); reflexivity.
  - destruct (e_type e =? vt); [reflexivity|]. destruct (N.odd (e_type e) && negb ic); reflexivity.
Qed.

Lemma assign_mono_in pv pv' fs ic :
  forall els, (forall k e v, In e els -> pv k e = Ok v -> pv' k e = Ok v) ->
  forall st pos acc r, assign_with pv fs ic st pos els acc = Ok r -> assign_with pv' fs ic st pos els acc = Ok r.
Proof.
  induction els as [|e els IH]; intros Hle st pos acc r H; [exact H|].
  assert (Hle' : forall k e0 v, In e0 els -> pv k e0 = Ok v -> pv' k e0 = Ok v)
    by (intros k e0 v Hin; apply Hle; right; exact Hin).
  rewrite assign_with_cons in H |- *. destruct (step_req fs ic st pos acc e) as [| |k c]; [exact (IH Hle' _ _ _ _ H)|exact H|].
  apply bind_ok in H as (x & Ex & H). rewrite (Hle k e x (or_introl eq_refl) Ex). cbn [bind].
  destruct (c x) as [[st' pos'] acc']. exact (IH Hle' _ _ _ _ H).
Qed.

Lemma find_from_at pre : forall idx pos t k post,
  ~ In t (map fst pre) -> (pos <= idx + length pre)%nat ->
  find_from (pre ++ (t, k) :: post) idx pos t = Some ((idx + length pre)%nat, k).
Proof.
  induction pre as [|[t' k'] pre IH]; intros idx pos t k post Hn Hp.
  - cbn [app find_from length]. rewrite N.eqb_refl. replace (Nat.leb pos idx) with true by (symmetry; apply Nat.leb_le; cbn in Hp; lia).
    cbn. f_equal. f_equal. lia.
  - cbn [app find_from]. cbn [map fst In] in Hn.
    replace (t' =? t) with false by (symmetry; apply N.eqb_neq; intros ->; apply Hn; left; reflexivity).
    rewrite andb_false_r. rewrite IH; [|intros H; apply Hn; right; exact H|cbn [length] in Hp; lia].
    f_equal. f_equal. cbn [length]. lia.
Qed.

Lemma find_from_passed fs : forall idx pos t,
  (forall j k, nth_error fs j = Some (t, k) -> (idx + j < pos)%nat) -> find_from fs idx pos t = None.
Proof.
  induction fs as [|[t' k'] fs IH]; intros idx pos t H; [reflexivity|].
  cbn [find_from]. destruct (Nat.leb pos idx && (t' =? t)) eqn:E.
  - apply andb_true_iff in E. destruct E as [E1 E2]. apply Nat.leb_le in E1. apply N.eqb_eq in E2. subst t'.
    specialize (H 0%nat k' eq_refl). lia.
  - apply IH. intros j k Hj. specialize (H (S j) k Hj). lia.
Qed.

Lemma find_from_none fs idx pos t : ~ In t (map fst fs) -> find_from fs idx pos t = None.
Proof.
  intros H. apply find_from_passed. intros j k Hj. destruct H. exact (in_map fst _ _ (nth_error_In _ _ Hj)).
Qed.

Lemma find_from_some_in fs : forall idx pos t i k, find_from fs idx pos t = Some (i, k) -> In (t, k) fs.
Proof.
  induction fs as [|[t' k'] fs IH]; intros idx pos t i k H; [discriminate|].
  cbn [find_from] in H. destruct (Nat.leb pos idx && (t' =? t)) eqn:E.
  - inversion H; subst. apply andb_true_iff in E. destruct E as [_ E]. apply N.eqb_eq in E. subst. left. reflexivity.
  - right. eapply IH. exact H.
Qed.

Lemma upd_at {A} (done : list A) x tail f : upd (done ++ x :: tail) (length done) f = done ++ f x :: tail.
Proof. induction done as [|y done IH]; cbn [app length upd]; [reflexivity|]. rewrite IH. reflexivity. Qed.

Lemma upd_length {A} (l : list A) i f : length (upd l i f) = length l.
Proof. revert i. induction l as [|x r IH]; intros [|i]; cbn [upd length]; try reflexivity. now rewrite IH. Qed.

Lemma nth_error_upd_eq {A} (l : list A) i f x :
  nth_error l i = Some x -> nth_error (upd l i f) i = Some (f x).
Proof.
  revert i. induction l as [|y r IH]; intros [|i]; cbn [upd nth_error]; try discriminate.
  - intros H. injection H as ->. reflexivity.
  - apply IH.
Qed.

Lemma nth_error_upd_neq {A} (l : list A) i j f : i <> j -> nth_error (upd l i f) j = nth_error l j.
Proof.
  revert i j. induction l as [|y r IH]; intros [|i] [|j] H; cbn [upd nth_error]; try reflexivity.
  - congruence.
  - apply IH. congruence.
Qed.

Lemma nth_error_upd {A} (l : list A) i j f :
  nth_error (upd l i f) j = if Nat.eqb i j then option_map f (nth_error l j) else nth_error l j.
Proof.
  destruct (Nat.eqb_spec i j) as [<-|E]; [|now apply nth_error_upd_neq].
  destruct (nth_error l i) as [x|] eqn:En; [exact (nth_error_upd_eq _ _ _ _ En)|].
  apply nth_error_None. rewrite upd_length. now apply nth_error_None.
Qed.

Lemma map_upd_at {A B} (F : A -> B) (l : list A) i g x y :
  nth_error l i = Some x -> F (g x) = y -> map F (upd l i g) = upd (map F l) i (fun _ => y).
Proof.
  revert i. induction l as [|z r IH]; intros [|i]; cbn [upd map nth_error]; try discriminate.
  - intros H1 H2. injection H1 as ->. now rewrite H2.
  - intros H1 H2. now rewrite (IH i H1 H2).
Qed.

Lemma upd_same_val {A} (l : list A) i y : nth_error l i = Some y -> upd l i (fun _ => y) = l.
Proof.
  revert i. induction l as [|z r IH]; intros [|i]; cbn [upd nth_error]; try discriminate.
  - intros H. now injection H as ->.
  - intros H. now rewrite (IH i H).
Qed.

Lemma assign_with_length pv fs ic : forall els st pos acc vs,
  assign_with pv fs ic st pos els acc = Ok vs -> length vs = length acc.
Proof.
  (* every recursive call goes on with [acc] or with [upd acc i _] *)
  induction els as [|e r IH]; intros st pos acc vs; cbn [assign_with].
  - destruct st; [intros H; now injection H as <-|discriminate].
  - destruct st as [|i key vt vk].
    + destruct (find_from fs 0 pos (e_type e)) as [[i k]|].
      * destruct k; (destruct (pv _ e) as [x|]; [|discriminate]); cbn [bind]; intros H; apply IH in H;
          now rewrite ?upd_length in H.
      * destruct (N.odd (e_type e) && negb ic); [discriminate|apply IH].
    + destruct (e_type e =? vt).
      * destruct (pv vk e) as [x|]; [|discriminate]. cbn [bind]. intros H. apply IH in H. now rewrite upd_length in H.
      * destruct (N.odd (e_type e) && negb ic); [discriminate|apply IH].
Qed.

Lemma parse_model_length d fs ic w vs : parse_model d fs ic w = Ok vs -> length vs = length fs.
Proof.
  unfold parse_model. destruct (split_wire w); cbn [bind]; [|discriminate].
  intros H. apply assign_with_length in H. unfold blank in H. now rewrite map_length in H.
Qed.

Section Assign.
Variable pv : fkind -> elem -> res value.

(* [good t k v els]: the run of elements [els] is what a field of Type [t] and kind [k] holding [v] looks like to the
   element reader [pv] -- no element for an omitted field, one for a single kind, one per entry of a list, a key and a
   value element per entry of a map -- each element well formed, of the right Type, and read back by [pv] ([good1]) *)
Definition good1 (t : N) (k : fkind) (v : value) (e : elem) : Prop :=
  e_type e = t /\ el_ok e /\ pv k e = Ok v.

Inductive good (t : N) : fkind -> value -> list elem -> Prop :=
| good_none k : good t k VNone []
| good_single k v e : single k = true -> v <> VNone -> good1 t k v e -> good t k v [e]
| good_rep ek l els : l <> [] -> Forall2 (good1 t ek) l els -> good t (KRepeated ek) (VList l) els
| good_map kk vt vk l prs :
    l <> [] -> NoDup_keys l ->
    Forall2 (fun kv pr => good1 t kk (fst kv) (fst pr) /\ good1 vt vk (snd kv) (snd pr)) l prs ->
    good t (KMap kk vt vk) (VMap l) (flat_map (fun pr => [fst pr; snd pr]) prs).

Variable fs : list field.
Variable ic : bool.
Hypothesis Hnd : NoDup (map fst fs).

Lemma find_fs pre t k post pos :
  fs = pre ++ (t, k) :: post -> (pos <= length pre)%nat -> find_from fs 0 pos t = Some (length pre, k).
Proof.
  intros E Hp. rewrite E. apply (find_from_at pre 0); [|exact Hp].
  intros Hin. rewrite E, map_app in Hnd. apply NoDup_remove_2 in Hnd. apply Hnd, in_or_app. left. exact Hin.
Qed.

Lemma assign_at pre t k post e r pos done old tail :
  fs = pre ++ (t, k) :: post -> e_type e = t -> (pos <= length pre)%nat -> length done = length pre ->
  assign_with pv fs ic PNormal pos (e :: r) (done ++ old :: tail) =
  match k with
  | KRepeated ek =>
      do x <- pv ek e ;;
      assign_with pv fs ic PNormal (length pre) r
        (done ++ match old with VList l => VList (l ++ [x]) | _ => VList [x] end :: tail)
  | KMap kk vt vk => do key <- pv kk e ;; assign_with pv fs ic (PAwait (length pre) key vt vk) (length pre) r (done ++ old :: tail)
  | _ => do x <- pv k e ;; assign_with pv fs ic PNormal (S (length pre)) r (done ++ x :: tail)
  end.
Proof.
  intros Efs Ht Hpos Hlen. cbn [assign_with]. rewrite Ht, (find_fs pre t k post pos Efs Hpos), <- Hlen.
  destruct k; (destruct (pv _ e) as [x|]; [|reflexivity]); cbn [bind]; rewrite ?upd_at; reflexivity.
Qed.

Definition vlist_of (v : value) : list value := match v with VList l => l | _ => [] end.
Definition vmap_of (v : value) : list (value * value) := match v with VMap l => l | _ => [] end.

Lemma assign_rep pre t ek post : fs = pre ++ (t, KRepeated ek) :: post ->
  forall l els, Forall2 (good1 t ek) l els ->
  forall x e old pos rest done tail, good1 t ek x e -> (pos <= length pre)%nat -> length done = length pre ->
    assign_with pv fs ic PNormal pos ((e :: els) ++ rest) (done ++ old :: tail)
    = assign_with pv fs ic PNormal (length pre) rest (done ++ VList (vlist_of old ++ x :: l) :: tail).
Proof.
  intros Efs l els H.
  (* either way the first element, e, goes to the field by [assign_at] *)
  induction H as [|y e' l els Hy _ IH]; intros x e old pos rest done tail (Ht & _ & Hp) Hpos Hlen;
    rewrite <- app_comm_cons, (assign_at pre t _ post e _ pos done old tail Efs Ht Hpos Hlen), Hp; cbn [bind].
  - destruct old; reflexivity.
  - rewrite (IH y e' _ (length pre) rest done tail Hy (le_n _) Hlen).
    destruct old; cbn [vlist_of]; rewrite <- ?app_assoc; reflexivity.
Qed.

Lemma nodup_keys_snoc a k v : NoDup_keys (a ++ [(k, v)]) ->
  NoDup_keys a /\ forall k' v', In (k', v') a -> value_eqb_flat k k' = false.
Proof.
  intros H. inversion H as [|k0 v0 l Hk Hl E]; [destruct a; discriminate|].
  apply app_inj_tail in E as [-> E]. injection E as -> ->. split; assumption.
Qed.

Lemma nodup_keys_prefix a b : NoDup_keys (a ++ b) -> NoDup_keys a.
Proof.
  revert a. induction b as [|x b IH] using rev_ind; intros a H; [rewrite app_nil_r in H; exact H|].
  rewrite app_assoc in H. destruct x as [k v]. apply IH, (nodup_keys_snoc _ k v), H.
Qed.

Lemma map_store_fresh a k v :
  (forall k' v', In (k', v') a -> value_eqb_flat k k' = false) -> map_store a k v = a ++ [(k, v)].
Proof.
  induction a as [|[k' v'] a IH]; intros H; [reflexivity|].
  cbn [map_store]. rewrite (H k' v') by (left; reflexivity). cbn [app]. rewrite IH; [reflexivity|].
  intros k2 v2 Hin. apply (H k2 v2). right. exact Hin.
Qed.

Lemma assign_entry pre t kk vt vk post k v ke ve b old pos r done tail :
  fs = pre ++ (t, KMap kk vt vk) :: post -> good1 t kk k ke -> good1 vt vk v ve ->
  (pos <= length pre)%nat -> length done = length pre -> NoDup_keys (vmap_of old ++ (k, v) :: b) ->
  assign_with pv fs ic PNormal pos (ke :: ve :: r) (done ++ old :: tail)
  = assign_with pv fs ic PNormal (length pre) r (done ++ VMap (vmap_of old ++ [(k, v)]) :: tail).
Proof.
  intros Efs (Ht & _ & Hp) (Ht2 & _ & Hp2) Hpos Hlen Hnk.
  rewrite (assign_at pre t _ post ke _ pos done old tail Efs Ht Hpos Hlen), Hp. cbn [bind assign_with].
  rewrite Ht2, N.eqb_refl, Hp2. cbn [bind]. rewrite <- Hlen, upd_at.
  destruct old; try reflexivity. cbn [vmap_of] in *. rewrite map_store_fresh; [reflexivity|].
  apply (nodup_keys_snoc _ k v), (nodup_keys_prefix _ b). rewrite <- app_assoc. exact Hnk.
Qed.

Lemma assign_map pre t kk vt vk post : fs = pre ++ (t, KMap kk vt vk) :: post ->
  forall l prs, Forall2 (fun kv pr => good1 t kk (fst kv) (fst pr) /\ good1 vt vk (snd kv) (snd pr)) l prs ->
  forall kv pr old pos rest done tail,
    good1 t kk (fst kv) (fst pr) /\ good1 vt vk (snd kv) (snd pr) ->
    (pos <= length pre)%nat -> length done = length pre -> NoDup_keys (vmap_of old ++ kv :: l) ->
    assign_with pv fs ic PNormal pos (flat_map (fun pr => [fst pr; snd pr]) (pr :: prs) ++ rest) (done ++ old :: tail)
    = assign_with pv fs ic PNormal (length pre) rest (done ++ VMap (vmap_of old ++ kv :: l) :: tail).
Proof.
  intros Efs l prs H.
  (* either way the first entry goes to the field by [assign_entry] *)
  induction H as [|kv' pr' l prs Hy _ IH]; intros [k v] [ke ve] old pos rest done tail [H1 H2] Hpos Hlen Hnk;
    cbn [flat_map app fst snd];
    rewrite (assign_entry pre t kk vt vk post k v ke ve _ old pos _ done tail Efs H1 H2 Hpos Hlen Hnk).
  - reflexivity.
  - rewrite (IH kv' pr' _ (length pre) rest done tail Hy (le_n _) Hlen).
    + cbn [vmap_of]. rewrite <- app_assoc. reflexivity.
    + cbn [vmap_of]. rewrite <- app_assoc. exact Hnk.
Qed.

Definition item := (field * value * list elem)%type.
Definition it_field (i : item) : field := fst (fst i).
Definition it_value (i : item) : value := snd (fst i).
Definition it_els (i : item) : list elem := snd i.
Definition item_good (i : item) : Prop := good (fst (it_field i)) (snd (it_field i)) (it_value i) (it_els i).

Lemma assign_item pre t k post v els : fs = pre ++ (t, k) :: post -> good t k v els ->
  forall pos rest done tail, (pos <= length pre)%nat -> length done = length pre ->
  exists pos', (pos' <= S (length pre))%nat /\
    assign_with pv fs ic PNormal pos (els ++ rest) (done ++ VNone :: tail)
    = assign_with pv fs ic PNormal pos' rest (done ++ v :: tail).
Proof.
  intros Efs Hg pos rest done tail Hpos Hlen.
  destruct Hg as [k|k v e Hs Hv (Ht & _ & Hp)|ek l els Hne HF|kk vt vk l prs Hne Hnk HF].
  - exists pos. split; [lia|reflexivity].
  - exists (S (length pre)). split; [lia|]. cbn [app].
    rewrite (assign_at pre t k post e _ pos done VNone tail Efs Ht Hpos Hlen), Hp.
    destruct k; try discriminate; reflexivity.
  - destruct HF as [|x e l els Hx HF]; [congruence|]. exists (length pre). split; [lia|].
    exact (assign_rep pre t ek post Efs l els HF x e VNone pos rest done tail Hx Hpos Hlen).
  - destruct HF as [|kv pr l prs Hx HF]; [congruence|]. exists (length pre). split; [lia|].
    exact (assign_map pre t kk vt vk post Efs l prs HF kv pr VNone pos rest done tail Hx Hpos Hlen Hnk).
Qed.

Theorem assign_fields items : forall pre done pos,
  fs = pre ++ map it_field items -> length done = length pre ->
  Forall item_good items -> (pos <= length pre)%nat ->
  assign_with pv fs ic PNormal pos (concat (map it_els items)) (done ++ map (fun _ => VNone) items)
  = Ok (done ++ map it_value items).
Proof.
  induction items as [|[[[t k] v] els] items IH]; intros pre done pos Efs Hlen Hg Hpos; [reflexivity|].
  apply Forall_cons_iff in Hg. destruct Hg as [Hg1 Hgr]. unfold item_good in Hg1.
  cbn [map concat it_field it_value it_els fst snd] in *.
  destruct (assign_item pre t k _ v els Efs Hg1 pos (concat (map it_els items)) done (map (fun _ => VNone) items) Hpos Hlen)
    as (pos' & Hpos' & ->).
  specialize (IH (pre ++ [(t, k)]) (done ++ [v]) pos'). rewrite <- !app_assoc in IH.
  unfold field in *. (* [lia] takes [length] at type [field] and at type [N * fkind] for different terms *)
  apply IH; [exact Efs|rewrite !app_length; cbn [length]; lia|exact Hgr|rewrite app_length; cbn [length]; lia].
Qed.

End Assign.
