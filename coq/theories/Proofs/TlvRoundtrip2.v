(* C08 core: the encoder's output is a run of well-formed elements that any reasonable element reader maps back to the
   values (Section Reader); the library's parser is one such reader.  Also what a field of a single kind writes ([slot])
   and, at the end, the round trip read field by field for a level of single kinds ([enc_fields_headers]). *)
From NDN Require Import Base.Prelude Model.TlvVar Model.Name Model.Tlv Model.Packet Spec.TlvWf
  Proofs.BytesLemmas Proofs.TlvVarProofs Proofs.NameWire Proofs.TlvSplit Proofs.TlvAssign Proofs.TlvRoundtrip.
Local Open Scope N_scope.

Lemma enc_val_none d t k : enc_val (S d) t k VNone = Ok [].
Proof. destruct k; reflexivity. Qed.

Lemma enc_val_uint d t fx n wd : t < two64 -> fixed_width fx n = Ok wd -> n < 256 ^ N.of_nat wd ->
  enc_val (S d) t (KUint fx) (VUint n) = Ok (tlv t (N_to_be wd n)).
Proof.
  intros Ht Hw Hn. cbn [enc_val]. rewrite Hw. cbn [bind]. replace (256 ^ N.of_nat wd <=? n) with false by lia.
  rewrite tl_enc_r_ok by exact Ht. rewrite tlv_short, N_to_be_length; [reflexivity|]. rewrite N_to_be_length.
  destruct (fixed_width_cases _ _ _ Hw) as [-> |[-> |[-> | ->]]]; lia.
Qed.

Lemma enc_val_uint_inv d t fx n w : enc_val (S d) t (KUint fx) (VUint n) = Ok w ->
  exists wd, fixed_width fx n = Ok wd /\ n < 256 ^ N.of_nat wd.
Proof.
  cbn [enc_val]. intros H. apply bind_ok in H as (wd & Ew & H). exists wd. split; [exact Ew|].
  destruct (N.leb_spec (256 ^ N.of_nat wd) n); [discriminate|assumption].
Qed.

Lemma enc_val_bool d t : t < two64 -> enc_val (S d) t KBool VTrue = Ok (tlv t []).
Proof. intros Ht. cbn [enc_val]. rewrite tl_enc_r_ok by exact Ht. reflexivity. Qed.

Lemma enc_val_bytes d t s b : t < two64 -> enc_val (S d) t (KBytes s) (VBytes b) = Ok (tlv t b).
Proof. intros Ht. cbn [enc_val]. rewrite tl_enc_r_ok by exact Ht. reflexivity. Qed.

Lemma enc_val_name d t n : enc_val (S d) t KName (VName n) = Ok (tlv TYPE_NAME (concat n)).
Proof. cbn [enc_val]. rewrite name_encode_tlv. reflexivity. Qed.

Lemma enc_val_model d t fs ic vs : t < two64 ->
  enc_val (S d) t (KModel fs ic) (VModel vs) = do inner <- enc_fields_with (enc_val d) fs vs ;; Ok (tlv t inner).
Proof.
  intros Ht. cbn [enc_val]. destruct (enc_fields_with (enc_val d) fs vs); [|reflexivity].
  cbn [bind]. rewrite tl_enc_r_ok by exact Ht. reflexivity.
Qed.

Lemma wfk_lt t k : wfk t k -> t < two64.
Proof. induction 1; try assumption. reflexivity. Qed.

(* what a field of a single kind writes *)
Definition slot (t : N) (s : bytes) : Prop := s = [] \/ exists p, s = tlv t p.

Lemma slot_tlv t p : slot t (tlv t p).
Proof. right. exists p. reflexivity. Qed.

Lemma slot_name n : slot TYPE_NAME (name_encode n).
Proof. rewrite name_encode_tlv. apply slot_tlv. Qed.

Lemma enc_val_slot d t k v w : wfk t k -> single k = true -> enc_val (S d) t k v = Ok w -> slot t w.
Proof.
  intros Hw Hs He. pose proof (wfk_lt _ _ Hw) as Ht.
  destruct v; try (rewrite enc_val_none in He; injection He as <-; left; reflexivity);
    destruct k; try discriminate.
  - destruct (enc_val_uint_inv _ _ _ _ _ He) as (wd & Ew & Hn).
    rewrite (enc_val_uint d t _ _ wd Ht Ew Hn) in He. injection He as <-. apply slot_tlv.
  - rewrite (enc_val_bool d t Ht) in He. injection He as <-. apply slot_tlv.
  - rewrite (enc_val_bytes d t _ _ Ht) in He. injection He as <-. apply slot_tlv.
  - rewrite enc_val_name in He. injection He as <-. inversion Hw. apply slot_tlv.
  - rewrite (enc_val_model d t _ _ _ Ht) in He. apply bind_ok in He as (inner & _ & He). injection He as <-. apply slot_tlv.
Qed.

Lemma good_single_intro pv t k v p :
  single k = true -> v <> VNone -> t < two64 -> N.of_nat (length (tlv t p)) < two64 ->
  pv k (Elem t (N.of_nat (length p)) p) = Ok v ->
  exists els, tlv t p = ser_els els /\ good pv t k v els.
Proof.
  intros Hs Hv Ht Hl Hp. rewrite tlv_length in Hl.
  exists [Elem t (N.of_nat (length p)) p]. split; [rewrite ser_single; reflexivity|].
  apply good_single; [exact Hs|exact Hv|]. split; [reflexivity|]. split; [|exact Hp].
  apply el_ok_intro; [exact Ht|lia].
Qed.

Lemma good_single_inv pv t k v els :
  good pv t k v els -> single k = true -> v <> VNone -> exists e, els = [e] /\ good1 pv t k v e.
Proof.
  intros H Hs Hv. destruct H as [k|k v e _ _ H1|ek l els _ HF|kk vt vk l prs _ _ HF]; try discriminate; try congruence.
  exists e. split; [reflexivity|exact H1].
Qed.

(* the induction hypothesis of [enc_good_rd] *)
Definition enc_read (pv : fkind -> elem -> res value) (d : nat) : Prop :=
  forall t k v w, wfk t k -> fits k v -> enc_val d t k v = Ok w -> N.of_nat (length w) < two64 ->
  exists els, w = ser_els els /\ good pv t k v els.

Lemma enc_fields_good {pv} d : enc_read pv d ->
  forall fs vs w, (forall t k, In (t, k) fs -> wfk t k) -> Forall2 (fun f v => fits (snd f) v) fs vs ->
  enc_fields_with (enc_val d) fs vs = Ok w -> N.of_nat (length w) < two64 ->
  exists items, map it_field items = fs /\ map it_value items = vs /\
                w = ser_els (concat (map it_els items)) /\ Forall (item_good pv) items.
Proof.
  intros HP fs vs w Hwf HF. revert w. induction HF as [|[t k] v fs vs Hfit _ IH]; intros w He Hl.
  - injection He as <-. exists []. repeat split; constructor.
  - cbn [enc_fields_with] in He. cbn [snd] in Hfit.
    apply bind_ok in He as (a & Ea & He). apply bind_ok in He as (r & Er & He). injection He as <-.
    rewrite app_length in Hl.
    destruct (HP t k v a (Hwf t k (or_introl eq_refl)) Hfit Ea ltac:(lia)) as (els & -> & Hg).
    destruct (IH (fun t' k' H => Hwf t' k' (or_intror H)) r Er ltac:(lia)) as (items & E1 & E2 & -> & Hgs).
    exists (((t, k), v, els) :: items). cbn [map it_field it_value it_els fst snd concat].
    rewrite E1, E2. repeat split; try reflexivity.
    + rewrite ser_els_app. reflexivity.
    + constructor; [exact Hg|exact Hgs].
Qed.

Lemma enc_fields_read pv d fs ic vs w : enc_read pv d ->
  wf_fields fs -> Forall2 (fun f v => fits (snd f) v) fs vs ->
  enc_fields_with (enc_val d) fs vs = Ok w -> N.of_nat (length w) < two64 ->
  exists els, w = ser_els els /\ Forall el_ok els /\ assign_with pv fs ic PNormal 0 els (blank fs) = Ok vs.
Proof.
  intros HP Hwf HF He Hl. destruct Hwf as [fs Hnd Hall].
  destruct (enc_fields_good d HP fs vs w Hall HF He Hl) as (items & <- & <- & -> & Hgs).
  exists (concat (map it_els items)). split; [reflexivity|]. split; [exact (items_el_ok _ _ Hgs)|].
  unfold blank. rewrite map_map.
  exact (assign_fields pv _ ic Hnd items [] [] 0%nat eq_refl eq_refl Hgs (le_n _)).
Qed.

Lemma rconcat_good {A B} (f : A -> res bytes) (R : A -> B -> Prop) (g : B -> list elem) l w :
  rconcat f l = Ok w -> N.of_nat (length w) < two64 ->
  (forall x w', In x l -> f x = Ok w' -> N.of_nat (length w') < two64 -> exists y, w' = ser_els (g y) /\ R x y) ->
  exists ys, w = ser_els (flat_map g ys) /\ Forall2 R l ys.
Proof.
  revert w. induction l as [|x l IH]; intros w Hw Hl H.
  - injection Hw as <-. exists []. split; [reflexivity|constructor].
  - cbn [rconcat] in Hw. apply bind_ok in Hw as (a & Ea & Hw). apply bind_ok in Hw as (r & Er & Hw).
    injection Hw as <-. rewrite app_length in Hl.
    destruct (H x a (or_introl eq_refl) Ea ltac:(lia)) as (y & -> & Hy).
    destruct (IH r Er ltac:(lia) (fun x' w' Hx => H x' w' (or_intror Hx))) as (ys & -> & Hys).
    exists (y :: ys). cbn [flat_map]. rewrite ser_els_app. split; [reflexivity|constructor; assumption].
Qed.

(* The encoder output is readable, for any element reader that behaves like the library's on one exact element
   and reads a sub-model by splitting its payload and scanning.  [rd_step] is asked only of elements whose declared
   Length is exact: on a truncated one the library's reader and a strict one differ, and the encoder writes none. *)
Section Reader.
Variable rd : nat -> fkind -> elem -> res value.
Variable spl : bytes -> res (list elem).
Hypothesis rd_step : forall d k e, e_dlen e = N.of_nat (length (e_payload e)) ->
  rd (S d) k e =
  match k with
  | KModel fs ic =>
      do els <- spl (e_payload e) ;; do vs <- assign_with (rd d) fs ic PNormal 0 els (blank fs) ;; Ok (VModel vs)
  | _ => parse_val (S d) k e
  end.
Hypothesis spl_ser : forall els, Forall el_ok els -> spl (ser_els els) = Ok els.

(* The induction is on the encoder's depth alone; the reader may have any depth that is at least as large, so a value
   written one level down is read one level down as well as at the level of its list or map. *)
Theorem enc_good_rd : forall d d', (d <= d')%nat -> enc_read (rd d') d.
Proof.
  induction d as [|d IH]; intros [|d'] Hd t k v w Hwf Hfit He Hl; try discriminate; [lia|]. apply le_S_n in Hd.
  pose proof (wfk_lt t k Hwf) as Ht.
  destruct Hfit as [k|fx n wd Hfw Hn| |s b Hutf|n Hcomps|fs ic vs HF|e l Hne HFl|kk vt vk l Hne HFl Hnk].
  - rewrite enc_val_none in He. injection He as <-. exists []. split; [reflexivity|constructor].
  - rewrite (enc_val_uint d t fx n wd Ht Hfw Hn) in He. injection He as <-.
    apply good_single_intro; [reflexivity|discriminate|exact Ht|exact Hl|]. rewrite rd_step by reflexivity.
    cbn [parse_val e_payload e_dlen]. rewrite N_to_be_length.
    replace (_ || _ || _ || _) with true by (destruct (fixed_width_cases _ _ _ Hfw) as [-> |[-> |[-> | ->]]]; reflexivity).
    rewrite N.eqb_refl, be_to_N_to_be_small by exact Hn. reflexivity.
  - rewrite (enc_val_bool d t Ht) in He. injection He as <-.
    apply good_single_intro; [reflexivity|discriminate|exact Ht|exact Hl|]. rewrite rd_step; reflexivity.
  - rewrite (enc_val_bytes d t s b Ht) in He. injection He as <-.
    apply good_single_intro; [reflexivity|discriminate|exact Ht|exact Hl|]. rewrite rd_step by reflexivity.
    cbn [parse_val e_payload]. destruct s; [rewrite (Hutf eq_refl)|]; reflexivity.
  - inversion Hwf; subst. rewrite enc_val_name in He. injection He as <-.
    apply good_single_intro; [reflexivity|discriminate|exact Ht|exact Hl|]. rewrite rd_step by reflexivity.
    cbn [parse_val e_payload e_dlen e_type]. rewrite N.eqb_refl, N.ltb_irrefl. cbn [negb].
    rewrite name_components_concat; [reflexivity|exact Hcomps|].
    pose proof (length_concat_ge n Hcomps). lia.
  - inversion Hwf as [ | | | |t0 fs0 ic0 _ Hfs| | ]; subst.
    rewrite (enc_val_model d t fs ic vs Ht) in He. apply bind_ok in He as (inner & Ei & He). injection He as <-.
    apply good_single_intro; [reflexivity|discriminate|exact Ht|exact Hl|]. rewrite rd_step by reflexivity.
    cbn [e_payload]. rewrite tlv_length in Hl.
    destruct (enc_fields_read (rd d') d fs ic vs inner (IH d' Hd) Hfs HF Ei ltac:(lia)) as (els & -> & Hok & A).
    rewrite spl_ser by exact Hok. cbn [bind]. rewrite A. reflexivity.
  - inversion Hwf as [ | | | | |t0 e0 Hs Hwe| ]; subst. cbn [enc_val] in He. rewrite Forall_forall in HFl.
    apply (rconcat_good _ (good1 (rd (S d')) t e) (fun x => [x])) in He as (els & -> & HF2); [|exact Hl|].
    2: { intros x a Hx Ea La. destruct (HFl x Hx) as [Hxn Hxf].
      destruct (IH (S d') (le_S _ _ Hd) t e x a Hwe Hxf Ea La) as (els & -> & Hg).
      destruct (good_single_inv _ _ _ _ _ Hg Hs Hxn) as (ex & -> & H1).
      exists ex. split; [reflexivity|exact H1]. }
    rewrite flat_map_single. exists els. split; [reflexivity|apply good_rep; assumption].
  - inversion Hwf as [ | | | | | |t0 kk0 vt0 vk0 Hkk Hwk Hsv Hwv]; subst. cbn [enc_val] in He.
    assert (Hsk : single kk = true) by (destruct kk; try discriminate; reflexivity). rewrite Forall_forall in HFl.
    apply (rconcat_good _ (fun kv pr => good1 (rd (S d')) t kk (fst kv) (fst pr) /\
                                         good1 (rd (S d')) vt vk (snd kv) (snd pr))
             (fun pr => [fst pr; snd pr])) in He as (prs & -> & HF2); [|exact Hl|].
    2: { intros [key val] w' Hx Ew Lw. destruct (HFl _ Hx) as (Hk1 & Hk2 & Hv1 & Hv2). cbn [fst snd] in *.
      apply bind_ok in Ew as (a & Ea & Ew). apply bind_ok in Ew as (b & Eb & Ew). injection Ew as <-.
      rewrite app_length in Lw.
      destruct (IH (S d') (le_S _ _ Hd) t kk key a Hwk Hk2 Ea ltac:(lia)) as (els1 & -> & Hg1).
      destruct (IH (S d') (le_S _ _ Hd) vt vk val b Hwv Hv2 Eb ltac:(lia)) as (els2 & -> & Hg2).
      destruct (good_single_inv _ _ _ _ _ Hg1 Hsk Hk1) as (e1 & -> & A1).
      destruct (good_single_inv _ _ _ _ _ Hg2 Hsv Hv1) as (e2 & -> & A2).
      exists (e1, e2). split; [symmetry; apply (ser_els_app [e1] [e2])|].
      split; assumption. }
    eexists. split; [reflexivity|apply good_map; assumption].
Qed.

Theorem encode_roundtrip_rd d fs ic vs w :
  wf_fields fs -> Forall2 (fun f v => fits (snd f) v) fs vs ->
  encode_model d fs vs = Ok w -> N.of_nat (length w) < two64 ->
  (do els <- spl w ;; assign_with (rd d) fs ic PNormal 0 els (blank fs)) = Ok vs.
Proof.
  intros Hwf HF He Hl.
  destruct (enc_fields_read (rd d) d fs ic vs w (enc_good_rd d d (le_n d)) Hwf HF He Hl) as (els & -> & Hok & A).
  rewrite spl_ser by exact Hok. exact A.
Qed.
End Reader.

(* the library's reader is one: [rd_step] holds of it on every element, [spl_ser] is [split_wire_ser] *)
Lemma parse_val_step d k e :
  parse_val (S d) k e =
  match k with
  | KModel fs ic =>
      do els <- split_wire (e_payload e) ;; do vs <- assign_with (parse_val d) fs ic PNormal 0 els (blank fs) ;; Ok (VModel vs)
  | _ => parse_val (S d) k e
  end.
Proof. destruct k; reflexivity. Qed.

Theorem enc_good : forall d, enc_read (parse_val d) d.
Proof. exact (fun d => enc_good_rd parse_val split_wire (fun d k e _ => parse_val_step d k e) split_wire_ser d d (le_n d)). Qed.

(* C08: decoding the encoding yields the same values, for every well-formed model and legal assignment *)
Theorem parse_encode_roundtrip d fs ic vs w :
  wf_fields fs -> Forall2 (fun f v => fits (snd f) v) fs vs ->
  encode_model d fs vs = Ok w -> N.of_nat (length w) < two64 ->
  parse_model d fs ic w = Ok vs.
Proof. exact (encode_roundtrip_rd parse_val split_wire (fun d k e _ => parse_val_step d k e) split_wire_ser d fs ic vs w). Qed.

Lemma gen_decode_tlv (pm : nat -> list field -> bool -> bytes -> res (list value)) t fs ic body :
  t < two64 -> N.of_nat (length body) < two64 -> gen_decode pm t fs ic (tlv t body) = pm (depth_of fs) fs ic body.
Proof. intros Ht Hl. unfold gen_decode. rewrite (pact_tlv t body Ht Hl). reflexivity. Qed.

(* C08: the encoder output is a sequence of well-formed elements, every Type and Length in shortest
   form (it is [ser_els] of an element list, and [ser_elem] writes [tl_enc]) *)
Theorem encode_wellformed d fs vs w :
  wf_fields fs -> Forall2 (fun f v => fits (snd f) v) fs vs ->
  encode_model d fs vs = Ok w -> N.of_nat (length w) < two64 ->
  exists els, w = ser_els els /\ Forall el_ok els /\ split_wire w = Ok els.
Proof.
  intros Hwf HF He Hl.
  destruct (enc_fields_read _ d fs false vs w (enc_good d) Hwf HF He Hl) as (els & -> & Hok & _).
  exists els. split; [reflexivity|]. split; [exact Hok|]. apply split_wire_ser. exact Hok.
Qed.

(* The round trip per field, for a level of single kinds. *)
Definition header_of (d : nat) (els : list elem) (T : N) (K : fkind) (v : value) : Prop :=
  match find (fun e => e_type e =? T) els with
  | None => v = VNone
  | Some e => v <> VNone /\ fits K v /\ parse_val d K e = Ok v /\ enc_val d T K v = Ok (tlv T (e_payload e))
  end.

Lemma enc_fields_headers d fs vs :
  (forall t k, In (t, k) fs -> wfk t k) -> NoDup (map fst fs) -> forallb (fun f => single (snd f)) fs = true ->
  Forall2 (fun f v => fits (snd f) v) fs vs ->
  forall w, enc_fields_with (enc_val d) fs vs = Ok w -> N.of_nat (length w) < two64 ->
  exists els, w = ser_els els /\ Forall el_ok els /\
    (forall T, ~ In T (map fst fs) -> find (fun e => e_type e =? T) els = None) /\
    forall T K, In (T, K) fs -> header_of d els T K (field_value fs vs T).
Proof.
  intros Hwf Hnd Hs HF. induction HF as [|[t k] v fs vs Hfit _ IH]; intros w He Hl.
  { injection He as <-. exists []. split; [reflexivity|]. split; [constructor|]. split; [reflexivity|intros T K []]. }
  cbn [enc_fields_with] in He. cbn [snd] in Hfit.
  apply bind_ok in He as (a & Ea & He). apply bind_ok in He as (r & Er & He). injection He as <-.
  rewrite app_length in Hl. cbn [map] in Hnd. inversion Hnd as [|? ? Hnot Hnd']; subst.
  cbn [forallb snd] in Hs. apply andb_prop in Hs. destruct Hs as [Hs1 Hs].
  destruct (enc_good d t k v a (Hwf t k (or_introl eq_refl)) Hfit Ea ltac:(lia)) as (ela & -> & Hg).
  destruct (IH (fun t' k' H => Hwf t' k' (or_intror H)) Hnd' Hs r Er ltac:(lia)) as (elr & -> & Hokr & Hnr & Hhr).
  assert (forall T K, In (T, K) fs -> (t =? T) = false) as Hne.
  { intros T K Hin. apply N.eqb_neq. intros ->. apply Hnot. apply (in_map fst _ _ Hin). }
  exists (ela ++ elr). rewrite ser_els_app. split; [reflexivity|].
  split; [apply Forall_app; split; [exact (good_el_ok _ _ _ _ _ Hg)|exact Hokr]|].
  unfold header_of. cbn [map In field_value].
  destruct Hg as [k|k v e _ Hv (Et & _ & Hp)| |]; try discriminate Hs1; cbn [app find].
  - split; [intros T HT; apply Hnr; tauto|]. intros T K [E|Hin].
    + injection E as <- <-. rewrite N.eqb_refl, (Hnr t Hnot). reflexivity.
    + rewrite (Hne T K Hin). exact (Hhr T K Hin).
  - rewrite Et. split; [intros T HT; replace (t =? T) with false by (symmetry; apply N.eqb_neq; tauto); apply Hnr; tauto|].
    intros T K [E|Hin].
    + injection E as <- <-. rewrite N.eqb_refl. rewrite ser_single, Et in Ea. repeat split; assumption.
    + rewrite (Hne T K Hin). exact (Hhr T K Hin).
Qed.
