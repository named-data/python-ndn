(* Concrete schemas and models on which the hypotheses of the C11 / C12 / C13 theorems hold, so that the conclusions are
   not vacuous: one well-formed schema with its compiled model, names it accepts and refuses, and one small schema or
   model per rejection theorem. *)
From NDN Require Import Base.Prelude Model.LvsAst Model.LvsChecker Model.LvsCompiler Spec.LvsSem Spec.LvsChains
  Proofs.LvsMachine Proofs.LvsCompileThms Proofs.LvsSanity Proofs.LvsCompileStatic Proofs.LvsCompileAccepts
  Proofs.LvsCompileIff Proofs.LvsSignCycle.
Local Open Scope N_scope.

Definition gc (c : N) : bytes := [8; 1; c].              (* a generic name component of one byte *)
Definition id_of (s : list N) : ident := s.

(*  #key:  /"k"/x
    #pkt:  /"a"/x/y & {y: x | "b"} <= #key
    #both: #key/_z & {_z: "c"}                                                              *)
Definition i_key : ident := [35; 107; 101; 121].
Definition i_pkt : ident := [35; 112; 107; 116].
Definition i_both : ident := [35; 98; 111; 116; 104].
Definition p_x : ident := [120].
Definition p_y : ident := [121].
Definition p_z : ident := [95; 122].

Definition ex_schema : lvsfile :=
  [ {| r_id := i_key; r_name := [CLit (gc 107); CPat p_x]; r_cons := []; r_sign := [] |};
    {| r_id := i_pkt; r_name := [CLit (gc 97); CPat p_x; CPat p_y];
       r_cons := [[ {| tc_pat := p_y; tc_opts := [OPat p_x; OLit (gc 98)] |} ]]; r_sign := [i_key] |};
    {| r_id := i_both; r_name := [CRef i_key; CPat p_z];
       r_cons := [[ {| tc_pat := p_z; tc_opts := [OLit (gc 99)] |} ]]; r_sign := [] |} ].

Definition no_ufn : ident -> option (bytes -> list (option bytes) -> res bool) := fun _ => None.

Definition ex_pkt : list bytes := [gc 97; gc 100; gc 98].        (* /a/d/b *)
Definition ex_key : list bytes := [gc 107; gc 100].              (* /k/d   *)
Definition ex_bad : list bytes := [gc 107; gc 101].              (* /k/e   *)

Lemma ex_static : static_ok ex_schema = true.
Proof. vm_compute. reflexivity. Qed.
Lemma ex_wf : schema_wf ex_schema = true.
Proof. vm_compute. reflexivity. Qed.

Definition ex_model : lvsmodel := match compile ex_schema with Ok m => m | Err _ => {| m_version := None; m_start := None; m_npc := None; m_nodes := []; m_symbols := [] |} end.
Lemma ex_compile : compile ex_schema = Ok ex_model.
Proof. vm_compute. reflexivity. Qed.

Lemma ex_match : exists l, lvs_match no_ufn ex_model 1000 ex_pkt = Ok l /\ (match_cost ex_model ex_pkt <= 1000)%nat /\
  strip_digest ex_pkt = Ok ex_pkt /\ exists rs, In (rs, [(Some p_x, gc 100); (Some p_y, gc 98)]) l /\ In i_pkt rs.
Proof.
  eexists. split; [vm_compute; reflexivity|]. split; [apply Nat.leb_le; vm_compute; reflexivity|]. split; [vm_compute; reflexivity|].
  eexists. split; [left; reflexivity | left; reflexivity].
Qed.

Lemma ex_check_yes : lvs_check no_ufn ex_model 1000 ex_pkt ex_key = Ok true /\
  (Nat.max (match_cost ex_model ex_pkt) (match_cost ex_model ex_key) <= 1000)%nat /\ strip_digest ex_key = Ok ex_key.
Proof. split; [vm_compute; reflexivity|]. split; [apply Nat.leb_le; vm_compute; reflexivity | vm_compute; reflexivity]. Qed.

Lemma ex_check_no : lvs_check no_ufn ex_model 1000 ex_pkt ex_bad = Ok false /\
  (Nat.max (match_cost ex_model ex_pkt) (match_cost ex_model ex_bad) <= 1000)%nat /\ strip_digest ex_bad = Ok ex_bad.
Proof. split; [vm_compute; reflexivity|]. split; [apply Nat.leb_le; vm_compute; reflexivity | vm_compute; reflexivity]. Qed.

Lemma ex_not_pseudo : not_pseudo i_pkt.
Proof. intros n E. unfold i_pkt, pseudo_rule in E. cbn in E. inversion E. Qed.

Lemma ex_loader_accepts : exists r, sanity_check (sanity_fuel ex_model) ex_model = Ok r.
Proof. eexists. vm_compute. reflexivity. Qed.

Definition ex_nostart : lvsmodel :=
  {| m_version := m_version ex_model; m_start := None; m_npc := m_npc ex_model; m_nodes := m_nodes ex_model; m_symbols := m_symbols ex_model |}.
Lemma ex_nostart_not_sane : ~ sane ex_nostart.
Proof. intros H. destruct (sanity_check_sane _ H) as (s & a & Hs & _). discriminate. Qed.
Lemma ex_nostart_rejected : sanity_check (sanity_fuel ex_nostart) ex_nostart = Err ELvsModel.
Proof. vm_compute. reflexivity. Qed.

Definition i_a : ident := [35; 97].
Definition i_b : ident := [35; 98].
Definition rule_ref (a b : ident) : rule := {| r_id := a; r_name := [CRef b]; r_cons := []; r_sign := [] |}.

(* #a: #b        (no #b) *)
Definition ex_undefined : lvsfile := [rule_ref i_a i_b].
Lemma ex_undefined_hyp : In (rule_ref i_a i_b) ex_undefined /\ In i_b (rule_refs (rule_ref i_a i_b)) /\ defined ex_undefined i_b = false.
Proof. split; [left; reflexivity|]. split; [left; reflexivity | vm_compute; reflexivity]. Qed.

(* #a: #b   #b: #a *)
Definition ex_cyclic : lvsfile := [rule_ref i_a i_b; rule_ref i_b i_a].
Lemma ex_cyclic_hyp : src_walk ex_cyclic i_a i_a [i_b].
Proof.
  cbn. split.
  - exists (rule_ref i_a i_b). split; [left; reflexivity|]. split; [reflexivity|]. split; [reflexivity | left; reflexivity].
  - exists (rule_ref i_b i_a). split; [right; left; reflexivity|]. split; [reflexivity|]. split; [reflexivity | left; reflexivity].
Qed.

(* #a: /x & {y: "b"}      (y occurs in no name) *)
Definition ex_badcons_tc : tagcons := {| tc_pat := p_y; tc_opts := [OLit (gc 98)] |}.
Definition ex_badcons_rule : rule := {| r_id := i_a; r_name := [CPat p_x]; r_cons := [[ex_badcons_tc]]; r_sign := [] |}.
Definition ex_badcons : lvsfile := [ex_badcons_rule].
Lemma ex_badcons_hyp : In ex_badcons_rule ex_badcons /\ In [ex_badcons_tc] (r_cons ex_badcons_rule) /\ In ex_badcons_tc [ex_badcons_tc] /\
  LvsSem.cons_ok ex_badcons ex_badcons_rule ex_badcons_tc = false.
Proof. split; [left; reflexivity|]. split; [left; reflexivity|]. split; [left; reflexivity | vm_compute; reflexivity]. Qed.

(* #a: /x <= #b     (no #b) *)
Definition ex_badsigner_rule : rule := {| r_id := i_a; r_name := [CPat p_x]; r_cons := []; r_sign := [i_b] |}.
Definition ex_badsigner : lvsfile := [ex_badsigner_rule].
Lemma ex_badsigner_hyp : In ex_badsigner_rule ex_badsigner /\ In i_b (r_sign ex_badsigner_rule) /\ defined ex_badsigner i_b = false /\ ident_plain i_b.
Proof.
  split; [left; reflexivity|]. split; [left; reflexivity|]. split; [vm_compute; reflexivity|].
  unfold ident_plain, i_b. cbn. intros [H|[]]. discriminate.
Qed.

Lemma ex_sign_plain : sign_plain ex_schema.
Proof.
  intros d k Hd Hk. cbn in Hd. destruct Hd as [<-|[<-|[<-|[]]]]; cbn in Hk; try contradiction.
  destruct Hk as [<-|[]]. unfold ident_plain, i_key. cbn. intros [H|[H|[H|[]]]]; discriminate.
Qed.

(* #a: /"a" <= #b     #b: /"b" <= #a *)
Definition ex_signcycle : lvsfile :=
  [ {| r_id := i_a; r_name := [CLit (gc 97)]; r_cons := []; r_sign := [i_b] |};
    {| r_id := i_b; r_name := [CLit (gc 98)]; r_cons := []; r_sign := [i_a] |} ].
Definition ex_signcycle_model : lvsmodel :=
  match compile ex_signcycle with Ok m => m | Err _ => {| m_version := None; m_start := None; m_npc := None; m_nodes := []; m_symbols := [] |} end.
Lemma ex_signcycle_facts : static_ok ex_signcycle = true /\ schema_wf ex_signcycle = true /\ compile ex_signcycle = Ok ex_signcycle_model /\
  sanity_check (sanity_fuel ex_signcycle_model) ex_signcycle_model = Err ESemantic.
Proof. repeat split; vm_compute; reflexivity. Qed.

Lemma ex_signcycle_walk : sign_walk ex_signcycle i_a i_a [i_b].
Proof.
  cbn. split.
  - eexists. split; [left; reflexivity|]. split; [reflexivity | left; reflexivity].
  - eexists. split; [right; left; reflexivity|]. split; [reflexivity | left; reflexivity].
Qed.
