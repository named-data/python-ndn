(* Spec/LvsSem.expand: unfolding, monotonicity in the fuel, stability above the reference depth, and that a rule whose
   references are defined and acyclic has an expansion. *)
From NDN Require Import Proofs.ListLemmas Base.Prelude Model.LvsAst Spec.LvsSem.
Local Open Scope N_scope.

Lemma in_product {A} (L : list (list A)) l : In l (product L) <-> Forall2 (fun alts x => In x alts) L l.
Proof.
  revert l; induction L as [|alts L IH]; intros l; cbn.
  - split; [intros [<-|[]]; constructor | intros H; inversion H; auto].
  - rewrite in_flat_map. split.
    + intros (a & Ha & Hl). apply in_map_iff in Hl. destruct Hl as (l' & <- & Hl'). constructor; [exact Ha | apply IH, Hl'].
    + intros H. inversion H as [|? x ? l' Hx Hrest]; subst. exists x. split; [exact Hx|]. apply in_map, IH, Hrest.
Qed.

Definition mkflat (cs : list tagcons) (parts : list flat) : flat :=
  {| f_comps := concat (map f_comps parts);
     f_ncons := filter (fun tc => negb (is_temp_pat (tc_pat tc))) cs ++ concat (map f_ncons parts) |}.

Definition alts (k : nat) (S : lvsfile) (cs : list tagcons) (c : comp) : list flat :=
  match c with
  | CLit v => [{| f_comps := [FLit v]; f_ncons := [] |}]
  | CPat p => if is_temp_pat p then [{| f_comps := [FTemp (cons_on p cs)]; f_ncons := [] |}]
              else [{| f_comps := [FNamed p]; f_ncons := [] |}]
  | CRef r => flat_map (expand k S) (defs_of S r)
  end.

Lemma expand_unfold k S d :
  expand (Datatypes.S k) S d = flat_map (fun cs => map (mkflat cs) (product (map (alts k S cs) (r_name d)))) (choices d).
Proof. reflexivity. Qed.

Lemma in_expand_S k S d f :
  In f (expand (Datatypes.S k) S d) <->
  exists cs parts, In cs (choices d) /\ Forall2 (fun c part => In part (alts k S cs c)) (r_name d) parts /\ f = mkflat cs parts.
Proof.
  rewrite expand_unfold, in_flat_map. split.
  - intros (cs & Hcs & Hf). apply in_map_iff in Hf. destruct Hf as (parts & <- & Hp). apply in_product, forall2_map_l in Hp. eauto.
  - intros (cs & parts & Hcs & Hp & ->). exists cs. split; [exact Hcs|]. apply in_map. apply in_product, forall2_map_l. exact Hp.
Qed.

Lemma expand_S_incl S k k' d f :
  (forall r d' f', In (CRef r) (r_name d) -> In d' (defs_of S r) -> In f' (expand k S d') -> In f' (expand k' S d')) ->
  In f (expand (Datatypes.S k) S d) -> In f (expand (Datatypes.S k') S d).
Proof.
  intros Hsub H. apply in_expand_S in H. destruct H as (cs & parts & Hcs & Hp & ->). apply in_expand_S. exists cs, parts. split; [exact Hcs|]. split; [|reflexivity].
  eapply forall2_impl_in; [|exact Hp]. intros c part Hc _ Hin. destruct c as [v|p|r]; cbn in *; try exact Hin.
  apply in_flat_map in Hin. destruct Hin as (d' & Hd' & Hf). apply in_flat_map. exists d'. split; [exact Hd' | eapply Hsub; eauto].
Qed.

Lemma expand_mono S : forall k d f, In f (expand k S d) -> In f (expand (Datatypes.S k) S d).
Proof. induction k as [|k IH]; intros d f; [intros [] | apply expand_S_incl; intros r d' f' _ _; apply IH]. Qed.

Lemma expand_mono_le S k k' d f : (k <= k')%nat -> In f (expand k S d) -> In f (expand k' S d).
Proof. intros Hle. induction Hle as [|m Hm IH]; [auto | intros Hf; apply expand_mono, IH, Hf]. Qed.

Lemma product_nonempty {A} (L : list (list A)) : Forall (fun a => a <> []) L -> product L <> [].
Proof.
  induction 1 as [|a L Ha _ IH]; cbn; [discriminate|]. destruct a as [|x a]; [contradiction|]. cbn.
  destruct (product L); [contradiction | discriminate].
Qed.

Section Down.
  Variable S : lvsfile.
  Variable h : rule -> nat.
  Hypothesis Hh : forall d r d', In d S -> In (CRef r) (r_name d) -> In d' (defs_of S r) -> (h d' < h d)%nat.

  Lemma defs_of_in r d' : In d' (defs_of S r) -> In d' S.
  Proof. unfold defs_of. intros H. apply filter_In in H. tauto. Qed.

  (* the same list, not only the same members *)
  Lemma expand_stable : forall k d, In d S -> (h d < k)%nat -> expand (Datatypes.S k) S d = expand k S d.
  Proof.
    induction k as [|k IH]; intros d Hd Hk; [lia|]. rewrite (expand_unfold (Datatypes.S k)), (expand_unfold k).
    apply flat_map_ext_in. intros cs _. f_equal. f_equal. apply map_ext_in. intros c Hc. destruct c as [v|p|r]; try reflexivity.
    cbn [alts]. apply flat_map_ext_in. intros d' Hd'. apply IH; [eapply defs_of_in; eauto|]. pose proof (Hh d r d' Hd Hc Hd'). lia.
  Qed.

  Lemma expand_stable_le k k' d : In d S -> (h d < k)%nat -> (k <= k')%nat -> expand k' S d = expand k S d.
  Proof. intros Hd Hk Hle. induction Hle as [|m Hm IH]; [reflexivity|]. rewrite expand_stable; [exact IH | exact Hd | lia]. Qed.

  Lemma expand_down_le k k' d f : In d S -> (h d < k)%nat -> (k <= k')%nat -> In f (expand k' S d) -> In f (expand k S d).
  Proof. intros Hd Hk Hle. rewrite (expand_stable_le k k' d Hd Hk Hle). exact id. Qed.

End Down.

Section Nonempty.
  Variable S : lvsfile.
  Variable h : rule -> nat.
  Hypothesis Hh : forall d r d', In d S -> In (CRef r) (r_name d) -> In d' (defs_of S r) -> (h d' < h d)%nat.
  Hypothesis Hdef : forall d r, In d S -> In (CRef r) (r_name d) -> defs_of S r <> [].

  Lemma expand_nonempty : forall k d, In d S -> (h d < k)%nat -> expand k S d <> [].
  Proof.
    induction k as [|k IH]; intros d Hd Hk; [lia|]. rewrite expand_unfold.
    assert (Hc : exists cs l, choices d = cs :: l) by (unfold choices; destruct (r_cons d); eauto). destruct Hc as (cs & l & ->). cbn [flat_map].
    intros E. apply app_eq_nil in E. destruct E as [E _]. apply map_eq_nil in E. revert E. apply product_nonempty, Forall_map, Forall_forall.
    intros c Hc. destruct c as [v|p|r]; cbn [alts]; [discriminate | destruct (is_temp_pat p); discriminate |].
    pose proof (Hdef d r Hd Hc) as Hne. destruct (defs_of S r) as [|d' ds] eqn:Ed; [contradiction|]. cbn [flat_map].
    assert (Hd' : In d' (defs_of S r)) by (rewrite Ed; left; reflexivity).
    intros E. apply app_eq_nil in E. destruct E as [E _]. revert E. apply IH; [eapply defs_of_in; eauto|]. pose proof (Hh d r d' Hd Hc Hd'). lia.
  Qed.
End Nonempty.
