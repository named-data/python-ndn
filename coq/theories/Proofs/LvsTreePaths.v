(* The events of a traversal: what the depth-first walk of the node tree yields for a name, in order, up to
   the first raising user function ([tree_events]); they are exactly the root-to-node paths of Spec/LvsTree.v
   ([events_sound], [events_complete]).  [feed] hands a list of events to a consumer the way the generator of
   Checker._match does. *)
From NDN Require Import Base.Prelude Model.LvsAst Model.LvsChecker Spec.LvsTree Proofs.ListLemmas.
Local Open Scope N_scope.

Section Paths.
  Variable ufn : ident -> option (bytes -> list (option bytes) -> res bool).
  Variable m : lvsmodel.

  (* crossing one pattern edge: None = not passable, Some (new context, tag pushed on [matches]) *)
  Definition try_pedge (pe : pedge) (value : bytes) (c : ctx) : res (option (ctx * option N)) :=
    match (match pe_tag pe with Some t => ctx_get c t | None => None end) with
    | Some w =>
        if negb (bytes_eqb value w) then Ok None else
        do ok <- check_cons ufn value c (pe_cons pe) ;;
        if negb ok then Ok None else Ok (Some (c, None))
    | None =>
        do ok <- check_cons ufn value c (pe_cons pe) ;;
        if negb ok then Ok None else
        match pe_tag pe with
        | None => Err EType
        | Some t => do named <- npc_leb m t ;;
                    if named then Ok (Some (al_set N.eqb c t value, Some t)) else Ok (Some (c, None))
        end
    end.

  Lemma try_pedge_inv pe v c r : try_pedge pe v c = Ok r ->
    match r with
    | Some (c', tg) =>
        exists t, pe_tag pe = Some t /\ check_cons ufn v c (pe_cons pe) = Ok true /\
          match ctx_get c t with
          | Some w => v = w /\ c' = c /\ tg = None
          | None => exists named, npc_leb m t = Ok named /\
                      (c', tg) = if named then (al_set N.eqb c t v, Some t) else (c, None)
          end
    | None => check_cons ufn v c (pe_cons pe) = Ok false \/
              exists t w, pe_tag pe = Some t /\ ctx_get c t = Some w /\ v <> w
    end.
  Proof.
    unfold try_pedge. destruct (pe_tag pe) as [t|].
    - destruct (ctx_get c t) as [w|] eqn:Eg.
      + destruct (bytes_eqb v w) eqn:Eb; cbn [negb].
        * apply bytes_eqb_spec in Eb.
          destruct (check_cons ufn v c (pe_cons pe)) as [[|]|]; cbn; intros H; inversion H; [exists t; rewrite Eg; auto | auto].
        * intros H; inversion H. right. exists t, w. repeat split; auto.
          intros ->. rewrite bytes_eqb_refl in Eb. discriminate.
      + destruct (check_cons ufn v c (pe_cons pe)) as [[|]|]; cbn; try discriminate.
        * destruct (npc_leb m t) as [named|] eqn:En; cbn; [|discriminate].
          destruct named; intros H; inversion H; exists t; rewrite Eg; eauto 8.
        * intros H; inversion H. auto.
    - destruct (check_cons ufn v c (pe_cons pe)) as [[|]|]; cbn; try discriminate. intros H; inversion H. auto.
  Qed.

  Lemma try_pedge_ctx pe v c c' tg :
    try_pedge pe v c = Ok (Some (c', tg)) ->
    match tg with Some t => al_del N.eqb c' t = c | None => c' = c end.
  Proof.
    intros H. apply try_pedge_inv in H. destruct H as (t & _ & _ & H).
    destruct (ctx_get c t) as [w|] eqn:Eb.
    - destruct H as (_ & -> & ->). reflexivity.
    - destruct H as ([|] & _ & H); inversion H; [apply (al_del_set_fresh N.eqb N.eqb_eq), Eb | reflexivity].
  Qed.

  Lemma fn_arg_targ c a : fn_arg c a = targ c a.
  Proof. reflexivity. Qed.

  Lemma opt_sat_spec {v c op b} : opt_sat ufn v c op = Ok b -> (b = true <-> option_true ufn v c op).
  Proof.
    unfold opt_sat, option_true.
    destruct (co_value op) as [x|].
    - intros H; inversion H; subst. apply bytes_eqb_spec.
    - destruct (co_tag op) as [t|].
      + intros H; inversion H; subst. unfold obytes_eqb, ctx_get, tget.
        destruct (al_get N.eqb c t) as [w|].
        * rewrite bytes_eqb_spec. split; [intros ->; reflexivity | intros E; inversion E; reflexivity].
        * split; discriminate.
      + destruct (co_fn op) as [fn|]; [|discriminate].
        destruct (uf_id fn) as [fid|]; [|discriminate].
        destruct (ufn fid) as [g|] eqn:Eg; [|discriminate].
        intros H. rewrite (map_ext _ _ (fn_arg_targ c)) in H. split.
        * intros ->. eauto 6.
        * intros (fid' & g' & Ei & Eg' & Er). congruence.
  Qed.

  Lemma any_opt_spec {v c ops b} : any_opt ufn v c ops = Ok b -> (b = true <-> Exists (option_true ufn v c) ops).
  Proof.
    revert b; induction ops as [|op r IH]; intros b; cbn.
    - intros H; inversion H. rewrite Exists_nil. intuition discriminate.
    - destruct (opt_sat ufn v c op) as [x|] eqn:Eo; [|discriminate]. cbn.
      rewrite Exists_cons, <- (opt_sat_spec Eo).
      destruct x; intros H; [inversion H; tauto|]. rewrite <- (IH _ H). intuition discriminate.
  Qed.

  Lemma check_cons_spec {v c cs b} : check_cons ufn v c cs = Ok b -> (b = true <-> cnf_true ufn v c cs).
  Proof.
    unfold cnf_true. revert b; induction cs as [|k r IH]; intros b; cbn.
    - intros H; inversion H. split; [constructor | reflexivity].
    - destruct (any_opt ufn v c k) as [x|] eqn:Ea; [|discriminate]. cbn.
      rewrite Forall_cons_iff, <- (any_opt_spec Ea).
      destruct x; intros H; [rewrite <- (IH _ H); tauto|]. inversion H. intuition discriminate.
  Qed.

  Lemma npc_leb_named t b : npc_leb m t = Ok b -> (b = true <-> is_named m t).
  Proof.
    unfold npc_leb, is_named. destruct (m_npc m) as [k|]; [|discriminate].
    intros H; inversion H. rewrite N.leb_le. split.
    - intros L; exists k; auto.
    - intros (k' & E & L); inversion E; subst; exact L.
  Qed.

  Lemma try_pedge_pass pe v c c' tg : try_pedge pe v c = Ok (Some (c', tg)) -> pedge_pass ufn m pe v c c'.
  Proof.
    intros H. apply try_pedge_inv in H. destruct H as (t & Et & Hc & H).
    exists t. split; [exact Et|]. split; [apply (check_cons_spec Hc); reflexivity|].
    unfold tget, ctx_get in *. destruct (al_get N.eqb c t) as [w|] eqn:Eg.
    - destruct H as (-> & -> & _). auto.
    - destruct H as (named & En & H). pose proof (npc_leb_named _ _ En) as Hn. destruct named; inversion H.
      + left. split; [apply Hn; reflexivity | apply (al_set_fresh N.eqb); exact Eg].
      + right. split; [intros X; apply Hn in X; discriminate | reflexivity].
  Qed.

  Lemma try_pedge_fail {pe v c c1} : try_pedge pe v c = Ok None -> ~ pedge_pass ufn m pe v c c1.
  Proof.
    intros H (t & Et & Hc & Hb). apply try_pedge_inv in H. destruct H as [Hf|(t' & w & Et' & Eg & Hne)].
    - apply (check_cons_spec Hf) in Hc. discriminate.
    - rewrite Et in Et'. injection Et' as <-. unfold tget, ctx_get in *. rewrite Eg in Hb. apply Hne, Hb.
  Qed.

  Lemma pedge_pass_det {pe v c c1 c' tg} :
    pedge_pass ufn m pe v c c1 -> try_pedge pe v c = Ok (Some (c', tg)) -> c1 = c'.
  Proof.
    intros (t & Et & _ & Hb) H. apply try_pedge_pass in H. destruct H as (t' & Et' & _ & Hb').
    rewrite Et in Et'. inversion Et'; subst t'.
    destruct (tget c t) as [w|]; intuition congruence.
  Qed.

  (* what follows a [Raise] is never reached *)
  Inductive item := Yield (n : N) (c : ctx) | Raise (e : err).
  Definition events := list item.

  (* An edge without destination contributes nothing here, whereas the machine would stop for good (cur = None); the
     choice is immaterial, since on the models [mrun_events] is about every edge has a destination ([subtree_ok_iff]). *)
  Fixpoint pevents (rec : N -> ctx -> events) (v : bytes) (c : ctx) (pes : list pedge) : events :=
    match pes with
    | [] => []
    | pe :: r =>
        match try_pedge pe v c with
        | Err e => [Raise e]
        | Ok None => pevents rec v c r
        | Ok (Some (c', _)) => match pe_dest pe with Some d => rec d c' | None => [] end ++ pevents rec v c r
        end
    end.

  Fixpoint tree_events (name : list bytes) (cur : N) (c : ctx) {struct name} : events :=
    match get_node m cur with
    | None => [Raise EIndex]
    | Some nd =>
        match name with
        | [] => [Yield cur c]
        | v :: rest =>
            match find (fun ve => obytes_eqb v (ve_value ve)) (n_vedges nd) with
            | Some ve => match ve_dest ve with Some d => tree_events rest d c | None => [] end
            | None => []
            end ++ pevents (tree_events rest) v c (n_pedges nd)
        end
    end.

  Definition quiet (ev : events) : Prop := forall e, ~ In (Raise e) ev.

  Lemma quiet_app x y : quiet (x ++ y) -> quiet x /\ quiet y.
  Proof. intros H. split; intros e He; apply (H e), in_or_app; auto. Qed.

  Section Feed.
    Context {A R : Type}.
    Variable f : A -> N -> ctx -> res (A + R).

    Fixpoint feed (ev : events) (a : A) : res (A + R) :=
      match ev with
      | [] => Ok (inl a)
      | Yield n c :: r => do x <- f a n c ;; match x with inl a' => feed r a' | inr v => Ok (inr v) end
      | Raise e :: _ => Err e
      end.

    Lemma feed_app x y a :
      feed (x ++ y) a = do r <- feed x a ;; match r with inl a' => feed y a' | inr v => Ok (inr v) end.
    Proof.
      revert a; induction x as [|[n c|e] x IH]; intros a; cbn; [destruct (feed y a) as [[|]|]; reflexivity| |reflexivity].
      destruct (f a n c) as [[a'|v]|e]; cbn; auto.
    Qed.
  End Feed.

  Lemma feed_ext {A R} (f g : A -> N -> ctx -> res (A + R)) ev a :
    (forall a n c, f a n c = g a n c) -> feed f ev a = feed g ev a.
  Proof.
    intros H. revert a; induction ev as [|[n c|e] ev IH]; intros a; cbn; [reflexivity| |reflexivity].
    rewrite H. destruct (g a n c) as [[a'|v]|e]; cbn; auto.
  Qed.

  Lemma obytes_eqb_eq v e :
    obytes_eqb v (ve_value e) = match ve_value e with Some x => bytes_eqb v x | None => false end.
  Proof. reflexivity. Qed.

  Lemma events_sound name : forall cur c n c', In (Yield n c') (tree_events name cur c) -> path ufn m cur name c n c'.
  Proof.
    induction name as [|v rest IH]; intros cur c n c'; cbn [tree_events].
    - destruct (get_node m cur) as [nd|] eqn:En; [|intros [H|[]]; discriminate].
      intros [H|[]]. injection H as <- <-. eapply path_end; eauto.
    - destruct (get_node m cur) as [nd|] eqn:En; [|intros [H|[]]; discriminate].
      intros H. apply in_app_or in H. destruct H as [H|H].
      + destruct (find _ (n_vedges nd)) as [ve|] eqn:Ef; [|destruct H].
        destruct (ve_dest ve) as [d|] eqn:Ed; [|destruct H].
        eapply path_value; eauto.
      + assert (Hgen : forall pes, incl pes (n_pedges nd) ->
                   In (Yield n c') (pevents (tree_events rest) v c pes) -> path ufn m cur (v :: rest) c n c').
        { clear H. induction pes as [|pe r IHp]; intros Hsub Hin; [destruct Hin|].
          apply incl_cons_inv in Hsub. destruct Hsub as [Hpe Hsub]. cbn [pevents] in Hin.
          destruct (try_pedge pe v c) as [[[c1 tg]|]|e] eqn:Et; [|auto|destruct Hin as [Hin|[]]; discriminate].
          apply in_app_or in Hin. destruct Hin as [Hin|Hin]; [|auto].
          destruct (pe_dest pe) as [d|] eqn:Ed; [|destruct Hin].
          eapply path_pattern; eauto. eapply try_pedge_pass; eauto. }
        apply (Hgen _ (incl_refl _) H).
  Qed.

  Lemma events_complete name : forall cur c n c',
    quiet (tree_events name cur c) -> path ufn m cur name c n c' -> In (Yield n c') (tree_events name cur c).
  Proof.
    induction name as [|v rest IH]; intros cur c n c' Hc Hp.
    - inversion Hp as [? nd0 ? Hg| |]; subst. cbn [tree_events]. rewrite Hg. left; reflexivity.
    - cbn [tree_events] in *.
      inversion Hp as [ | ? nd0 ? ? ? ve d ? ? Hg Ht Hd Hrest | ? nd0 ? ? ? pe d c1 ? ? Hg Hin Hpass Hd Hrest ]; subst;
        rewrite Hg in Hc |- *; destruct (quiet_app _ _ Hc) as (Hc1 & Hc2); apply in_or_app.
      + left. unfold vedge_taken in Ht.
        change (find (fun ve => obytes_eqb v (ve_value ve)) (n_vedges nd0) = Some ve) in Ht.
        rewrite Ht in Hc1 |- *. rewrite Hd in Hc1 |- *. apply IH; auto.
      + right. revert Hc2 Hin. generalize (n_pedges nd0). induction l as [|pe0 r IHp]; intros Hc2 Hin; [destruct Hin|].
        cbn [pevents] in *.
        destruct (try_pedge pe0 v c) as [[[c2 tg]|]|e] eqn:Et; [| |destruct (Hc2 e); left; reflexivity].
        * destruct (quiet_app _ _ Hc2) as (Hd1 & Hd2). apply in_or_app. destruct Hin as [->|Hin]; [left | right; auto].
          rewrite Hd in *. pose proof (pedge_pass_det Hpass Et) as ->. apply IH; auto.
        * destruct Hin as [->|Hin]; [destruct (try_pedge_fail Et Hpass) | auto].
  Qed.
End Paths.
