(* Byte-wise comparison of library-encoded components / names = NDN canonical order.
   The key fact is that shortest-form variable-size numbers are order-preserving and
   prefix-free under lexicographic byte comparison. *)
From NDN Require Import Base.Prelude Model.TlvVar Model.Name Spec.NdnOrder Proofs.TlvVarProofs.
Local Open Scope N_scope.

Lemma bytes_cmp_lex a b : bytes_cmp a b = lex_bytes a b.
Proof. reflexivity. Qed.

Lemma bytes_cmp_app_same p x y : bytes_cmp (p ++ x) (p ++ y) = bytes_cmp x y.
Proof. induction p as [|c p IH]; cbn [app bytes_cmp]; [reflexivity|]. rewrite N.compare_refl. exact IH. Qed.

Lemma compare_qr d q1 r1 q2 r2 :
  r1 < d -> r2 < d -> (d * q1 + r1 ?= d * q2 + r2) = match q1 ?= q2 with Eq => r1 ?= r2 | c => c end.
Proof.
  intros H1 H2. destruct (N.compare_spec q1 q2) as [->|L|G].
  - destruct (N.compare_spec r1 r2); [apply N.compare_eq_iff|apply N.compare_lt_iff|apply N.compare_gt_iff]; lia.
  - apply N.compare_lt_iff. nia.
  - apply N.compare_gt_iff. nia.
Qed.

Lemma compare_divmod a b d :
  d <> 0 -> (a ?= b) = match a / d ?= b / d with Eq => a mod d ?= b mod d | c => c end.
Proof.
  intros Hd. rewrite (N.div_mod a d Hd) at 1. rewrite (N.div_mod b d Hd) at 1. apply compare_qr; now apply N.mod_lt.
Qed.

Lemma be_cmp k : forall a b x y,
  a < 256 ^ N.of_nat k -> b < 256 ^ N.of_nat k ->
  bytes_cmp (N_to_be k a ++ x) (N_to_be k b ++ y) = match a ?= b with Eq => bytes_cmp x y | c => c end.
Proof.
  induction k as [|k IH]; intros a b x y Ha Hb.
  - apply N.lt_1_r in Ha, Hb. subst. reflexivity.
  - rewrite Nat2N.inj_succ, N.pow_succ_r' in Ha, Hb.
    cbn [N_to_be]. rewrite <- !app_assoc, IH by (apply N.div_lt_upper_bound; [discriminate|assumption]).
    cbn [app bytes_cmp]. rewrite (compare_divmod a b 256) by discriminate.
    destruct (a / 256 ?= b / 256); reflexivity.
Qed.

Lemma below_above T a b : a <= T -> T < b -> (a ?= b) = Lt /\ (b ?= a) = Gt.
Proof.
  intros H1 H2. pose proof (N.le_lt_trans _ _ _ H1 H2) as H. split; [apply N.compare_lt_iff|apply N.compare_gt_iff]; exact H.
Qed.

Lemma cmp_head c h1 t1 h2 t2 : (h1 ?= h2) = c -> c <> Eq -> bytes_cmp (h1 :: t1) (h2 :: t2) = c.
Proof. intros H Hc. cbn [bytes_cmp]. rewrite H. now destruct c. Qed.

(* The width classes are ordered like their marker bytes 253 < 254 < 255, which are above every one-byte number;
   within a class the payloads have one width. *)
Theorem tl_enc_cmp a b x y :
  a < two64 -> b < two64 ->
  bytes_cmp (tl_enc a ++ x) (tl_enc b ++ y) = match a ?= b with Eq => bytes_cmp x y | c => c end.
Proof.
  intros Ha Hb. unfold tl_enc.
  destruct (N.leb_spec a 252) as [A1|A1], (N.leb_spec b 252) as [B1|B1].
  - cbn [app bytes_cmp]. destruct (a ?= b); reflexivity.
  - rewrite (proj1 (below_above 252 a b A1 B1)).
    destruct (b <=? 65535); [|destruct (b <=? 4294967295)];
      (apply cmp_head; [apply (below_above 252); [exact A1|reflexivity]|discriminate]).
  - rewrite (proj2 (below_above 252 b a B1 A1)).
    destruct (a <=? 65535); [|destruct (a <=? 4294967295)];
      (apply cmp_head; [apply (below_above 252); [exact B1|reflexivity]|discriminate]).
  - destruct (N.leb_spec a 65535) as [A2|A2], (N.leb_spec b 65535) as [B2|B2].
    + cbn [app bytes_cmp]. apply be_cmp; rewrite pow256_2; now apply (N.le_lt_trans _ 65535).
    + rewrite (proj1 (below_above 65535 a b A2 B2)).
      destruct (b <=? 4294967295); (apply cmp_head; [reflexivity|discriminate]).
    + rewrite (proj2 (below_above 65535 b a B2 A2)).
      destruct (a <=? 4294967295); (apply cmp_head; [reflexivity|discriminate]).
    + destruct (N.leb_spec a 4294967295) as [A3|A3], (N.leb_spec b 4294967295) as [B3|B3].
      * cbn [app bytes_cmp]. apply be_cmp; rewrite pow256_4; now apply (N.le_lt_trans _ 4294967295).
      * rewrite (proj1 (below_above _ a b A3 B3)). apply cmp_head; [reflexivity|discriminate].
      * rewrite (proj2 (below_above _ b a B3 A3)). apply cmp_head; [reflexivity|discriminate].
      * cbn [app bytes_cmp]. apply be_cmp; rewrite pow256_8; assumption.
Qed.

Definition wf_scomp (c : scomp) : Prop := fst c < two64 /\ N.of_nat (length (snd c)) < two64.
Definition enc_scomp (c : scomp) : bytes := comp_enc (fst c) (snd c).

Theorem comp_cmp_canonical (c1 c2 : scomp) :
  wf_scomp c1 -> wf_scomp c2 -> bytes_cmp (enc_scomp c1) (enc_scomp c2) = canon_comp_cmp c1 c2.
Proof.
  intros [T1 L1] [T2 L2]. unfold enc_scomp, comp_enc, canon_comp_cmp.
  rewrite tl_enc_cmp by assumption.
  destruct (fst c1 ?= fst c2); try reflexivity.
  rewrite tl_enc_cmp by assumption.
  destruct (N.of_nat (length (snd c1)) ?= N.of_nat (length (snd c2))); try reflexivity;
  apply bytes_cmp_lex.
Qed.

(* C09: comparing library-produced names (lists of encoded components) = canonical name order *)
Theorem name_cmp_canonical (a b : list scomp) :
  Forall wf_scomp a -> Forall wf_scomp b ->
  name_cmp (map enc_scomp a) (map enc_scomp b) = canon_name_cmp a b.
Proof.
  intros Ha. revert b. induction Ha as [|x a Hx Ha IH]; intros b Hb.
  - destruct b; reflexivity.
  - destruct Hb as [|y b Hy Hb]; [reflexivity|].
    cbn [map name_cmp canon_name_cmp]. rewrite comp_cmp_canonical by assumption.
    destruct (canon_comp_cmp x y); try reflexivity. apply IH. exact Hb.
Qed.
