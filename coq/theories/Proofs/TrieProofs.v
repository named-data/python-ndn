(* The specification's longest-prefix match over any partial map ([lp_fun], against [is_lpm]: [lp_fun_spec]; [is_lpm]
   determines its answer: [is_lpm_unique]).  Lemmas about Model/Trie.v: get after set / setdefault / del, prefixes =
   the valued prefixes of the key, longest_prefix = [lp_fun] of get, pruning. *)
From NDN Require Import Base.Prelude Model.Name Model.Trie Spec.DispatchSpec Proofs.BytesLemmas.

Definition last_of {A} (l : list A) : option A := match rev l with [] => None | x :: _ => Some x end.

Lemma last_of_app {A} (a b : list A) :
  last_of (a ++ b) = match last_of b with Some x => Some x | None => last_of a end.
Proof. unfold last_of. rewrite rev_app_distr. destruct (rev b); reflexivity. Qed.

Definition olist {A B} (f : A -> option B) (x : A) : list B := match f x with Some y => [y] | None => [] end.

Lemma prefix_nil (n : name) : prefix [] n.
Proof. exists n. reflexivity. Qed.

Lemma prefix_of_nil (p : name) : prefix p [] -> p = [].
Proof. intros [r H]. destruct p; [reflexivity|discriminate]. Qed.

Lemma prefix_cons c p d n : prefix (c :: p) (d :: n) <-> c = d /\ prefix p n.
Proof.
  split.
  - intros [r H]. cbn in H. inversion H. split; [reflexivity|]. exists r. reflexivity.
  - intros [-> [r ->]]. exists r. reflexivity.
Qed.

Lemma prefix_cons_nil c (p : name) : ~ prefix (c :: p) [].
Proof. intros [r H]. discriminate. Qed.

Lemma prefix_refl (n : name) : prefix n n.
Proof. exists []. rewrite app_nil_r. reflexivity. Qed.

Lemma prefix_same_length (p q n : name) : prefix p n -> prefix q n -> length p = length q -> p = q.
Proof.
  revert q n. induction p as [|c p IH]; intros [|d q] n Hp Hq Hl; try discriminate; [reflexivity|].
  destruct n as [|e n]; [exfalso; eapply prefix_cons_nil; exact Hp|].
  apply prefix_cons in Hp. apply prefix_cons in Hq. destruct Hp as [-> Hp], Hq as [-> Hq].
  f_equal. eapply IH; eauto.
Qed.

Lemma is_lpm_unique {X} (a : name -> option X) n p h p' h' :
  is_lpm a n p h -> is_lpm a n p' h' -> p = p' /\ h = h'.
Proof.
  intros (A1 & P1 & M1) (A2 & P2 & M2).
  assert (p = p') as ->.
  { eapply prefix_same_length; eauto. apply Nat.le_antisymm; eauto. }
  split; [reflexivity|congruence].
Qed.

(* first_some over the prefixes of a name, longest first: Spec/DispatchSpec.v's [s_lookup] for any type of values
   ([s_lookup a n] unfolds to [lp_fun a n]) *)
Definition lp_fun {X} (g : name -> option X) (n : name) : option (name * X) :=
  first_some (fun p => match g p with Some h => Some (p, h) | None => None end) (rev (inits n)).

Lemma first_some_app {A B} (f : A -> option B) l1 l2 :
  first_some f (l1 ++ l2) = match first_some f l1 with Some y => Some y | None => first_some f l2 end.
Proof. induction l1 as [|x l1 IH]; [reflexivity|]. cbn. destruct (f x); [reflexivity|exact IH]. Qed.

Lemma first_some_map {A B C} (f : B -> option C) (g : A -> B) l :
  first_some f (map g l) = first_some (fun x => f (g x)) l.
Proof. induction l as [|x l IH]; [reflexivity|]. cbn. destruct (f (g x)); [reflexivity|exact IH]. Qed.

Lemma first_some_omap {A B C} (f : A -> option B) (k : B -> C) l :
  first_some (fun x => option_map k (f x)) l = option_map k (first_some f l).
Proof. induction l as [|x l IH]; [reflexivity|]. cbn. destruct (f x); [reflexivity|exact IH]. Qed.

Lemma first_some_ext {A B} (f g : A -> option B) l :
  (forall x, f x = g x) -> first_some f l = first_some g l.
Proof. intros H. induction l as [|x l IH]; [reflexivity|]. cbn. rewrite H, IH. reflexivity. Qed.

Lemma in_inits {A} (p n : list A) : In p (inits n) <-> exists r, n = p ++ r.
Proof.
  revert p. induction n as [|x n IH]; intros p; cbn [inits].
  - split; [intros [<-|[]]; exists []; reflexivity | intros [r H]; destruct p; [left; reflexivity | discriminate]].
  - split.
    + intros [<-|H]; [exists (x :: n); reflexivity|]. apply in_map_iff in H as (q & <- & H). apply IH in H as [r ->].
      exists r. reflexivity.
    + intros [r H]. destruct p as [|y p]; [left; reflexivity|]. right. injection H as <- ->.
      apply in_map. apply IH. exists r. reflexivity.
Qed.

Lemma last_flat_olist {A B} (f : A -> option B) l : last_of (flat_map (olist f) l) = first_some f (rev l).
Proof.
  induction l as [|x l IH]; [reflexivity|]. change (flat_map (olist f) (x :: l)) with (olist f x ++ flat_map (olist f) l).
  cbn [rev]. rewrite last_of_app, first_some_app, IH. unfold olist. cbn. destruct (first_some f (rev l)); [reflexivity|].
  destruct (f x); reflexivity.
Qed.

Lemma lp_fun_nil {X} (g : name -> option X) :
  lp_fun g [] = match g [] with Some h => Some ([], h) | None => None end.
Proof. unfold lp_fun. cbn. destruct (g []); reflexivity. Qed.

Lemma lp_fun_cons {X} (g : name -> option X) c n :
  lp_fun g (c :: n) =
  match lp_fun (fun p => g (c :: p)) n with
  | Some (p, h) => Some (c :: p, h)
  | None => match g [] with Some h => Some ([], h) | None => None end
  end.
Proof.
  unfold lp_fun. cbn [inits rev]. rewrite first_some_app. rewrite <- map_rev, first_some_map.
  rewrite (first_some_ext _ (fun x => option_map (fun ph => (c :: fst ph, snd ph))
             (match g (c :: x) with Some h => Some (x, h) | None => None end))).
  2:{ intros x. destruct (g (c :: x)); reflexivity. }
  rewrite first_some_omap. unfold name.
  destruct (first_some _ (rev (inits n))) as [[p h]|]; cbn; [reflexivity|].
  destruct (g []); reflexivity.
Qed.

Lemma lp_fun_ext {X} (g1 g2 : name -> option X) n : (forall p, g1 p = g2 p) -> lp_fun g1 n = lp_fun g2 n.
Proof. intros H. unfold lp_fun. apply first_some_ext. intros x. rewrite H. reflexivity. Qed.

Lemma lp_fun_spec {X} (g : name -> option X) n :
  match lp_fun g n with
  | Some (p, h) => is_lpm g n p h
  | None => forall p, prefix p n -> g p = None
  end.
Proof.
  revert g. induction n as [|c n IH]; intros g.
  - rewrite lp_fun_nil. destruct (g []) eqn:E.
    + split; [exact E|]. split; [apply prefix_nil|]. intros p' h' _ Hp. apply prefix_of_nil in Hp. subst. auto.
    + intros p Hp. apply prefix_of_nil in Hp. subst. exact E.
  - rewrite lp_fun_cons. specialize (IH (fun p => g (c :: p))).
    destruct (lp_fun (fun p => g (c :: p)) n) as [[p h]|].
    + destruct IH as (A & P & M). split; [exact A|]. split; [apply prefix_cons; auto|].
      intros [|d p'] h' A' P'; [cbn; lia|]. apply prefix_cons in P'. destruct P' as [-> P'].
      cbn. apply le_n_S. eapply M; eauto.
    + destruct (g []) eqn:E.
      * split; [exact E|]. split; [apply prefix_nil|].
        intros [|d p'] h' A' P'; [auto|]. apply prefix_cons in P'. destruct P' as [-> P'].
        rewrite (IH p' P') in A'. discriminate.
      * intros [|d p'] P'; [exact E|]. apply prefix_cons in P'. destruct P' as [-> P']. apply IH. exact P'.
Qed.

Lemma lp_fun_some {X} (g : name -> option X) n p h : lp_fun g n = Some (p, h) -> is_lpm g n p h.
Proof. intros H. pose proof (lp_fun_spec g n) as S. rewrite H in S. exact S. Qed.

Lemma lp_fun_complete {X} (g : name -> option X) n p h : is_lpm g n p h -> lp_fun g n = Some (p, h).
Proof.
  intros H. pose proof (lp_fun_spec g n) as S. destruct (lp_fun g n) as [[p' h']|].
  - destruct (is_lpm_unique _ _ _ _ _ _ H S) as [-> ->]. reflexivity.
  - destruct H as (A & P & _). rewrite (S p P) in A. discriminate.
Qed.

Lemma lp_fun_rel {X Y} (g1 : name -> option X) (g2 : name -> option Y) (f : X -> Y) n :
  (forall p, g2 p = option_map f (g1 p)) ->
  lp_fun g2 n = option_map (fun ph => (fst ph, f (snd ph))) (lp_fun g1 n).
Proof.
  intros H. unfold lp_fun. rewrite <- first_some_omap. apply first_some_ext.
  intros x. rewrite H. destruct (g1 x); reflexivity.
Qed.

Section TrieLemmas.
  Context {V : Type}.
  Notation trie := (trie V).

  Lemma ch_get_set_same (l : list (bytes * trie)) c s : ch_get (ch_set l c s) c = Some s.
  Proof. apply (al_get_set_eq _ bytes_eqb_spec). Qed.

  Lemma ch_get_set_other (l : list (bytes * trie)) c c' s : c <> c' -> ch_get (ch_set l c s) c' = ch_get l c'.
  Proof. intros N. apply (al_get_set_neq _ bytes_eqb_spec). congruence. Qed.

  Lemma ch_get_del_same (l : list (bytes * trie)) c : ch_get (ch_del l c) c = None.
  Proof.
    unfold ch_get, ch_del. induction l as [|[d s'] l IH]; cbn; [reflexivity|].
    destruct (bytes_eqb c d) eqn:E; cbn; [exact IH|]. rewrite E. exact IH.
  Qed.

  Lemma ch_get_del_other (l : list (bytes * trie)) c c' : c <> c' -> ch_get (ch_del l c) c' = ch_get l c'.
  Proof.
    intros N. unfold ch_get, ch_del. induction l as [|[d s'] l IH]; cbn; [reflexivity|].
    destruct (bytes_eqb c d) eqn:E; cbn.
    - apply bytes_eqb_spec in E. subst d. rewrite (bytes_eqb_neq c' c) by congruence. exact IH.
    - rewrite IH. reflexivity.
  Qed.

  Lemma t_get_nil (t : trie) : t_get t [] = t_val t.
  Proof. reflexivity. Qed.

  Lemma t_get_cons (t : trie) c k :
    t_get t (c :: k) = match ch_get (t_ch t) c with Some s => t_get s k | None => None end.
  Proof. unfold t_get. cbn. destruct (ch_get (t_ch t) c); reflexivity. Qed.

  Lemma t_get_empty k : t_get (@t_empty V) k = None.
  Proof. destruct k; reflexivity. Qed.

  Lemma t_is_empty_get (t : trie) k : t_is_empty t = true -> t_get t k = None.
  Proof. destruct t as [[v|] [|x l]]; cbn; try discriminate. intros _. apply t_get_empty. Qed.

  Lemma t_get_set_node (t : trie) k v oim q :
    t_get (t_set_node t k v oim) q =
    if name_eqb q k
    then Some (if oim then match t_get t k with Some x => x | None => v end else v)
    else t_get t q.
  Proof.
    revert t q. induction k as [|c k IH]; intros t q.
    - destruct q as [|d q].
      + rewrite !t_get_nil. cbn. destruct (t_val t) eqn:E, oim; cbn; rewrite ?E; reflexivity.
      + cbn [t_set_node]. destruct (t_val t), oim; rewrite ?t_get_cons; reflexivity.
    - cbn [t_set_node]. destruct q as [|d q]; [reflexivity|].
      rewrite !t_get_cons. cbn [t_ch]. change (name_eqb (d :: q) (c :: k)) with (bytes_eqb d c && name_eqb q k).
      destruct (bytes_dec c d) as [<-|Nc].
      + rewrite bytes_eqb_refl, ch_get_set_same, IH. cbn [andb].
        destruct (ch_get (t_ch t) c); [reflexivity|]. rewrite !t_get_empty. reflexivity.
      + rewrite ch_get_set_other, (bytes_eqb_neq d c) by congruence. reflexivity.
  Qed.

  Lemma t_set_node_nonempty (t : trie) k v oim : t_is_empty (t_set_node t k v oim) = false.
  Proof.
    destruct k as [|c k]; cbn.
    - destruct (t_val t) eqn:E, oim; try reflexivity. destruct t as [[x|] l]; cbn in *; [reflexivity|discriminate].
    - destruct (t_val t); unfold ch_set; destruct (t_ch t) as [|[d s] l]; cbn; try reflexivity;
        destruct (bytes_eqb c d); reflexivity.
  Qed.

  Lemma t_del_spec (t : trie) k :
    match t_del t k with
    | Ok t' => t_get t k <> None /\ forall q, t_get t' q = if name_eqb q k then None else t_get t q
    | Err e => e = EKey /\ t_get t k = None
    end.
  Proof.
    revert t. induction k as [|c k IH]; intros t.
    - cbn [t_del]. rewrite t_get_nil. destruct (t_val t) eqn:E; [|auto].
      split; [discriminate|]. intros [|d q]; [reflexivity|]. rewrite !t_get_cons. reflexivity.
    - cbn [t_del]. rewrite t_get_cons. destruct (ch_get (t_ch t) c) as [s|] eqn:Ec; [|auto].
      specialize (IH s). destruct (t_del s k) as [s'|e]; cbn [bind]; [|exact IH].
      destruct IH as [A G]. split; [exact A|]. intros [|d q]; [reflexivity|]. rewrite !t_get_cons. cbn [t_ch].
      change (name_eqb (d :: q) (c :: k)) with (bytes_eqb d c && name_eqb q k).
      destruct (bytes_dec c d) as [<-|Nc].
      + rewrite bytes_eqb_refl, Ec. cbn [andb]. rewrite <- G. destruct (t_is_empty s') eqn:Ee.
        * rewrite ch_get_del_same. symmetry. apply t_is_empty_get, Ee.
        * rewrite ch_get_set_same. reflexivity.
      + rewrite (bytes_eqb_neq d c) by congruence.
        destruct (t_is_empty s'); [rewrite ch_get_del_other by exact Nc|rewrite ch_get_set_other by exact Nc]; reflexivity.
  Qed.

  (* pygtrie's prefixes(k): exactly the valued prefixes of k, shortest first *)
  Theorem t_prefixes_eq (t : trie) k acc :
    t_prefixes t k acc = flat_map (olist (fun p => option_map (pair (rev acc ++ p)) (t_get t p))) (inits k).
  Proof.
    revert t acc. induction k as [|c k IH]; intros t acc; cbn [t_prefixes inits flat_map]; unfold olist at 1;
      rewrite t_get_nil, !app_nil_r.
    - destruct (t_val t); reflexivity.
    - replace (match t_val t with Some v => [(rev acc, v)] | None => [] end)
        with (match option_map (pair (rev acc)) (t_val t) with Some y => [y] | None => [] end)
        by (destruct (t_val t); reflexivity).
      f_equal. rewrite flat_map_map. destruct (ch_get (t_ch t) c) as [s|] eqn:Ec.
      + rewrite IH. apply flat_map_ext. intros p. unfold olist. rewrite (t_get_cons t), Ec. cbn [rev].
        rewrite <- app_assoc. reflexivity.
      + symmetry. apply flat_map_all_nil. intros p _. unfold olist. rewrite (t_get_cons t), Ec. reflexivity.
  Qed.

  Theorem t_longest_prefix_lp (t : trie) k : t_longest_prefix t k = lp_fun (t_get t) k.
  Proof.
    change (t_longest_prefix t k) with (last_of (t_prefixes t k [])). rewrite t_prefixes_eq, last_flat_olist.
    apply first_some_ext. intros p. destruct (t_get t p); reflexivity.
  Qed.

  Lemma t_prefixes_sound (t : trie) k acc p v :
    In (p, v) (t_prefixes t k acc) -> exists p', p = rev acc ++ p' /\ prefix p' k /\ t_get t p' = Some v.
  Proof.
    rewrite t_prefixes_eq. intros H. apply in_flat_map in H as (p' & Hp & H). exists p'. unfold olist in H.
    destruct (t_get t p') as [v'|]; [|destruct H]. destruct H as [H|[]]. injection H as <- <-.
    split; [reflexivity|]. split; [apply in_inits, Hp | reflexivity].
  Qed.

  Definition ch_ok (l : list (bytes * trie)) : Prop :=
    Forall (fun p => t_is_empty (snd p) = false /\ t_pruned (snd p) = true) l.

  Lemma t_pruned_iff v (ch : list (bytes * trie)) : t_pruned (Node v ch) = true <-> ch_ok ch.
  Proof.
    unfold ch_ok. induction ch as [|[c s] l IH].
    - split; [constructor|reflexivity].
    - change (t_pruned (Node v ((c, s) :: l))) with (negb (t_is_empty s) && t_pruned s && t_pruned (Node v l)).
      rewrite !andb_true_iff, negb_true_iff, IH. split.
      + intros [[A B] C]. constructor; [split; assumption|exact C].
      + intros H. inversion H; subst. cbn in *. tauto.
  Qed.

  Lemma t_pruned_ch (t : trie) : t_pruned t = true <-> ch_ok (t_ch t).
  Proof. destruct t. apply t_pruned_iff. Qed.

  Lemma ch_ok_set l c s : ch_ok l -> t_is_empty s = false -> t_pruned s = true -> ch_ok (ch_set l c s).
  Proof.
    intros H A B. unfold ch_ok, ch_set in *. induction l as [|[d s'] l IH]; cbn.
    - constructor; [split; assumption|constructor].
    - inversion H; subst. destruct (bytes_eqb c d); constructor; auto.
  Qed.

  Lemma ch_ok_del l c : ch_ok l -> ch_ok (ch_del l c).
  Proof.
    unfold ch_ok, ch_del. intros H. induction H as [|x l Hx H IH]; cbn; [constructor|].
    match goal with |- context [if ?b then _ else _] => destruct b end; [constructor; assumption|exact IH].
  Qed.

  Lemma ch_ok_get l c s : ch_ok l -> ch_get l c = Some s -> t_is_empty s = false /\ t_pruned s = true.
  Proof.
    intros H E. apply (al_get_some_in _ bytes_eqb_spec) in E. exact (proj1 (Forall_forall _ _) H _ E).
  Qed.

  Lemma t_pruned_set_node (t : trie) k v oim : t_pruned t = true -> t_pruned (t_set_node t k v oim) = true.
  Proof.
    revert t. induction k as [|c k IH]; intros t H.
    - cbn. destruct (t_val t), oim; try exact H; apply t_pruned_iff; apply t_pruned_ch; exact H.
    - cbn [t_set_node]. apply t_pruned_iff. apply t_pruned_ch in H. apply ch_ok_set; [exact H|apply t_set_node_nonempty|].
      apply IH. destruct (ch_get (t_ch t) c) eqn:E; [exact (proj2 (ch_ok_get _ _ _ H E))|reflexivity].
  Qed.

  Lemma t_pruned_del (t : trie) k t' : t_pruned t = true -> t_del t k = Ok t' -> t_pruned t' = true.
  Proof.
    revert t t'. induction k as [|c k IH]; intros t t' H D.
    - cbn in D. destruct (t_val t); [|discriminate]. inversion D; subst. apply t_pruned_iff. apply t_pruned_ch. exact H.
    - cbn [t_del] in D. destruct (ch_get (t_ch t) c) as [s|] eqn:Ec; [|discriminate].
      destruct (t_del s k) as [s'|e] eqn:Ed; [|discriminate]. cbn in D. inversion D; subst. clear D.
      apply t_pruned_iff. apply t_pruned_ch in H. destruct (t_is_empty s') eqn:Ee.
      + apply ch_ok_del. exact H.
      + apply ch_ok_set; [exact H|exact Ee|]. eapply IH; [|exact Ed]. exact (proj2 (ch_ok_get _ _ _ H Ec)).
  Qed.
End TrieLemmas.
