(* C14 — the caller's memory (Model/ValidatorMem.v): a validator judges against what it was GIVEN when it was
   built; what the caller does to its buffers afterwards, and which other validators it builds from them, cannot
   matter. *)
From NDN Require Import Proofs.ListLemmas Base.Prelude Model.Validator Model.ValidatorMem Spec.ChainSpec.
From NDN Require Import Proofs.ValidatorProofs Proofs.ValidatorHistory.
Local Open Scope nat_scope.

Theorem mrun_is_run_of_given lg w fuel : forall ops ms,
  m_st (fst (mrun lg w fuel ms ops)) = fst (run_history lg w fuel (m_st ms) (given_ops (m_mem ms) ops)) /\
  somes (snd (mrun lg w fuel ms ops)) = snd (run_history lg w fuel (m_st ms) (given_ops (m_mem ms) ops)).
Proof.
  induction ops as [|o ops IH]; intros ms; [split; reflexivity|].
  cbn [mrun given_ops]. specialize (IH (fst (mstep lg w fuel ms o))). unfold mstep in *.
  destruct (given (m_mem ms) o) as [o'|].
  - cbn [run_history]. destruct (step lg w fuel (m_st ms) o') as [st' b]. cbn [fst m_mem m_st] in IH.
    destruct (mrun _ _ _ _ ops) as [ms2 bs], (run_history _ _ _ st' _) as [st2 bs2].
    cbn [fst snd somes] in *. destruct IH as [IH1 IH2]. split; [exact IH1 | rewrite IH2; reflexivity].
  - cbn [fst m_mem m_st] in IH. destruct (mrun _ _ _ _ ops) as [ms2 bs]. exact IH.
Qed.

Lemma mstep_memory_only lg w fuel ms o :
  given (m_mem ms) o = None -> m_st (fst (mstep lg w fuel ms o)) = m_st ms /\ snd (mstep lg w fuel ms o) = None.
Proof. intros G. unfold mstep. rewrite G. split; reflexivity. Qed.

Theorem built_config_is_kept_run lg w fuel ops ms i ins :
  nth_error (s_insts (m_st ms)) i = Some ins ->
  nth_error (s_insts (m_st (fst (mrun lg w fuel ms ops)))) i = Some ins.
Proof.
  intros H. rewrite (proj1 (mrun_is_run_of_given lg w fuel ops ms)).
  apply (run_history_keeps lg w fuel (fun s => nth_error (s_insts s) i = Some ins)); [|exact H].
  intros s o _. apply step_keeps_insts.
Qed.

Theorem built_from_what_the_buffer_holds w fuel ms sc b s ms' n :
  mstep false w fuel ms (MNewLvs sc b s) = (ms', Some (BNew (Ok n))) ->
  exists a c sid, mem_get (m_mem ms) b = Some a /\ lvs_init w sc a = Ok c /\
                  nth_error (s_insts (m_st ms')) n = Some {| i_cfg := c; i_sid := sid |}.
Proof.
  unfold mstep. cbn [given]. destruct (mem_get (m_mem ms) b) as [a|] eqn:G; cbn [option_map]; [|discriminate].
  destruct (step false w fuel (m_st ms) (ONewLvs sc a s)) as [st' ob] eqn:S. intros H. injection H as <- ->.
  destruct (new_lvs_cfg w fuel (m_st ms) sc a s st' n S) as (c & sid & Hc & Hn).
  exists a, c, sid. auto.
Qed.

Definition mop_allowed (ms : mstate) (o : mop) : Prop :=
  match given (m_mem ms) o with Some o' => op_allowed (m_st ms) o' | None => True end.

Inductive mreachable (w : world) : mstate -> Prop :=
| MR0 m : mreachable w {| m_mem := m; m_st := init_state |}
| MRS ms o fuel : mreachable w ms -> mop_allowed ms o -> mreachable w (fst (mstep false w fuel ms o)).

Lemma mreachable_reachable w ms : mreachable w ms -> reachable w (m_st ms).
Proof.
  induction 1 as [m|ms o fuel R IH Al]; [apply R0|].
  unfold mstep, mop_allowed in *. destruct (given (m_mem ms) o) as [o'|]; [|exact IH].
  pose proof (RS w (m_st ms) o' fuel IH Al) as K.
  destruct (step false w fuel (m_st ms) o') as [st' b]. exact K.
Qed.

(* In any state reached by any history of loads, overwrites, constructions (default storages, or explicit ones
   not shared between validators) and validations, the verdict of instance i on the packet in buffer b is
   accept <-> Chain under the configuration instance i was built with. *)
Theorem memory_independent w ms fuel i ins b p ms' r tr :
  mreachable w ms ->
  nth_error (s_insts (m_st ms)) i = Some ins ->
  mem_get (m_mem ms) b = Some (Ok p) ->
  mstep false w fuel ms (MValidate i b) = (ms', Some (BVal r tr)) ->
  r <> Err EFuel ->
  (r = Ok true <-> Chain w (trust_of (i_cfg ins)) p).
Proof.
  intros R Hi Hb S NF. apply mreachable_reachable in R.
  unfold mstep in S. cbn [given] in S. rewrite Hb in S.
  destruct (step false w fuel (m_st ms) (OValidate i p)) as [st' ob] eqn:St. injection S as _ ->.
  exact (inv_verdict false w _ fuel i ins p st' r tr (reachable_inv w _ R) Hi St NF).
Qed.

Lemma mrun_reachable w fuel : forall ops ms,
  mreachable w ms ->
  (forall o, In o ops -> match o with
                         | MNewLvs _ _ (SGiven _) | MNewCascade _ (SGiven _) => False
                         | _ => True end) ->
  mreachable w (fst (mrun false w fuel ms ops)).
Proof.
  induction ops as [|o ops IH]; intros ms R H; cbn [mrun]; [exact R|].
  assert (R1 : mreachable w (fst (mstep false w fuel ms o))).
  { apply MRS; [exact R|]. specialize (H o (or_introl eq_refl)). unfold mop_allowed.
    (* a memory operation, or a call whose storage argument is defaulted: nothing to check *)
    destruct o as [b a|b| |sc b [|sid]|b [|sid]|i b]; try contradiction; cbn [given]; try exact I;
      destruct (mem_get (m_mem ms) b) as [[p|e]|]; exact I. }
  destruct (mstep false w fuel ms o) as [ms1 b]. cbn [fst] in R1.
  specialize (IH ms1 R1 (fun o' Ho => H o' (or_intror Ho))).
  destruct (mrun false w fuel ms1 ops) as [ms2 bs]. exact IH.
Qed.

From NDN Require Import Proofs.ValidatorExamples.

(* validator 0 is built from buffer 0 while it holds anchor 1; the application then loads anchor 2 into the SAME
   buffer and builds validator 1 from it; later it wipes the buffer.  Validator 0 keeps accepting P (chain to
   anchor 1, second time from its key storage), validator 1 refuses it; nothing can be built from a wiped buffer. *)
Definition ex_mops : list mop :=
  [ MLoad 0 (Ok A1); MNewLvs ex_schema 0 SDefault; MLoad 1 (Ok P); MValidate 0 1;
    MLoad 0 (Ok A2); MNewLvs ex_schema 0 SDefault; MValidate 0 1; MValidate 1 1;
    MScribble 0; MValidate 0 1; MNewLvs ex_schema 0 SDefault ].

Example ex_mrun :
  snd (mrun false ex_world 5 {| m_mem := []; m_st := init_state |} ex_mops) =
  [ None; Some (BNew (Ok 0)); None; Some (BVal (Ok true) [nC]);
    None; Some (BNew (Ok 1)); Some (BVal (Ok true) []); Some (BVal (Ok false) [nC; nA]);
    None; Some (BVal (Ok true) []); None ].
Proof. vm_compute. reflexivity. Qed.

Example ex_given_ops :
  given_ops [] ex_mops =
  [ ONewLvs ex_schema (Ok A1) SDefault; OValidate 0 P; ONewLvs ex_schema (Ok A2) SDefault;
    OValidate 0 P; OValidate 1 P; OValidate 0 P ].
Proof. reflexivity. Qed.

Example ex_mreachable :
  mreachable ex_world (fst (mrun false ex_world 5 {| m_mem := []; m_st := init_state |} ex_mops)).
Proof.
  apply mrun_reachable; [apply MR0|]. apply Forall_forall. repeat constructor.
Qed.
