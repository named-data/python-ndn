(* From the text of a schema (its AST) to the answers of Checker.match / Checker.check on the compiled model. *)
From NDN Require Import Base.Prelude Model.Name Model.LvsAst Model.LvsChecker Model.LvsCompiler Spec.LvsSem
  Spec.LvsChains Proofs.LvsMachine Proofs.LvsCheckerThms Proofs.LvsGenTree Proofs.LvsCompileTree Proofs.LvsCompileThms
  Proofs.LvsCompileAccepts Proofs.LvsNumbering Proofs.LvsRepresents Proofs.LvsSimD Proofs.LvsSanity Proofs.ListLemmas
  Proofs.LvsTraverse.
From Coq Require Import FinFun.
Local Open Scope N_scope.

Lemma al_get_app_gen {K V} (eqb : K -> K -> bool) (l1 l2 : list (K * V)) k :
  al_get eqb (l1 ++ l2) k = match al_get eqb l1 k with Some v => Some v | None => al_get eqb l2 k end.
Proof. apply al_get_app. Qed.

Definition sym_of (named : list (ident * N)) : list (option N * option ident) := map (fun q => (Some (snd q), Some (fst q))) named.

Lemma some_inj {A} (x y : A) : Some x = Some y -> x = y.
Proof. intros H. injection H as ->. reflexivity. Qed.

Lemma sym_lookup named p t : named_good named -> al_get ident_eqb named p = Some t -> al_get optN_eqb (sym_of named) (Some t) = Some (Some p).
Proof.
  intros G Hp. pose proof (named_good_nodup named G) as Hnd. apply (al_get_some_in ident_eqb ident_eqb_eq) in Hp. clear G. unfold sym_of.
  induction named as [|[q n] l IH]; [destruct Hp|]. cbn in *. inversion Hnd; subst. destruct (N.eqb_spec t n) as [->|Hne].
  - destruct Hp as [Hp|Hp]; [inversion Hp; reflexivity|]. exfalso. apply H1. apply in_map_iff. exists (p, n). auto.
  - destruct Hp as [Hp|Hp]; [inversion Hp; congruence | auto].
Qed.

Definition inj_env (e : env) : list (option ident * bytes) := map (fun pv => (Some (fst pv), snd pv)) e.

Lemma oident_eqb_eq a b : oident_eqb a b = true <-> a = b.
Proof. destruct a, b; cbn; try (split; congruence). rewrite ident_eqb_eq. split; congruence. Qed.

(* every tag of a context that stands for an environment has its identifier in the symbol table, so the first pass of
   _context_to_name sets the identifiers in order and the second pass (numbers for unknown tags) adds nothing *)
Lemma context_to_name_env m named e c : named_good named -> symbols m = sym_of named ->
  env_ctx named e c -> NoDup (map fst e) -> context_to_name m c = inj_env e.
Proof.
  intros G Hsym He. unfold context_to_name. rewrite Hsym.
  assert (H1 : forall d, fold_left (fun d tv => match al_get optN_eqb (sym_of named) (Some (fst tv)) with
                                                | Some idn => al_set oident_eqb d idn (snd tv) | None => d end) c d
                         = fold_left (fun d pv => al_set oident_eqb d (Some (fst pv)) (snd pv)) e d).
  { induction He as [|[p v] [t w] e c [Hp Hv] _ IH]; intros d; cbn [fold_left]; [reflexivity|].
    cbn [fst snd] in *. subst w. rewrite (sym_lookup named p t G Hp). apply IH. }
  intros Hnd. rewrite H1, (fold_al_set_distinct oident_eqb oident_eqb_eq (fun pv => Some (fst pv)) snd); [| |intros a _ []].
  - cbn [app]. fold (inj_env e). generalize (inj_env e) as d. clear H1 Hnd.
    induction He as [|[p v] [t w] e c [Hp Hv] _ IH]; intros d; cbn [fold_left]; [reflexivity|].
    cbn [fst] in *. rewrite (sym_lookup named p t G Hp). apply IH.
  - rewrite <- (map_map fst Some). apply (Injective_map_NoDup some_inj), Hnd.
Qed.

Lemma inj_env_inj e e' : inj_env e = inj_env e' -> e = e'.
Proof.
  revert e'; induction e as [|[p v] e IH]; intros [|[q w] e'] H; cbn in H; try discriminate; [reflexivity|]. inversion H; subst. f_equal. apply IH. assumption.
Qed.

Lemma strip_digest_strip name nm : strip_digest name = Ok nm -> strip name = nm.
Proof.
  unfold strip_digest, strip, is_digest. destruct (rev name) as [|c t]; [intros H; inversion H; reflexivity|].
  destruct (comp_get_type c) as [ty|]; cbn [bind]; [|discriminate]. destruct (ty =? TYPE_IMPLICIT_SHA256); intros H; inversion H; reflexivity.
Qed.

Lemma in_matches_of ufn S e0 n lbl d e : In (lbl, d, e) (matches_of ufn S e0 n) <->
  exists f, In (lbl, d) (labelled 1 S) /\ In f (expand (ref_fuel S) S d) /\ chain_match ufn (f_ncons f) (f_comps f) n e0 [] = Some e.
Proof.
  unfold matches_of. rewrite in_flat_map. split.
  - intros ([lbl' d'] & Hl & Hin). apply in_flat_map in Hin. destruct Hin as (f & Hf & Hin). cbn [fst snd] in *.
    destruct (chain_match ufn (f_ncons f) (f_comps f) n e0 []) as [e1|] eqn:E; [|destruct Hin]. destruct Hin as [Hin|[]]. inversion Hin; subst.
    exists f. auto.
  - intros (f & Hl & Hf & E). exists (lbl, d). split; [exact Hl|]. apply in_flat_map. exists f. split; [exact Hf|]. cbn [fst snd]. rewrite E. left; reflexivity.
Qed.

Lemma compiled_symbols S chains st m : chains_of S = Ok (chains, st) -> compile S = Ok m -> symbols m = sym_of (ns_named st).
Proof.
  intros Hc Hm. destruct (compile_unfold _ _ _ _ Hc Hm) as (t0 & _ & H).
  destruct (compiled_fields st m _ H) as (_ & _ & _ & _ & Hsym). unfold symbols. rewrite Hsym.
  rewrite (fold_al_set_distinct optN_eqb optN_eqb_eq ts_tag ts_ident); [cbn; unfold sym_of; rewrite map_map; reflexivity | | intros a _ []].
  rewrite map_map. cbn. rewrite <- (map_map snd Some). eapply (Injective_map_NoDup some_inj), named_good_nodup, chains_of_good, Hc.
Qed.

Section Chains.
  Variable ufn : ident -> option (bytes -> list (option bytes) -> res bool).
  Variables (S : lvsfile) (chains : list chain) (st : numst).
  Hypothesis Hc : chains_of S = Ok (chains, st).

  Lemma represents_sem_whole rc f : represents (ns_named st) rc f -> forall nm e c, env_ctx (ns_named st) e c -> NoDup (map fst e) ->
    (forall c', chain_sem_from ufn 0 rc nm c c' ->
                exists e', chain_match ufn (f_ncons f) (f_comps f) nm e [] = Some e' /\ env_ctx (ns_named st) e' c' /\ NoDup (map fst e')) /\
    (forall e', chain_match ufn (f_ncons f) (f_comps f) nm e [] = Some e' ->
                exists c', env_ctx (ns_named st) e' c' /\ NoDup (map fst e') /\ chain_sem_from ufn 0 rc nm c c').
  Proof.
    intros Hrep nm e c He Hnd. unfold chain_sem_from. cbn [tags_before firstn flat_map skipn].
    exact (represents_sem ufn _ (named_good_inj _ (chains_of_good _ _ _ Hc)) rc f Hrep _ _ (rp_comps _ _ _ Hrep) nm e c [] [] He
             (seen_rel_nil _) (bound_inv_nil e Hnd)).
  Qed.

  Lemma chain_to_matches rc nm e c c' : In rc chains -> env_ctx (ns_named st) e c -> NoDup (map fst e) -> chain_sem_from ufn 0 rc nm c c' ->
    exists d e', In (ch_id rc, d, e') (matches_of ufn S e nm) /\ ch_sign rc = isort str_leb (r_sign d) /\
                 env_ctx (ns_named st) e' c' /\ NoDup (map fst e').
  Proof.
    intros Hrc He Hnd Hsem. destruct (proj1 (chains_of_expand S chains st Hc) rc Hrc) as (lbl & d & f & Hlab & Hf & Hid & Hrep & Hsign).
    destruct (proj1 (represents_sem_whole rc f Hrep nm e c He Hnd) c' Hsem) as (e' & Hcm & He').
    exists d, e'. split; [apply in_matches_of; exists f; rewrite Hid; auto | auto].
  Qed.

  Lemma matches_to_chain lbl d nm e c e' : In (lbl, d, e') (matches_of ufn S e nm) -> env_ctx (ns_named st) e c -> NoDup (map fst e) ->
    exists rc c', In rc chains /\ ch_id rc = lbl /\ ch_sign rc = isort str_leb (r_sign d) /\ chain_sem_from ufn 0 rc nm c c' /\
                  env_ctx (ns_named st) e' c' /\ NoDup (map fst e').
  Proof.
    intros Hin He Hnd. apply in_matches_of in Hin. destruct Hin as (f & Hlab & Hf & Hcm).
    destruct (proj2 (chains_of_expand S chains st Hc) lbl d f Hlab Hf) as (rc & Hrc & Hid & Hrep & Hsign).
    destruct (proj2 (represents_sem_whole rc f Hrep nm e c He Hnd) e' Hcm) as (c' & He' & Hnd' & Hsem).
    exists rc, c'. repeat split; assumption.
  Qed.
End Chains.

Section Final.
  Variable ufn : ident -> option (bytes -> list (option bytes) -> res bool).
  Variable S : lvsfile.
  Variable m : lvsmodel.
  Hypothesis Hwf : schema_wf S = true.
  Hypothesis Hm : compile S = Ok m.

  (* Checker.match reports rule r with bindings env  iff  the schema text gives r a chain the name satisfies with env *)
  Theorem match_iff fuel name nm l r env :
    strip_digest name = Ok nm -> (match_cost m nm <= fuel)%nat -> lvs_match ufn m fuel name = Ok l -> not_pseudo r ->
    ((exists rs, In (rs, inj_env env) l /\ In r rs) <-> sem ufn S r name env).
  Proof.
    intros Hs Hf Hl Hnp. destruct (compiled_chains_ok S m Hwf Hm) as (chains & st & Hc & Hok).
    pose proof (chains_of_good _ _ _ Hc) as G.
    pose proof (compiled_symbols _ _ _ _ Hc Hm) as Hsym.
    pose proof (match_chains ufn S chains st m Hc Hm Hok fuel name nm l r Hs Hf Hl Hnp) as Hmc.
    unfold sem. rewrite (strip_digest_strip _ _ Hs). split.
    - intros (rs & Hin & Hr).
      destruct (proj1 (lvs_match_spec ufn m (compile_sane S chains st m Hc Hm Hok) fuel name nm l Hs Hf Hl rs (inj_env env)) Hin) as (n & c & Htm & Hrn & Ecn).
      destruct (proj1 (Hmc c)) as (rc & Hrc & Hid & Hsem); [exists rs; rewrite <- Ecn; eauto|].
      destruct (chain_to_matches ufn S chains st Hc rc nm [] [] c Hrc (Forall2_nil _) (NoDup_nil _) Hsem) as (d & e' & Hin' & _ & He' & Hnd).
      rewrite (context_to_name_env m _ e' c G Hsym He' Hnd) in Ecn. apply inj_env_inj in Ecn. subst e' r. exists d. exact Hin'.
    - intros (d & Hin).
      destruct (matches_to_chain ufn S chains st Hc r d nm [] [] env Hin (Forall2_nil _) (NoDup_nil _)) as (rc & c' & Hrc & Hid & _ & Hsem & He' & Hnd).
      destruct (proj2 (Hmc c')) as (rs & Hin' & Hr & _); [exists rc; auto|].
      exists rs. rewrite (context_to_name_env m _ env c' G Hsym He' Hnd) in Hin'. auto.
  Qed.

  (* Checker.check says yes  iff  the schema text lets the key sign the packet *)
  Theorem check_iff fuel pkt key p k b :
    strip_digest pkt = Ok p -> strip_digest key = Ok k -> (Nat.max (match_cost m p) (match_cost m k) <= fuel)%nat ->
    lvs_check ufn m fuel pkt key = Ok b -> (b = true <-> can_sign ufn S pkt key).
  Proof.
    intros Hp Hk Hf Hchk. destruct (compiled_chains_ok S m Hwf Hm) as (chains & st & Hc & Hok).
    rewrite (check_chains ufn S chains st m Hc Hm Hok fuel pkt key p k b Hp Hk Hf Hchk).
    unfold can_sign. rewrite (strip_digest_strip _ _ Hp), (strip_digest_strip _ _ Hk). split.
    - intros (rc & rk & cx & cx' & Hrc & Hsem & Hrk & Hsg & Hsemk).
      destruct (chain_to_matches ufn S chains st Hc rc p [] [] cx Hrc (Forall2_nil _) (NoDup_nil _) Hsem) as (d & e & Hin & Hsign & He & Hnd).
      destruct (chain_to_matches ufn S chains st Hc rk k e cx cx' Hrk He Hnd Hsemk) as (dk & e' & Hink & _).
      exists (ch_id rc), d, e. split; [exact Hin|]. exists (ch_id rk). split; [rewrite Hsign in Hsg; exact (proj1 (in_isort _ _ _) Hsg)|].
      exists dk, e'. exact Hink.
    - intros (r & d & e & Hin & kr & Hkr & dk & e' & Hink).
      destruct (matches_to_chain ufn S chains st Hc r d p [] [] e Hin (Forall2_nil _) (NoDup_nil _)) as (rc & cx & Hrc & _ & Hsign & Hsem & He & Hnd).
      destruct (matches_to_chain ufn S chains st Hc kr dk k e cx e' Hink He Hnd) as (rk & cx' & Hrk & Hidk & _ & Hsemk & _).
      exists rc, rk, cx, cx'. split; [exact Hrc|]. split; [exact Hsem|]. split; [exact Hrk|]. split; [|exact Hsemk].
      rewrite Hsign, Hidk. exact (proj2 (in_isort _ _ _) Hkr).
  Qed.
End Final.
