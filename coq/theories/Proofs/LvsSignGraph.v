(* The verdict of the loader on the signing graph its dfs collects (LvsSanity.dfs_spec): on a model whose tree part is sane
   and whose node ids are their indices, compiler.top_order accepts that graph iff the signing relation between reachable
   nodes has no cycle; otherwise the loader raises the schema error. *)
From NDN Require Import Base.Prelude Model.LvsAst Model.LvsChecker Spec.LvsSem Proofs.LvsTraverse Proofs.LvsSanity
  Proofs.LvsTopOrder.
Local Open Scope N_scope.

(* Node ids are their indices.  The dfs tests this of the nodes it visits, but adj_lst is keyed by the ids of ALL nodes
   and a signer may be a node the dfs never visits, so the verdict on the signing graph needs it of all.  Every model
   [compile] produces has it; a corrupted model may carry broken ids on unvisited nodes. *)
Definition ids_ok (m : lvsmodel) : Prop := forall i nd, get_node m i = Some nd -> n_id nd = Some i.

Lemma in_gedges_map (adj : list (option N * list N)) x y :
  In (x, y) (gedges (map (fun e => (fst e, map Some (snd e))) adj)) <-> exists k, y = Some k /\ In (x, k) (adj_edges adj).
Proof.
  assert (E : gedges (map (fun e => (fst e, map Some (snd e))) adj) = map (fun p => (fst p, Some (snd p))) (adj_edges adj)).
  { unfold gedges, adj_edges. induction adj as [|e adj IH]; cbn; [reflexivity|]. rewrite map_app, IH, !map_map. reflexivity. }
  rewrite E, in_map_iff. split.
  - intros ([x' k] & H & Hin). injection H as <- <-. eauto.
  - intros (k & -> & Hin). exists (x, k). auto.
Qed.

Section Verdict.
  Variable m : lvsmodel.
  Hypothesis Hsane : sane m.
  Hypothesis Hids : ids_ok m.
  Let nodes := dedup optN_eqb (map n_id (m_nodes m)).

  Lemma node_in i nd : get_node m i = Some nd -> In (Some i) nodes.
  Proof.
    intros H. unfold nodes. apply (in_dedup _ optN_eqb_eq). apply in_map_iff. exists nd. split; [apply Hids, H | eapply get_node_in; eauto].
  Qed.

  Lemma nodes_some x : In x nodes -> exists i, x = Some i.
  Proof.
    intros H. unfold nodes in H. apply (proj1 (in_dedup _ optN_eqb_eq _ _)) in H. apply in_map_iff in H. destruct H as (nd & <- & Hnd).
    apply In_nth_error in Hnd. destruct Hnd as (n & Hn).
    exists (N.of_nat n). apply Hids. rewrite get_node_nth, Nat2N.id. exact Hn.
  Qed.

  Lemma nodes_sortable l : (forall x, In x l -> In x nodes) -> ids_sortable l = true.
  Proof.
    intros H. unfold ids_sortable. destruct l as [|a [|b l]]; auto. apply forallb_forall. intros x Hx. destruct (nodes_some x (H x Hx)) as (i & ->). reflexivity.
  Qed.

  Lemma signer_in_range i nd k : reach m i -> get_node m i = Some nd -> In k (n_sign nd) -> k < N.of_nat (length (m_nodes m)).
  Proof. intros Hr Hg Hk. destruct Hsane as (_ & _ & Hall). apply (proj1 (node_ok_iff m i nd Hg) (Hall i Hr)), Hk. Qed.

  Theorem sanity_check_verdict : verdict ESemantic (sanity_check (sanity_fuel m) m) (sign_acyclic m) any.
  Proof.
    destruct (loader_cases m) as [[Hn _]|(_ & s & a & Hs & _ & [Hkeys Hedges] & ->)]; [contradiction|].
    destruct (sacc0_adj m) as [K0 E0].
    rewrite K0 in Hkeys, Hedges. rewrite E0 in Hedges. fold nodes in Hkeys, Hedges. unfold loader_end. fold nodes.
    set (graph := map (fun e => (fst e, map Some (snd e))) (sa_adj a)) in *.
    assert (Hgk : map fst graph = nodes) by (unfold graph; rewrite map_map; cbn [fst]; exact Hkeys).
    assert (Hedge : forall x y, In (x, y) (gedges graph) <->
              exists i nd k, x = Some i /\ y = Some k /\ reach m i /\ get_node m i = Some nd /\ In k (n_sign nd)).
    { intros x y. unfold graph. rewrite in_gedges_map. split.
      - intros (k & -> & Hin). apply Hedges in Hin. destruct Hin as [[]|[_ (i & nd & -> & Hr & Hg & Hk)]].
        exists i, nd, k. repeat split; auto. apply (reach_from_start m s i Hs), Hr.
      - intros (i & nd & k & -> & -> & Hr & Hg & Hk). exists k. split; [reflexivity|]. apply Hedges. right. split; [eapply node_in; eauto|].
        exists i, nd. split; [reflexivity|]. split; [apply (reach_from_start m s i Hs), Hr | auto]. }
    assert (Hclosed : closed_in nodes graph).
    { intros x y Hin. apply Hedge in Hin. destruct Hin as (i & nd & k & -> & -> & Hr & Hg & Hk). split; [eapply node_in; eauto|].
      destruct (get_node_some m k (signer_in_range i nd k Hr Hg Hk)) as (ndk & Hgk'). eapply node_in; eauto. }
    assert (Hiff : ranked graph <-> sign_acyclic m).
    { split; intros (rank & Hrank).
      - exists (fun i => rank (Some i)). intros i nd k Hr Hg Hk. apply Hrank, Hedge. exists i, nd, k. auto.
      - exists (fun x => match x with Some i => rank i | None => O end). intros x y Hin. apply Hedge in Hin.
        destruct Hin as (i & nd & k & -> & -> & Hr & Hg & Hk). eapply Hrank; eauto. }
    apply (verdict_imp _ _ (ranked graph) _ any any Hiff (fun _ H => H)).
    exact (verdict_then _ _ _ _ _ any (top_order_ranked optN_eqb optN_leb ids_sortable optN_eqb_eq nodes graph (nodup_dedup optN_eqb optN_eqb_eq _) Hgk nodes_sortable Hclosed) (fun _ _ => I)).
  Qed.

  Theorem loader_verdict :
    ((exists r, sanity_check (sanity_fuel m) m = Ok r) <-> sign_acyclic m) /\
    (forall e, sanity_check (sanity_fuel m) m = Err e -> e = ESemantic).
  Proof. exact (verdict_ok_iff _ _ _ _ sanity_check_verdict). Qed.
End Verdict.
