(* Pure lemmas about one table (rows, the INSERT/UPDATE/DELETE statements with their triggers, the views). *)
From NDN Require Import Base.Prelude Model.Keychain.
From NDN Require Export Proofs.ListLemmas.
Local Open Scope N_scope.

Lemma name_eqb_eq a b : name_eqb a b = true <-> a = b.
Proof. apply list_eqb_spec. intros; apply N.eqb_eq. Qed.
Lemma name_eqb_refl a : name_eqb a a = true.
Proof. apply (eqb_refl' _ name_eqb_eq). Qed.
Lemma name_eqb_neq a b : name_eqb a b = false <-> a <> b.
Proof. split; [intros H E; apply name_eqb_eq in E; congruence | apply (eqb_neq' _ name_eqb_eq)]. Qed.
Lemma name_eqb_sym a b : name_eqb a b = name_eqb b a.
Proof. apply (eqb_sym' _ name_eqb_eq). Qed.
Lemma ckey_eqb_eq a b : ckey_eqb a b = true <-> a = b.
Proof.
  destruct a as [a1 a2], b as [b1 b2]. unfold ckey_eqb. cbn. rewrite andb_true_iff, !name_eqb_eq.
  split; [intros [-> ->]; reflexivity | intros H; inversion H; auto].
Qed.
Lemma has_name_true n r : has_name n r = true <-> r_name r = n.
Proof. unfold has_name. apply name_eqb_eq. Qed.
Lemma has_name_false n r : has_name n r = false <-> r_name r <> n.
Proof. unfold has_name. apply name_eqb_neq. Qed.
Lemma in_scope_true p r : in_scope p r = true <-> r_par r = p.
Proof. unfold in_scope. apply N.eqb_eq. Qed.
Lemma in_scope_false p r : in_scope p r = false <-> r_par r <> p.
Proof. unfold in_scope. apply N.eqb_neq. Qed.

Lemma drop2_app2 (n : name) a b : drop2 (n ++ [a; b]) = n.
Proof.
  unfold drop2. rewrite app_length. cbn [length].
  replace (length n + 2 - 2)%nat with (length n + 0)%nat by lia.
  rewrite firstn_app_2. cbn. apply app_nil_r.
Qed.

Definition onedef (l : rows) : Prop :=
  forall a b, In a l -> In b l -> r_def a = true -> r_def b = true -> r_par a = r_par b -> r_id a = r_id b.
Record wf_rows (l : rows) : Prop := mkWfRows {
  wr_ids : NoDup (map r_id l);
  wr_names : NoDup (map r_name l);
  wr_onedef : onedef l
}.

Lemma id_inj l a b : wf_rows l -> In a l -> In b l -> r_id a = r_id b -> a = b.
Proof. intros W. apply NoDup_map_inj. apply W. Qed.
Lemma name_inj l a b : wf_rows l -> In a l -> In b l -> r_name a = r_name b -> a = b.
Proof. intros W. apply NoDup_map_inj. apply W. Qed.
Lemma eqb_id_false l (a b : row) : wf_rows l -> In a l -> In b l -> a <> b -> (r_id a =? r_id b) = false.
Proof. intros W Ha Hb N. apply N.eqb_neq. intros E. apply N. eapply id_inj; eassumption. Qed.

Lemma wf_rows_nil : wf_rows [].
Proof. constructor; cbn; try constructor. intros a b []. Qed.

Lemma max_id_ge l r : In r l -> r_id r <= max_id l.
Proof.
  induction l as [|x l IH]; intros H; [contradiction|]. cbn [max_id fold_right]. fold (max_id l).
  destruct H as [-> | H]; [lia | specialize (IH H); lia].
Qed.
Lemma next_id_fresh l : ~ In (next_id l) (map r_id l).
Proof.
  intros H. apply in_map_iff in H. destruct H as [r [E Hr]]. apply max_id_ge in Hr. unfold next_id in E. lia.
Qed.
Lemma next_id_fresh_row l r : In r l -> r_id r <> next_id l.
Proof. intros H E. apply (next_id_fresh l). rewrite <- E. apply in_map. assumption. Qed.

Lemma r_find_some n l r : r_find n l = Some r -> In r l /\ r_name r = n.
Proof. unfold r_find. intros H. apply find_some in H. rewrite has_name_true in H. assumption. Qed.
Lemma r_find_none n l : r_find n l = None <-> ~ In n (map r_name l).
Proof.
  unfold r_find. split.
  - intros H Hin. apply in_map_iff in Hin. destruct Hin as [r [E Hr]].
    apply (find_none _ _ H) in Hr. apply has_name_false in Hr. contradiction.
  - intros H. destruct (find (has_name n) l) as [r|] eqn:F; [|reflexivity]. apply find_some in F.
    exfalso. apply H. rewrite <- (proj1 (has_name_true n r) (proj2 F)). apply in_map. tauto.
Qed.
Lemma r_find_present n l : In n (map r_name l) -> exists r, r_find n l = Some r.
Proof. intros H. destruct (r_find n l) as [r|] eqn:F; [eauto|]. apply r_find_none in F. contradiction.
Qed.
Lemma r_find_in n l r : wf_rows l -> In r l -> r_name r = n -> r_find n l = Some r.
Proof.
  intros W Hr E. destruct (r_find n l) as [r'|] eqn:F.
  - apply r_find_some in F. destruct F as [H1 H2]. f_equal. eapply name_inj; eauto. congruence.
  - apply r_find_none in F. exfalso. apply F. rewrite <- E. apply in_map. assumption.
Qed.
Lemma existsb_has_name n l : existsb (has_name n) l = true <-> In n (map r_name l).
Proof.
  rewrite existsb_exists. split.
  - intros [r [H1 H2]]. apply has_name_true in H2. subst. apply in_map. assumption.
  - intros H. apply in_map_iff in H. destruct H as [r [E Hr]]. exists r. split; [assumption|]. apply has_name_true. assumption.
Qed.
Lemma scope_has_def_true p l : scope_has_def p l = true <-> exists r, In r l /\ r_def r = true /\ r_par r = p.
Proof.
  unfold scope_has_def, is_def_in. rewrite existsb_exists. split.
  - intros [r [H1 H2]]. apply andb_true_iff in H2. destruct H2 as [H2 H3]. apply in_scope_true in H3. eauto.
  - intros [r [H1 [H2 H3]]]. exists r. split; [assumption|]. rewrite H2. apply in_scope_true in H3. rewrite H3. reflexivity.
Qed.
Lemma scope_has_def_false p l r : scope_has_def p l = false -> In r l -> r_par r = p -> r_def r = false.
Proof.
  intros H Hr E. destruct (r_def r) eqn:D; [|reflexivity].
  assert (scope_has_def p l = true) by (apply scope_has_def_true; eauto). congruence.
Qed.
Lemma scope_default_some p l r : scope_default p l = Some r -> In r l /\ r_def r = true /\ r_par r = p.
Proof.
  unfold scope_default, is_def_in. intros H. apply find_some in H. destruct H as [H1 H2].
  apply andb_true_iff in H2. destruct H2 as [H2 H3]. apply in_scope_true in H3. auto.
Qed.
Lemma scope_default_none p l : scope_default p l = None <-> scope_has_def p l = false.
Proof.
  unfold scope_default, scope_has_def. induction l as [|x l IH]; cbn; [tauto|].
  destruct (is_def_in p x); [split; discriminate | exact IH].
Qed.
Lemma scope_default_unique p l r r' :
  wf_rows l -> scope_default p l = Some r -> In r' l -> r_def r' = true -> r_par r' = p -> r' = r.
Proof.
  intros W H Hin D P. apply scope_default_some in H. destruct H as [H1 [H2 H3]].
  eapply id_inj; eauto. apply (wr_onedef _ W); auto. congruence.
Qed.
Lemma scope_default_is p l d :
  wf_rows l -> In d l -> r_def d = true -> r_par d = p -> scope_default p l = Some d.
Proof.
  intros W Hd Dd Pd. destruct (scope_default p l) as [d'|] eqn:E.
  - f_equal. symmetry. eapply scope_default_unique; eassumption.
  - apply scope_default_none in E. rewrite (scope_has_def_false _ _ _ E Hd Pd) in Dd. discriminate.
Qed.

Definition new_row (p : N) (n : name) (v : N) (l : rows) : row := mkRow (next_id l) p n v (negb (scope_has_def p l)).
Lemma r_insert_ok p n v l l' :
  r_insert p n v l = Ok l' -> l' = l ++ [new_row p n v l] /\ ~ In n (map r_name l).
Proof.
  unfold r_insert. destruct (existsb (has_name n) l) eqn:E; [discriminate|]. intros H. inversion H; subst. split; [reflexivity|].
  intros Hin. apply existsb_has_name in Hin. congruence.
Qed.
Lemma r_insert_err p n v l e : r_insert p n v l = Err e -> e = EIntegrity /\ In n (map r_name l).
Proof.
  unfold r_insert. destruct (existsb (has_name n) l) eqn:E; [|discriminate]. intros H. inversion H. split; [reflexivity|].
  apply existsb_has_name. assumption.
Qed.
Lemma r_insert_wf p n v l l' : wf_rows l -> r_insert p n v l = Ok l' -> wf_rows l'.
Proof.
  intros W H. apply r_insert_ok in H. destruct H as [-> NI]. constructor.
  - rewrite map_app. cbn. apply NoDup_snoc; [apply W | apply next_id_fresh].
  - rewrite map_app. cbn. apply NoDup_snoc; [apply W | assumption].
  - intros a b Ha Hb Da Db Pab. rewrite in_app_iff in Ha, Hb. cbn in Ha, Hb.
    destruct Ha as [Ha | [<- | []]], Hb as [Hb | [<- | []]]; cbn in *.
    + apply (wr_onedef _ W); assumption.
    + apply negb_true_iff in Db. rewrite (scope_has_def_false _ _ _ Db Ha Pab) in Da. discriminate.
    + apply negb_true_iff in Da. rewrite (scope_has_def_false _ _ _ Da Hb (eq_sym Pab)) in Db. discriminate.
    + reflexivity.
Qed.
Lemma r_insert_in p n v l l' x : r_insert p n v l = Ok l' -> In x l -> In x l'.
Proof. intros H Hx. apply r_insert_ok in H. destruct H as [-> _]. apply in_app_iff. left. assumption. Qed.
Lemma r_insert_new p n v l l' :
  r_insert p n v l = Ok l' ->
  exists x, In x l' /\ r_name x = n /\ r_par x = p /\ r_val x = v /\ r_id x = next_id l /\
            (forall y, In y l' -> In y l \/ y = x).
Proof.
  intros H. apply r_insert_ok in H. destruct H as [-> _].
  eexists. split; [apply in_app_iff; right; left; reflexivity|]. cbn. repeat split; try reflexivity.
  intros y Hy. apply in_app_iff in Hy. destruct Hy as [Hy | [<- | []]]; auto.
Qed.
Lemma r_insert_scope_has_def p q n v l l' :
  r_insert p n v l = Ok l' -> scope_has_def q l' = scope_has_def q l || (p =? q).
Proof.
  intros H. apply r_insert_ok in H. destruct H as [-> _]. unfold scope_has_def. rewrite existsb_app. cbn [existsb].
  unfold is_def_in at 2, in_scope, new_row. cbn [r_def r_par]. unfold scope_has_def.
  destruct (N.eqb_spec p q) as [-> | NE]; [destruct (existsb (is_def_in q) l); reflexivity|].
  rewrite andb_false_r. reflexivity.
Qed.
Lemma r_insert_has_default p n v l l' : r_insert p n v l = Ok l' -> scope_has_def p l' = true.
Proof. intros H. rewrite (r_insert_scope_has_def _ p _ _ _ _ H), N.eqb_refl. apply orb_true_r. Qed.
Lemma r_insert_other_scope p q n v l l' : r_insert p n v l = Ok l' -> q <> p -> scope_has_def q l' = scope_has_def q l.
Proof.
  intros H NE. rewrite (r_insert_scope_has_def _ q _ _ _ _ H).
  replace (p =? q) with false by (symmetry; apply N.eqb_neq; congruence).
  apply orb_false_r.
Qed.

Definition upd_default (r : row) (x : row) : row :=
  if r_id x =? r_id r then set_def x true else if in_scope (r_par r) x then set_def x false else x.
Lemma r_set_default_cases n l :
  (r_set_default n l = l) \/
  (exists r, r_find n l = Some r /\ r_def r = false /\ r_set_default n l = map (upd_default r) l).
Proof.
  unfold r_set_default. destruct (r_find n l) as [r|] eqn:F; [|left; reflexivity].
  destruct (r_def r) eqn:D; [left; reflexivity|]. right. exists r. auto.
Qed.
Lemma r_set_default_absent n l : r_find n l = None -> r_set_default n l = l.
Proof. intros F. unfold r_set_default. rewrite F. reflexivity. Qed.
Lemma upd_default_id r x : r_id (upd_default r x) = r_id x.
Proof. unfold upd_default. destruct (_ =? _); [reflexivity|]. destruct (in_scope _ _); reflexivity. Qed.
Lemma upd_default_name r x : r_name (upd_default r x) = r_name x.
Proof. unfold upd_default. destruct (_ =? _); [reflexivity|]. destruct (in_scope _ _); reflexivity. Qed.
Lemma upd_default_par r x : r_par (upd_default r x) = r_par x.
Proof. unfold upd_default. destruct (_ =? _); [reflexivity|]. destruct (in_scope _ _); reflexivity. Qed.

Lemma r_set_default_ids n l : map r_id (r_set_default n l) = map r_id l.
Proof.
  destruct (r_set_default_cases n l) as [-> | [r [_ [_ ->]]]]; [reflexivity|].
  rewrite map_map. apply map_ext. apply upd_default_id.
Qed.
Lemma r_set_default_names n l : map r_name (r_set_default n l) = map r_name l.
Proof.
  destruct (r_set_default_cases n l) as [-> | [r [_ [_ ->]]]]; [reflexivity|].
  rewrite map_map. apply map_ext. apply upd_default_name.
Qed.
Lemma upd_default_in_scope r x : r_par x = r_par r -> r_def (upd_default r x) = (r_id x =? r_id r).
Proof.
  intros P. unfold upd_default. destruct (r_id x =? r_id r); [reflexivity|].
  rewrite (proj2 (in_scope_true _ _) P). reflexivity.
Qed.
Lemma upd_default_off_scope l r x : wf_rows l -> In r l -> In x l -> r_par x <> r_par r -> upd_default r x = x.
Proof.
  intros W Hr Hx P. unfold upd_default. destruct (N.eqb_spec (r_id x) (r_id r)) as [E | _].
  - destruct P. f_equal. eapply id_inj; eassumption.
  - rewrite (proj2 (in_scope_false _ _) P). reflexivity.
Qed.
Lemma r_set_default_wf n l : wf_rows l -> wf_rows (r_set_default n l).
Proof.
  intros W. constructor.
  - rewrite r_set_default_ids. apply W.
  - rewrite r_set_default_names. apply W.
  - destruct (r_set_default_cases n l) as [-> | [r [F [D ->]]]]; [apply W|].
    apply r_find_some in F. destruct F as [Hr _].
    intros a' b' Ha Hb Da Db Pab.
    apply in_map_iff in Ha. destruct Ha as [a [<- Ha]]. apply in_map_iff in Hb. destruct Hb as [b [<- Hb]].
    rewrite !upd_default_id. rewrite !upd_default_par in Pab.
    destruct (N.eq_dec (r_par a) (r_par r)) as [Pa | Pa].
    + rewrite upd_default_in_scope in Da, Db by congruence. apply N.eqb_eq in Da, Db. congruence.
    + rewrite (upd_default_off_scope l) in Da, Db by (auto; congruence). apply (wr_onedef _ W); assumption.
Qed.
Lemma r_set_default_sets n l r :
  r_find n l = Some r ->
  exists r', In r' (r_set_default n l) /\ r_id r' = r_id r /\ r_name r' = n /\ r_par r' = r_par r /\ r_def r' = true.
Proof.
  intros F. unfold r_set_default. rewrite F. pose proof (r_find_some _ _ _ F) as [Hr En].
  destruct (r_def r) eqn:D.
  - exists r. auto.
  - exists (set_def r true). split.
    + apply in_map_iff. exists r. split; [|assumption]. rewrite N.eqb_refl. reflexivity.
    + cbn. auto.
Qed.
Lemma r_set_default_scope_has p n l :
  scope_has_def p l = true -> scope_has_def p (r_set_default n l) = true.
Proof.
  intros H. destruct (r_set_default_cases n l) as [-> | [r [F [D E]]]]; [assumption|]. rewrite E.
  apply scope_has_def_true in H. destruct H as [x [Hx [Dx Px]]]. apply scope_has_def_true.
  apply r_find_some in F. destruct F as [Hr _].
  destruct (N.eq_dec (r_par r) p) as [Ep | Np].
  - exists (upd_default r r). split; [apply in_map; assumption|]. rewrite upd_default_par. split; [|assumption].
    unfold upd_default. rewrite N.eqb_refl. reflexivity.
  - exists (upd_default r x). split; [apply in_map; assumption|]. rewrite upd_default_par. split; [|assumption].
    unfold upd_default. destruct (r_id x =? r_id r); [reflexivity|].
    replace (in_scope (r_par r) x) with false; [assumption|]. symmetry. apply in_scope_false. congruence.
Qed.

Lemma filter_wf (f : row -> bool) l : wf_rows l -> wf_rows (filter f l).
Proof.
  intros W. constructor.
  - apply NoDup_map_filter. apply W.
  - apply NoDup_map_filter. apply W.
  - intros a b Ha Hb. apply filter_In in Ha, Hb. apply (wr_onedef _ W); tauto.
Qed.
Lemma r_delete_name_in n l x : In x (r_delete_name n l) <-> In x l /\ r_name x <> n.
Proof. unfold r_delete_name. rewrite filter_In, negb_true_iff, has_name_false. tauto. Qed.
Lemma r_delete_scope_in p l x : In x (r_delete_scope p l) <-> In x l /\ r_par x <> p.
Proof. unfold r_delete_scope. rewrite filter_In, negb_true_iff, in_scope_false. tauto. Qed.
Lemma filter_scope_has_def (f : row -> bool) p l :
  scope_has_def p (filter f l) = true -> scope_has_def p l = true.
Proof.
  rewrite !scope_has_def_true. intros [r [H1 H2]]. apply filter_In in H1. exists r. tauto.
Qed.
Lemma filter_keeps_default (f : row -> bool) p l r :
  scope_default p l = Some r -> f r = true -> scope_has_def p (filter f l) = true.
Proof.
  intros H F. apply scope_default_some in H. apply scope_has_def_true. exists r. rewrite filter_In. tauto.
Qed.

Lemma v_len_iter p l : v_len p l = length (v_iter p l).
Proof. unfold v_len, v_iter. rewrite map_length. reflexivity. Qed.
Lemma v_iter_in p l n : In n (v_iter p l) <-> exists r, In r l /\ r_name r = n /\ r_par r = p.
Proof.
  unfold v_iter. rewrite in_map_iff. split.
  - intros [r [E H]]. apply filter_In in H. rewrite in_scope_true in H. exists r. tauto.
  - intros [r [H1 [H2 H3]]]. exists r. rewrite filter_In, in_scope_true. tauto.
Qed.
Lemma v_get_ok p n l r : v_get p n l = Ok r -> In r l /\ r_name r = n /\ r_par r = p.
Proof.
  unfold v_get. destruct (find _ l) as [x|] eqn:F; [|discriminate]. intros H. inversion H; subst.
  apply find_some in F. rewrite andb_true_iff, has_name_true, in_scope_true in F. tauto.
Qed.
Lemma v_get_err p n l e : v_get p n l = Err e -> e = EKey /\ ~ In n (v_iter p l).
Proof.
  unfold v_get. destruct (find _ l) as [x|] eqn:F; [discriminate|]. intros H. inversion H. split; [reflexivity|].
  intros Hin. apply v_iter_in in Hin. destruct Hin as [r [G1 [G2 G3]]].
  apply (find_none _ _ F) in G1. rewrite andb_false_iff, has_name_false, in_scope_false in G1. tauto.
Qed.
Lemma v_get_in p n l r : wf_rows l -> In r l -> r_name r = n -> r_par r = p -> v_get p n l = Ok r.
Proof.
  intros W Hr En Ep. destruct (v_get p n l) as [x|e] eqn:G.
  - apply v_get_ok in G. destruct G as [G1 [G2 G3]]. f_equal. symmetry. eapply name_inj; eauto. congruence.
  - apply v_get_err in G. exfalso. apply (proj2 G). apply v_iter_in. eauto.
Qed.
Lemma v_contains_iter p n l : v_contains p n l = true <-> In n (v_iter p l).
Proof.
  unfold v_contains. destruct (v_get p n l) as [r|e] eqn:G; cbn.
  - apply v_get_ok in G. split; [|reflexivity]. intros _. apply v_iter_in. eauto.
  - apply v_get_err in G. split; [discriminate | tauto].
Qed.
Lemma v_iter_nodup p l : wf_rows l -> NoDup (v_iter p l).
Proof. intros W. unfold v_iter. apply NoDup_map_filter. apply W. Qed.
Lemma v_iter_delete p l k :
  v_iter p (r_delete_name k l) = filter (fun n => negb (name_eqb n k)) (v_iter p l).
Proof.
  unfold v_iter, r_delete_name. induction l as [|x l IH]; cbn; [reflexivity|].
  unfold has_name at 1. destruct (name_eqb (r_name x) k) eqn:E; cbn.
  - destruct (in_scope p x); cbn; [rewrite E; cbn|]; exact IH.
  - destruct (in_scope p x); cbn; [rewrite E; cbn; f_equal|]; exact IH.
Qed.
(* for del_identity's loop *)
Lemma v_iter_delete_head p l k ks :
  wf_rows l -> v_iter p l = k :: ks -> v_iter p (r_delete_name k l) = ks.
Proof.
  intros W E. pose proof (v_iter_nodup p l W) as ND. rewrite E in ND. inversion ND as [|? ? NI ND']; subst.
  rewrite v_iter_delete, E. cbn. rewrite name_eqb_refl. cbn. apply filter_all.
  intros x Hx. apply negb_true_iff. apply name_eqb_neq. intros ->. contradiction.
Qed.
Lemma v_iter_scoped p q l n : wf_rows l -> In n (v_iter p l) -> In n (v_iter q l) -> p = q.
Proof.
  intros W Hp Hq. apply v_iter_in in Hp, Hq. destruct Hp as [a [Ha [Na Pa]]], Hq as [b [Hb [Nb Pb]]].
  assert (a = b) by (eapply name_inj; eauto; congruence). subst. congruence.
Qed.
Lemma v_default_ok p l r : v_default p l = Ok r -> In r l /\ r_def r = true /\ r_par r = p.
Proof.
  unfold v_default. destruct (scope_default p l) eqn:E; [|discriminate]. intros H. inversion H; subst.
  apply scope_default_some. assumption.
Qed.
Lemma v_default_err p l e : v_default p l = Err e -> e = EKey /\ scope_has_def p l = false.
Proof.
  unfold v_default. destruct (scope_default p l) eqn:E; [discriminate|]. intros H. inversion H. split; [reflexivity|].
  apply scope_default_none. assumption.
Qed.
