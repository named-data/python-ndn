(* The pointer walk of Model/PacketPtrs.v over an arbitrary declared order in which no wire field is repeated:
   which element is assigned to a field, what a marker holds, and that the walk accepts whatever the decoder
   (Model/Tlv.assign_with over the field descriptors) accepts, and every sequence of Types in declared order. *)
From NDN Require Import Base.Prelude Model.TlvVar Model.Tlv Model.PacketPtrs Spec.TlvWf Proofs.PtrsSpecView.
Local Open Scope N_scope.

Definition lfields (lay : layout) : list N := flat_map (fun x => match x with inl t => [t] | inr _ => [] end) lay.

Fixpoint lay_index (lay : layout) (i : nat) (t : N) : option nat :=
  match lay with
  | [] => None
  | inl t' :: r => if t' =? t then Some i else lay_index r (S i) t
  | inr _ :: r => lay_index r (S i) t
  end.

Fixpoint mark_index (lay : layout) (i : nat) (c : N) : list nat :=
  match lay with
  | [] => []
  | inr c' :: r => if c' =? c then i :: mark_index r (S i) c else mark_index r (S i) c
  | inl _ :: r => mark_index r (S i) c
  end.

Lemma lay_index_ge lay : forall i t j, lay_index lay i t = Some j -> (i <= j)%nat.
Proof.
  induction lay as [|[t'|c] r IH]; intros i t j H; cbn [lay_index] in H; [discriminate| |].
  - destruct (t' =? t); [injection H as <-; lia|]. apply IH in H. lia.
  - apply IH in H. lia.
Qed.

Lemma lay_index_inj lay : forall i t t' j, lay_index lay i t = Some j -> lay_index lay i t' = Some j -> t = t'.
Proof.
  induction lay as [|[a|c] r IH]; intros i t t' j H H'; cbn [lay_index] in H, H'; [discriminate| |exact (IH _ _ _ _ H H')].
  destruct (N.eqb_spec a t) as [<-|], (N.eqb_spec a t') as [<-|]; [reflexivity| | |exact (IH _ _ _ _ H H')].
  - injection H as <-. apply lay_index_ge in H'. lia.
  - injection H' as <-. apply lay_index_ge in H. lia.
Qed.

Lemma lay_index_after lay : forall i t j q, lay_index lay i t = Some j -> (i + q <= j)%nat -> In (inl t) (skipn q lay).
Proof.
  induction lay as [|x r IH]; intros i t j q H Hq; [discriminate|].
  assert (Hr : lay_index r (S i) t = Some j -> In (inl t) (skipn q (x :: r))).
  { intros H'. pose proof (lay_index_ge _ _ _ _ H'). destruct q; [right; apply (IH _ _ _ 0%nat H')|apply (IH _ _ _ q H')]; lia. }
  destruct x as [t'|c]; cbn [lay_index] in H; [|exact (Hr H)].
  destruct (N.eqb_spec t' t) as [->|]; [|exact (Hr H)].
  injection H as <-. replace q with 0%nat by lia. left. reflexivity.
Qed.

Lemma find_field_none lay : forall i pos t, ~ In t (lfields lay) -> find_field lay i pos t = None.
Proof.
  induction lay as [|[t'|c] r IH]; intros i pos t Hn; cbn [find_field]; [reflexivity| |].
  - cbn in Hn. destruct (N.eqb_spec t' t) as [->|]; [exfalso; apply Hn; left; reflexivity|].
    rewrite Bool.andb_false_r. apply IH. intros X. apply Hn. right. exact X.
  - rewrite Bool.andb_false_r. apply IH. exact Hn.
Qed.

Lemma find_field_index lay : NoDup (lfields lay) -> forall i pos t,
  find_field lay i pos t =
  match lay_index lay i t with Some j => if (pos <=? j)%nat then Some j else None | None => None end.
Proof.
  induction lay as [|[t'|c] r IH]; intros Hnd i pos t; cbn [find_field lay_index]; [reflexivity| |].
  - cbn in Hnd. inversion Hnd as [|? ? Hni Hnd']; subst.
    destruct (N.eqb_spec t' t) as [->|].
    + destruct (pos <=? i)%nat; [reflexivity|]. apply find_field_none. exact Hni.
    + rewrite Bool.andb_false_r. apply IH. exact Hnd'.
  - rewrite Bool.andb_false_r. apply IH. exact Hnd.
Qed.

(* the markers in [from, to) all record the same element, so the last one recorded decides *)
Lemma get_mark_set_marks c at_ from to : forall lay i marks,
  get_mark c (set_marks lay i from to at_ marks) =
  if existsb (fun q => (from <=? q)%nat && (q <? to)%nat) (mark_index lay i c) then Some at_ else get_mark c marks.
Proof.
  induction lay as [|[t|c'] r IH]; intros i marks; cbn [set_marks mark_index existsb]; [reflexivity|apply IH|].
  rewrite IH. destruct (N.eqb_spec c' c) as [->|Hne]; cbn [existsb].
  - destruct (existsb _ (mark_index r (S i) c)); [rewrite Bool.orb_true_r; reflexivity|].
    rewrite Bool.orb_false_r. destruct ((from <=? i)%nat && (i <? to)%nat); [|reflexivity].
    cbn [get_mark]. rewrite N.eqb_refl. reflexivity.
  - destruct (existsb _ (mark_index r (S i) c)); [reflexivity|].
    destruct ((from <=? i)%nat && (i <? to)%nat); [|reflexivity].
    cbn [get_mark]. destruct (N.eqb_spec c' c); [contradiction|reflexivity].
Qed.

Definition events := list (nat * N * list (N * nat)).

Lemma event_of_in t (ev : events) i m : event_of t ev = Some (i, m) -> In (i, t, m) ev.
Proof.
  induction ev as [|[[i' t'] m'] ev IH]; intros H; [discriminate|]. cbn [event_of] in H.
  destruct (N.eqb_spec t' t) as [->|]; [injection H as -> ->; left; reflexivity|right; apply IH; exact H].
Qed.

Lemma last_marks_Forall (P : list (N * nat) -> Prop) (ev : events) : forall m0,
  P m0 -> Forall (fun e => P (snd e)) ev -> P (last_marks m0 ev).
Proof.
  induction ev as [|[[i t] m] ev IH]; intros m0 H0 H; [exact H0|].
  exact (IH m (Forall_inv H) (Forall_inv_tail H)).
Qed.

Section Walk.
Variable lay : layout.
Hypothesis Hnd : NoDup (lfields lay).

Definition before (q : nat) (t : N) : Prop := forall j, lay_index lay 0 t = Some j -> (j < q)%nat.

Lemma walk_cons idx t r pos marks ev : walk lay idx (t :: r) pos marks = Ok ev ->
  (exists i rest, lay_index lay 0 t = Some i /\ (pos <= i)%nat /\
     walk lay (S idx) r (S i) (set_marks lay 0 pos i idx marks) = Ok rest /\
     ev = (idx, t, set_marks lay 0 pos i idx marks) :: rest) \/
  (before pos t /\ N.odd t = false /\ walk lay (S idx) r pos marks = Ok ev).
Proof.
  intros H. cbn [walk] in H. rewrite (find_field_index lay Hnd) in H. unfold before.
  destruct (lay_index lay 0 t) as [j|].
  - destruct (Nat.leb_spec pos j) as [L|L].
    + destruct (walk lay (S idx) r (S j) _) as [rest|] eqn:W; [|discriminate]. injection H as <-.
      left. exists j, rest. exact (conj eq_refl (conj L (conj W eq_refl))).
    + destruct (N.odd t); [discriminate|]. right. split; [intros j' E; injection E as <-; assumption|split; [reflexivity|exact H]].
  - destruct (N.odd t); [discriminate|]. right. split; [intros j' E; discriminate E|split; [reflexivity|exact H]].
Qed.

Lemma walk_event_types : forall ts idx pos marks ev,
  walk lay idx ts pos marks = Ok ev -> Forall (fun e => In (snd (fst e)) ts) ev.
Proof.
  induction ts as [|t r IH]; intros idx pos marks ev H; [injection H as <-; constructor|].
  destruct (walk_cons _ _ _ _ _ _ H) as [(i & rest & _ & _ & W & ->)|(_ & _ & W)]; apply IH in W.
  - constructor; [left; reflexivity|]. revert W. apply Forall_impl. intros e. apply in_cons.
  - revert W. apply Forall_impl. intros e. apply in_cons.
Qed.

Lemma walk_no_passed t j : N.odd t = true -> lay_index lay 0 t = Some j -> forall ts idx pos marks ev,
  walk lay idx ts pos marks = Ok ev -> (j < pos)%nat -> ~ In t ts.
Proof.
  intros Ho Hj. induction ts as [|t' r IH]; intros idx pos marks ev H Hp; [intros []|].
  destruct (walk_cons _ _ _ _ _ _ H) as [(i & rest & Hi & Hpi & W & _)|(_ & Ho' & W)]; intros [->|Hin].
  - rewrite Hj in Hi. injection Hi as <-. lia.
  - exact (IH _ _ _ _ W ltac:(lia) Hin).
  - congruence.
  - exact (IH _ _ _ _ W Hp Hin).
Qed.

(* The first element of Type t is the one assigned to its field, provided the field cannot be passed over
   silently: t is critical, or no field is declared after it.  The field still lies ahead, or t is critical (past
   its field a critical Type cannot occur at all). *)
Lemma walk_first_event t j : lay_index lay 0 t = Some j ->
  N.odd t = true \/ (forall t' j', lay_index lay 0 t' = Some j' -> (j' <= j)%nat) ->
  forall ts idx pos marks ev, walk lay idx ts pos marks = Ok ev -> (pos <= j)%nat \/ N.odd t = true ->
  match idx_of t ts with
  | Some k => exists m, event_of t ev = Some ((idx + k)%nat, m)
  | None => event_of t ev = None
  end.
Proof.
  intros Hj Hcrit. induction ts as [|t' r IH]; intros idx pos marks ev H Hp; [injection H as <-; reflexivity|].
  cbn [idx_of].
  assert (Hr : forall pos' marks' ev', walk lay (S idx) r pos' marks' = Ok ev' -> (pos' <= j)%nat \/ N.odd t = true ->
            match option_map S (idx_of t r) with
            | Some k => exists m, event_of t ev' = Some ((idx + k)%nat, m)
            | None => event_of t ev' = None
            end).
  { intros pos' marks' ev' W Hp'. specialize (IH _ _ _ _ W Hp'). destruct (idx_of t r); cbn [option_map]; rewrite <- ?plus_n_Sm; exact IH. }
  destruct (walk_cons _ _ _ _ _ _ H) as [(i & rest & Hi & Hpi & W & ->)|(Hlt & Ho' & W)]; cbn [event_of];
    destruct (N.eqb_spec t' t) as [->|Hne].
  - eexists. rewrite Nat.add_0_r. reflexivity.
  - (* another Type is assigned, to field i: the field of t still lies ahead, or t is critical *)
    apply (Hr _ _ _ W). destruct Hcrit as [Ho|Hlast]; [right; exact Ho|left].
    apply Nat.le_neq. split; [exact (Hlast _ _ Hi)|intros ->; exact (Hne (lay_index_inj _ _ _ _ _ Hi Hj))].
  - (* a t is not skipped: its field lies ahead, or it is critical *)
    destruct Hp as [Hp|Ho]; [pose proof (Hlt _ Hj); lia|congruence].
  - exact (Hr _ _ _ W Hp).
Qed.

Lemma walk_none_later t j : N.odd t = true -> lay_index lay 0 t = Some j -> forall A B idx pos marks ev,
  walk lay idx (A ++ t :: B) pos marks = Ok ev -> (pos <= j)%nat -> Forall (before j) A.
Proof.
  intros Ho Hj. induction A as [|x A IH]; intros B idx pos marks ev H Hp; [constructor|].
  destruct (walk_cons _ _ _ _ _ _ H) as [(i & rest & Hi & Hpi & W & _)|(Hlt & _ & W)].
  - assert (Hij : (i < j)%nat).
    { destruct (Nat.lt_ge_cases i j) as [|Hge]; [assumption|].
      destruct (walk_no_passed t j Ho Hj _ _ _ _ _ W (le_n_S _ _ Hge)). apply in_elt. }
    constructor; [intros j' Hj'; congruence|exact (IH _ _ _ _ _ W Hij)].
  - constructor; [intros j' Hj'; exact (Nat.lt_le_trans _ _ _ (Hlt _ Hj') Hp)|exact (IH _ _ _ _ _ W Hp)].
Qed.

(* What a marker holds: it is recorded by the first assigned element whose field lies beyond it, and never
   changes afterwards.  Stated for a marker code that occurs once in the declared order. *)
Variables (c : N) (q : nat).
Hypothesis Hc : mark_index lay 0 c = [q].

Lemma get_mark_step pos i idx marks :
  get_mark c (set_marks lay 0 pos i idx marks) = if (pos <=? q)%nat && (q <? i)%nat then Some idx else get_mark c marks.
Proof. rewrite get_mark_set_marks, Hc. cbn [existsb]. rewrite Bool.orb_false_r. reflexivity. Qed.

Lemma walk_mark_kept : forall ts idx pos marks ev,
  walk lay idx ts pos marks = Ok ev -> (q < pos)%nat \/ Forall (before q) ts ->
  Forall (fun e => get_mark c (snd e) = get_mark c marks) ev.
Proof.
  induction ts as [|t r IH]; intros idx pos marks ev H Hk; [injection H as <-; constructor|].
  assert (Hk' : forall pos', (pos <= pos')%nat -> (q < pos')%nat \/ Forall (before q) r).
  { intros pos' Hp'. destruct Hk as [Hq|Hk]; [left; exact (Nat.lt_le_trans _ _ _ Hq Hp')|right; exact (Forall_inv_tail Hk)]. }
  destruct (walk_cons _ _ _ _ _ _ H) as [(i & rest & Hi & Hpi & W & ->)|(_ & _ & W)]; [|exact (IH _ _ _ _ W (Hk' pos (le_n _)))].
  assert (Hm : get_mark c (set_marks lay 0 pos i idx marks) = get_mark c marks).
  { rewrite get_mark_step. destruct Hk as [Hq|Hk].
    - rewrite (proj2 (Nat.leb_gt _ _) Hq). reflexivity.
    - rewrite (proj2 (Nat.ltb_ge _ _) (Nat.lt_le_incl _ _ (Forall_inv Hk _ Hi))), Bool.andb_false_r. reflexivity. }
  constructor; [exact Hm|]. rewrite <- Hm. exact (IH _ _ _ _ W (Hk' (S i) (Nat.le_le_succ_r _ _ Hpi))).
Qed.

Lemma walk_mark_set t j : lay_index lay 0 t = Some j -> (q < j)%nat -> forall A B idx pos marks ev,
  Forall (before q) A -> walk lay idx (A ++ t :: B) pos marks = Ok ev -> (pos <= q)%nat ->
  (forall t' j' i m, lay_index lay 0 t' = Some j' -> (q <= j')%nat -> event_of t' ev = Some (i, m) ->
     get_mark c m = Some (idx + length A)%nat) /\
  get_mark c (last_marks marks ev) = Some (idx + length A)%nat.
Proof.
  intros Hj Hqj. induction A as [|x A IH]; intros B idx pos marks ev HA H Hp.
  - cbn [app length]. rewrite Nat.add_0_r.
    destruct (walk_cons _ _ _ _ _ _ H) as [(i & rest & Hi & Hpi & W & ->)|(Hlt & _)]; 
      [|(* t is not skipped: pos <= q < j *) pose proof (Hlt _ Hj); lia].
    rewrite Hj in Hi. injection Hi as <-.
    assert (Hm : get_mark c (set_marks lay 0 pos j idx marks) = Some idx).
    { rewrite get_mark_step, (proj2 (Nat.leb_le _ _) Hp), (proj2 (Nat.ltb_lt _ _) Hqj). reflexivity. }
    pose proof (walk_mark_kept _ _ _ _ _ W (or_introl (Nat.lt_lt_succ_r _ _ Hqj))) as Hk. rewrite Hm in Hk. split.
    + intros t' j' i m _ _ He. cbn [event_of] in He. destruct (t =? t'); [injection He as _ <-; exact Hm|].
      exact (proj1 (Forall_forall _ _) Hk _ (event_of_in _ _ _ _ He)).
    + exact (last_marks_Forall (fun m => get_mark c m = Some idx) rest _ Hm Hk).
  - pose proof (Forall_inv HA) as Hx. apply Forall_inv_tail in HA. cbn [app length] in H |- *. rewrite Nat.add_succ_r.
    destruct (walk_cons _ _ _ _ _ _ H) as [(i & rest & Hi & Hpi & W & ->)|(_ & _ & W)]; [|exact (IH _ _ _ _ _ HA W Hp)].
    destruct (IH _ _ _ _ _ HA W (Hx _ Hi)) as (He & Hl). split; [|exact Hl].
    intros t' j' i' m Hj' Hqj' E. cbn [event_of] in E. destruct (N.eqb_spec x t') as [->|]; [|exact (He _ _ _ _ Hj' Hqj' E)].
    pose proof (Hx _ Hj'). lia.
Qed.
End Walk.

Fixpoint ascending (lay : layout) (pos : nat) (ts : list N) : bool :=
  match ts with
  | [] => true
  | t :: r => match lay_index lay 0 t with Some j => (pos <=? j)%nat && ascending lay (S j) r | None => false end
  end.

Lemma ascending_le lay ts pos pos' : (pos' <= pos)%nat -> ascending lay pos ts = true -> ascending lay pos' ts = true.
Proof.
  intros Hp. destruct ts as [|t r]; [reflexivity|]. cbn [ascending]. destruct (lay_index lay 0 t) as [j|]; [|discriminate].
  intros [H1%Nat.leb_le H2]%andb_prop. rewrite H2, (proj2 (Nat.leb_le pos' j)) by lia. reflexivity.
Qed.

Lemma walk_ascending lay : NoDup (lfields lay) -> forall ts idx pos marks,
  ascending lay pos ts = true -> exists ev, walk lay idx ts pos marks = Ok ev.
Proof.
  intros Hnd. induction ts as [|t r IH]; intros idx pos marks H; [eexists; reflexivity|].
  cbn [ascending] in H. cbn [walk]. rewrite (find_field_index lay Hnd).
  destruct (lay_index lay 0 t) as [j|]; [|discriminate]. apply andb_prop in H. destruct H as [-> H].
  destruct (IH (S idx) (S j) (set_marks lay 0 pos j idx marks) H) as (ev & ->). eexists; reflexivity.
Qed.

Lemma ascending_before lay t j B : lay_index lay 0 t = Some j -> forall A pos,
  ascending lay pos (A ++ t :: B) = true -> (pos <= j)%nat /\ Forall (before lay j) A.
Proof.
  intros Hj. induction A as [|x A IH]; intros pos H; cbn [app ascending] in H.
  - rewrite Hj in H. apply andb_prop in H. split; [apply Nat.leb_le, H|constructor].
  - destruct (lay_index lay 0 x) as [i|] eqn:E; [|discriminate]. apply andb_prop in H. destruct H as [H1%Nat.leb_le H2].
    destruct (IH _ H2) as (L & F). split; [lia|]. constructor; [|exact F].
    intros j' Hj'. rewrite E in Hj'. injection Hj' as <-. exact L.
Qed.

(* The walk accepts what the decoder accepts.  The field descriptors are the declared order with the markers
   erased, and markers never match an element: the two searches find the same field.  A position pw in the
   declared order corresponds to the number of fields among its first pw entries. *)
Definition fpos (lay : layout) (pw : nat) : nat := length (lfields (firstn pw lay)).

(* moving a running index past one entry while d entries are still to be passed over *)
Lemma sub_next p i d : (p - i = d -> p - S i = pred d /\ (p <=? i) = (d =? 0))%nat.
Proof.
  intros <-. split; [apply Nat.sub_succ_r|]. destruct (Nat.leb_spec p i) as [H|H].
  - rewrite (proj2 (Nat.sub_0_le _ _) H). reflexivity.
  - symmetry. apply Nat.eqb_neq, Nat.sub_gt. exact H.
Qed.

Lemma fpos_inl t r d : pred (fpos (inl t :: r) d) = fpos r (pred d) /\ (fpos (inl t :: r) d =? 0)%nat = (d =? 0)%nat.
Proof. destruct d; split; reflexivity. Qed.

Lemma fpos_inr m r d : fpos (inr m :: r) d = fpos r (pred d).
Proof. destruct d; reflexivity. Qed.

Lemma fpos_past x r j iw : (S iw <= j)%nat -> fpos (x :: r) (S j - iw) = (length (lfields [x]) + fpos r (S j - S iw))%nat.
Proof. intros H. replace (S j - iw)%nat with (S (S j - S iw)) by lia. destruct x; reflexivity. Qed.

(* [ia], [iw]: the running indices of the two searches.  The positions asked for correspond, as far as they lie
   ahead: pa - ia fields are to be passed over among the next d = pw - iw entries *)
Lemma find_sim : forall lay fs ia iw pa pw d t,
  map fst fs = lfields lay -> forallb (fun f => single (snd f)) fs = true -> (pw - iw = d)%nat -> (pa - ia = fpos lay d)%nat ->
  match find_from fs ia pa t with
  | Some (i, k) => exists j, find_field lay iw pw t = Some j /\ (iw <= j)%nat /\ S i = (ia + fpos lay (S j - iw))%nat /\ single k = true
  | None => find_field lay iw pw t = None
  end.
Proof.
  induction lay as [|x r IH]; intros fs ia iw pa pw d t Hm Hp D R; [destruct fs; [reflexivity|discriminate]|].
  destruct (sub_next _ _ _ D) as (D' & E). cbn [find_field]. rewrite E. destruct x as [t'|m].
  - destruct fs as [|[t'' k] fs]; [discriminate|]. injection Hm as -> Hm.
    apply andb_prop in Hp. destruct Hp as (Hk & Hp). cbn [find_from].
    destruct (sub_next _ _ _ R) as (R' & ->). destruct (fpos_inl t' r d) as (F & ->). rewrite F in R'.
    destruct ((d =? 0)%nat && (t' =? t)).
    + exists iw. rewrite Nat.sub_succ_l, Nat.sub_diag by apply le_n. repeat split; [apply le_n|exact (eq_sym (Nat.add_1_r ia))|exact Hk].
    + specialize (IH fs (S ia) (S iw) pa pw (pred d) t Hm Hp D' R'). destruct (find_from fs (S ia) pa t) as [[i k']|]; [|exact IH].
      destruct IH as (j & Fj & Hj & Hi & Hk'). exists j. rewrite (fpos_past _ _ _ _ Hj), <- plus_n_Sm.
      exact (conj Fj (conj (Nat.lt_le_incl _ _ Hj) (conj Hi Hk'))).
  - rewrite Bool.andb_false_r. rewrite fpos_inr in R.
    specialize (IH fs ia (S iw) pa pw (pred d) t Hm Hp D' R). destruct (find_from fs ia pa t) as [[i k']|]; [|exact IH].
    destruct IH as (j & Fj & Hj & Hi & Hk'). exists j. rewrite (fpos_past _ _ _ _ Hj).
    exact (conj Fj (conj (Nat.lt_le_incl _ _ Hj) (conj Hi Hk'))).
Qed.

Theorem accept_walk fs lay pv : map fst fs = lfields lay -> forallb (fun f => single (snd f)) fs = true ->
  forall els pw acc vs idx marks, assign_with pv fs false PNormal (fpos lay pw) els acc = Ok vs ->
  exists ev, walk lay idx (map e_type els) pw marks = Ok ev.
Proof.
  intros Hm Hp. induction els as [|e r IH]; intros pw acc vs idx marks H; [eexists; reflexivity|].
  cbn [assign_with] in H. cbn [map walk].
  pose proof (find_sim lay fs 0 0 (fpos lay pw) pw pw (e_type e) Hm Hp (Nat.sub_0_r _) (Nat.sub_0_r _)) as F.
  destruct (find_from fs 0 (fpos lay pw) (e_type e)) as [[i k]|].
  - destruct F as (j & -> & _ & Hi & Hk). rewrite Nat.sub_0_r in Hi. cbn [Nat.add] in Hi.
    (* no repeated or map field: the decoder reads the value and moves past the field *)
    assert (H' : (do x <- pv k e ;; assign_with pv fs false PNormal (S i) r (upd acc i (fun _ => x))) = Ok vs).
    { destruct k; try discriminate Hk; exact H. }
    destruct (pv k e) as [x|]; [|discriminate]. cbn [bind] in H'. rewrite Hi in H'.
    destruct (IH (S j) _ vs (S idx) (set_marks lay 0 pw j idx marks) H') as (ev & ->). eexists; reflexivity.
  - rewrite F. cbn [negb andb] in H. rewrite Bool.andb_true_r in H.
    destruct (N.odd (e_type e)); [discriminate|]. exact (IH _ _ _ _ _ H).
Qed.

Lemma elements_raw_fst : forall fuel w,
  elements fuel w = match elements_raw fuel w with Ok rs => Ok (map fst rs) | Err e => Err e end.
Proof.
  induction fuel as [|f IH]; intros w; [destruct w; reflexivity|].
  destruct w as [|b w']; [reflexivity|]. cbn [elements elements_raw].
  destruct (tl_dec (b :: w')) as [[t st]|]; [|reflexivity]. cbn [bind].
  destruct (tl_dec (skipn st (b :: w'))) as [[l sl]|]; [|reflexivity]. cbn [bind].
  rewrite IH. destruct (elements_raw f _); reflexivity.
Qed.

Lemma parse_model_walk fs lay d v vs : map fst fs = lfields lay -> forallb (fun f => single (snd f)) fs = true ->
  parse_model d fs false v = Ok vs ->
  exists rs ev, split_raw v = Ok rs /\ walk lay 0 (map (fun er => e_type (fst er)) rs) 0 [] = Ok ev.
Proof.
  intros Hm Hp Pm. unfold parse_model, split_wire in Pm. rewrite elements_raw_fst in Pm. unfold split_raw.
  destruct (elements_raw (S (length v)) v) as [rs|]; [|discriminate]. cbn [bind] in Pm.
  destruct (accept_walk fs lay _ Hm Hp _ 0%nat _ _ 0%nat [] Pm) as (ev & Hev).
  rewrite map_map in Hev. exists rs, ev. split; [reflexivity|exact Hev].
Qed.
