(* The post-signing rule of the encoders ([check_sig_len_ok]); the reserved SignatureValue size of the ECDSA signer
   bounds every DER signature it can write, so the rule accepts what that signer wrote. *)
From NDN Require Import Base.Prelude Model.SignerSizes Model.PacketEnc.
From NDN Require Generated.SignerSizes.
Local Open Scope N_scope.

(* 253: from there on the reserved Length has three octets and cannot be overwritten by one, so the signature must
   fill the space *)
Lemma check_sig_len_ok r sv :
  check_sig_len r sv = Ok tt <-> N.of_nat (length sv) <= r /\ (253 <= r -> N.of_nat (length sv) = r).
Proof.
  unfold check_sig_len. destruct (N.eqb_spec (N.of_nat (length sv)) r); [split; [lia|reflexivity]|].
  destruct (N.leb_spec 253 r); [split; [discriminate|lia]|].
  destruct (N.ltb_spec r (N.of_nat (length sv))); [split; [discriminate|lia]|split; [lia|reflexivity]].
Qed.

Lemma check_sig_len_rejected reserved sv :
  253 <= reserved -> N.of_nat (length sv) <> reserved -> check_sig_len reserved sv = Err EValue.
Proof.
  intros H1 H2. unfold check_sig_len.
  replace (N.of_nat (length sv) =? reserved) with false by lia.
  replace (253 <=? reserved) with true by lia. reflexivity.
Qed.

Lemma der_int_len_bound b x : 0 < b -> x < 2 ^ b -> der_int_len x <= b / 8 + 1.
Proof.
  intros Hb Hx. unfold der_int_len.
  assert (N.log2 x + 1 <= b) as Hl.
  { destruct (N.eq_dec x 0) as [->|Hne]; [cbn; lia|].
    assert (N.log2 x < b) by (apply N.log2_lt_pow2; lia). lia. }
  assert ((N.log2 x + 1) / 8 <= b / 8) by (apply N.div_le_mono; lia).
  lia.
Qed.

Lemma der_tlv_len_mono a b : a <= b -> der_tlv_len a <= der_tlv_len b.
Proof.
  intros H. unfold der_tlv_len, der_hdr_len.
  destruct (N.ltb_spec b 128); [replace (a <? 128) with true by lia; lia|].
  destruct (N.ltb_spec b 256); [replace (a <? 256) with true by lia; destruct (a <? 128); lia|].
  destruct (N.ltb_spec b 65536); [replace (a <? 65536) with true by lia|];
    destruct (a <? 128), (a <? 256), (a <? 65536); lia.
Qed.

Lemma der_sig_len_le k r s :
  der_int_len r <= k -> der_int_len s <= k -> der_sig_len r s <= der_tlv_len (2 * der_tlv_len k).
Proof.
  intros Hr Hs. apply der_tlv_len_mono.
  pose proof (der_tlv_len_mono _ _ Hr). pose proof (der_tlv_len_mono _ _ Hs). lia.
Qed.

(* the curves enter only here: what is reserved covers two integers of b/8+1 octets, and stays below 253 *)
Lemma curve_reserved b : In b ecdsa_curve_bits ->
  0 < b /\ der_tlv_len (2 * der_tlv_len (b / 8 + 1)) <= Generated.SignerSizes.ecdsa_reserved b
  /\ Generated.SignerSizes.ecdsa_reserved b < 253.
Proof.
  cbn [ecdsa_curve_bits In]. intros [<-|[<-|[<-|[<-|[<-|[]]]]]]; vm_compute; repeat split; discriminate.
Qed.

Theorem ecdsa_signature_fits b r s :
  In b ecdsa_curve_bits -> r < 2 ^ b -> s < 2 ^ b ->
  der_sig_len r s <= Generated.SignerSizes.ecdsa_reserved b.
Proof.
  intros Hb Hr Hs. destruct (curve_reserved b Hb) as (Hpos & Hres & _).
  etransitivity; [|exact Hres]. apply der_sig_len_le; apply der_int_len_bound; assumption.
Qed.

(* the reservation is not generous: on P-521 a signature of 139 octets exists (so 138 would not do) *)
Lemma ecdsa_p521_tight : exists r s, r < 2 ^ 521 /\ s < 2 ^ 521 /\ der_sig_len r s = 139.
Proof. exists (2 ^ 520), (2 ^ 520). vm_compute. repeat split; reflexivity. Qed.

Lemma ecdsa_reserved_values :
  map Generated.SignerSizes.ecdsa_reserved ecdsa_curve_bits = [56; 64; 72; 104; 140].
Proof. vm_compute. reflexivity. Qed.

Theorem ecdsa_signature_accepted b r s sv :
  In b ecdsa_curve_bits -> r < 2 ^ b -> s < 2 ^ b ->
  N.of_nat (length sv) = der_sig_len r s ->
  check_sig_len (Generated.SignerSizes.ecdsa_reserved b) sv = Ok tt.
Proof.
  intros Hb Hr Hs Hl.
  pose proof (ecdsa_signature_fits b r s Hb Hr Hs) as Hfit. destruct (curve_reserved b Hb) as (_ & _ & Hsmall).
  apply check_sig_len_ok. rewrite Hl. split; [exact Hfit|lia].
Qed.

(* the fixed-size signers reserve exactly what their primitive writes (SHA-256 / HMAC-SHA-256: 32 octets,
   Ed25519: 64, null: nothing) and RSA PKCS#1 v1.5 writes one modulus-sized block *)
Lemma fixed_signer_sizes :
  Generated.SignerSizes.digest_reserved = 32 /\ Generated.SignerSizes.hmac_reserved = 32 /\
  Generated.SignerSizes.ed25519_reserved = 64 /\ Generated.SignerSizes.null_reserved = 0 /\
  (forall k, Generated.SignerSizes.rsa_reserved k = k).
Proof. repeat split. Qed.
