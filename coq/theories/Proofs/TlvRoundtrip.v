(* What the C08 round trip (Proofs/TlvRoundtrip2.v) needs beforehand: a Name payload made of well-formed components
   splits back into them; of a [good] run: its elements are well formed, and [good] is monotone in the reader. *)
From NDN Require Import Base.Prelude Model.TlvVar Model.Name Model.Tlv Proofs.BytesLemmas Proofs.TlvVarProofs
  Proofs.TlvSplit Proofs.TlvAssign.
Local Open Scope N_scope.

Definition pv_le (pv pv' : fkind -> elem -> res value) : Prop :=
  forall k e v, pv k e = Ok v -> pv' k e = Ok v.

(* the same predicate as [NameWire.wf_comp]; it is also what [Spec.TlvWf.fits_name] asks of every component *)
Definition wf_comp64 (c : bytes) : Prop := exists t v, c = comp_enc t v /\ t < two64 /\ N.of_nat (length v) < two64.

Lemma comp_as_elem c : wf_comp64 c -> exists e, c = ser_elem e /\ el_ok e.
Proof.
  intros (t & v & -> & Ht & Hv). exists (Elem t (N.of_nat (length v)) v). split; [reflexivity|apply el_ok_intro; assumption].
Qed.

Lemma name_components_step fuel p : p <> [] ->
  name_components (S fuel) p =
  do tp <- tl_dec p ;; do lp <- tl_dec (skipn (snd tp) p) ;;
  let tot := N.of_nat (snd tp + snd lp) + fst lp in
  if N.of_nat (length p) <? tot then Err EIndex
  else let k := N.to_nat tot in do r <- name_components fuel (skipn k p) ;; Ok (firstn k p :: r).
Proof. destruct p; [contradiction|reflexivity]. Qed.

Lemma name_components_concat n : forall fuel,
  Forall wf_comp64 n -> (length n < fuel)%nat -> name_components fuel (concat n) = Ok n.
Proof.
  induction n as [|c n IH]; intros fuel H Hf; [destruct fuel; reflexivity|].
  inversion H as [|? ? Hc Hn]; subst. destruct Hc as (t & v & -> & Ht & Hv).
  destruct fuel as [|fuel]; [cbn in Hf; lia|]. cbn [concat]. change (comp_enc t v) with (tlv t v).
  rewrite name_components_step by (intros E; apply app_eq_nil in E; exact (tlv_nonempty t v (proj1 E))).
  destruct (tl_header t v (concat n) Ht Hv) as (E1 & E2 & _).
  rewrite E1. cbn [bind snd fst]. rewrite E2. cbn [bind snd fst].
  replace (N.of_nat (tl_size t + tl_size (N.of_nat (length v))) + N.of_nat (length v))
    with (N.of_nat (length (tlv t v))) by (rewrite tlv_length; lia).
  replace (N.of_nat (length (tlv t v ++ concat n)) <? N.of_nat (length (tlv t v))) with false
    by (rewrite app_length; lia).
  rewrite Nat2N.id, firstn_app_exact, skipn_app_exact, IH; [reflexivity|exact Hn|cbn in Hf; lia].
Qed.

Lemma fixed_width_cases fx n w : fixed_width fx n = Ok w -> (w = 1 \/ w = 2 \/ w = 4 \/ w = 8)%nat.
Proof.
  unfold fixed_width. destruct fx as [f|].
  - destruct f as [|p]; [discriminate|].
    repeat (destruct p as [p|p|]; try discriminate); intros H; inversion H; auto.
  - intros H; inversion H. apply nni_width_cases.
Qed.

Lemma good_el_ok pv t k v els : good pv t k v els -> Forall el_ok els.
Proof.
  intros H. destruct H as [k|k v e _ _ (_ & Hok & _)|ek l els _ HF|kk vt vk l prs _ _ HF].
  - constructor.
  - constructor; [exact Hok|constructor].
  - induction HF as [|x e l els (_ & Hok & _) _ IH]; constructor; assumption.
  - induction HF as [|kv pr l prs ((_ & Hok1 & _) & (_ & Hok2 & _)) _ IH]; cbn [flat_map app]; [constructor|].
    constructor; [exact Hok1|]. constructor; [exact Hok2|exact IH].
Qed.

Lemma items_el_ok pv items : Forall (item_good pv) items -> Forall el_ok (concat (map it_els items)).
Proof.
  induction 1 as [|i items Hi _ IH]; [constructor|]. cbn [map concat]. apply Forall_app. split; [|exact IH].
  eapply good_el_ok. exact Hi.
Qed.

Lemma good1_mono pv pv' t k v e : pv_le pv pv' -> good1 pv t k v e -> good1 pv' t k v e.
Proof. intros Hle (H1 & H2 & H3). exact (conj H1 (conj H2 (Hle _ _ _ H3))). Qed.

Lemma good_mono pv pv' t k v els : pv_le pv pv' -> good pv t k v els -> good pv' t k v els.
Proof.
  intros Hle H. destruct H as [k|k v e Hs Hv H1|ek l els Hne HF|kk vt vk l prs Hne Hnk HF].
  - constructor.
  - apply good_single; [exact Hs|exact Hv|exact (good1_mono _ _ _ _ _ _ Hle H1)].
  - apply good_rep; [exact Hne|]. eapply forall2_impl; [|exact HF]. intros x e. apply good1_mono, Hle.
  - apply good_map; [exact Hne|exact Hnk|]. eapply forall2_impl; [|exact HF].
    intros kv pr [H1 H2]. split; eapply good1_mono; eassumption.
Qed.
