(* C06 (A): for ANY byte string, well formed or not, and any chunking of it, the face hands over exactly
   the complete packets at its front (Spec/Framing.v [packets_of]) and run() is left suspended where [run_body]
   stops on the incomplete remainder ([stream_den]): the bytes of the remainder it has already read are in the
   coroutine, the others in the reader's buffer.  Every (typ, buf) handed over is one TLV element of Type typ
   ([delivered_consistent]). *)
From NDN Require Import Base.Prelude Model.TlvVar Model.Stream Spec.Framing Proofs.BytesLemmas
  Proofs.TlvVarProofs Proofs.StreamRun Proofs.StreamPump.
Local Open Scope N_scope.

Lemma take_varnum_pos w v sz : take_varnum w = Some (v, sz) -> (1 <= sz <= length w)%nat.
Proof. intros H. exact (tl_dec_ok _ _ _ (take_varnum_some _ _ _ H)). Qed.

Lemma first_packet_shrinks w p rest : first_packet w = Some (p, rest) -> (length rest < length w)%nat.
Proof.
  intros H. pose proof (run_body_first_packet w) as R. rewrite H in R. apply run_body_consumes in R. exact R.
Qed.

Lemma pumps_split_stream : forall fuel w, (length w <= fuel)%nat ->
  exists m b, run_one run_body (snd (split_stream fuel w)) = OBlocked m b /\
              pumps true (CBlocked run_body) w (fst (split_stream fuel w)) (CBlocked m) b.
Proof.
  induction fuel as [|f IH]; intros w Hf.
  - destruct w; [|cbn in Hf; lia]. exists run_body, []. split; [reflexivity|apply P_blocked, run_body_empty].
  - cbn [split_stream]. pose proof (run_body_first_packet w) as R.
    destruct (first_packet w) as [[p rest]|] eqn:E.
    + pose proof (first_packet_shrinks _ _ _ E).
      destruct (IH rest ltac:(lia)) as (m & b & Hr & Hm). destruct (split_stream f rest) as [ps r]. cbn [fst snd] in *.
      exists m, b. split; [exact Hr|]. eapply P_next; [reflexivity|exact R|exact Hm].
    + destruct R as (m & b & Hb). exists m, b. cbn [fst snd]. split; [exact Hb|]. apply P_blocked, Hb.
Qed.

Lemma pumps_packets_of w :
  exists m b, run_one run_body (snd (packets_of w)) = OBlocked m b /\
              pumps true (CBlocked run_body) w (fst (packets_of w)) (CBlocked m) b.
Proof. exact (pumps_split_stream (length w) w (le_n _)). Qed.

Theorem stream_den cfg chunks f' outs :
  run_events cfg face_init (map Feed chunks) = (f', outs) ->
  concat outs = fst (packets_of (concat chunks)) /\
  exists m b, run_one run_body (snd (packets_of (concat chunks))) = OBlocked m b /\ f' = Face true (CBlocked m) b false false.
Proof.
  intros H. destruct (pumps_packets_of (concat chunks)) as (m & b & Hr & HP).
  destruct (feeds_pumps _ _ _ _ _ _ _ HP H) as [-> ->]. split; [reflexivity|]. exists m, b. split; [exact Hr|reflexivity].
Qed.

Theorem framing_any_stream cfg chunks f' outs :
  run_events cfg face_init (map Feed chunks) = (f', outs) ->
  concat outs = fst (packets_of (concat chunks)) /\ f_running f' = true /\ exists m, f_co f' = CBlocked m.
Proof. intros H. destruct (stream_den _ _ _ _ H) as (E & m & b & _ & ->). repeat split; [exact E|]. exists m. reflexivity. Qed.

Theorem eof_any_stream cfg chunks f' outs :
  catch_incomplete cfg = true ->
  run_events cfg face_init (map Feed chunks ++ [Eof]) = (f', outs) ->
  concat outs = fst (packets_of (concat chunks)) /\ f' = Face false CFinished [] true true.
Proof.
  intros Hcfg H. destruct (pumps_packets_of (concat chunks)) as (m & b & _ & HP).
  exact (feeds_pumps_then _ _ _ _ _ _ _ _ _ HP (step_eof_blocked _ _ _ _ _ Hcfg) H).
Qed.

Theorem reset_any_stream cfg chunks f' outs :
  catch_reset cfg = true ->
  run_events cfg face_init (map Feed chunks ++ [Reset]) = (f', outs) ->
  concat outs = fst (packets_of (concat chunks)) /\ f_running f' = false /\ f_co f' = CFinished /\ f_closed f' = true.
Proof.
  intros Hcfg H. destruct (pumps_packets_of (concat chunks)) as (m & b & _ & HP).
  destruct (feeds_pumps_then _ _ _ _ _ _ _ _ _ HP (step_reset_blocked _ _ _ _ _ Hcfg) H) as [-> ->].
  repeat split.
Qed.

Definition consistent (p : N * bytes) : Prop := exists body, parse_and_check_tl (snd p) (fst p) = Ok body.

Lemma first_packet_consistent w p rest : first_packet w = Some (p, rest) -> consistent p.
Proof.
  unfold first_packet.
  destruct (take_varnum w) as [[t a]|] eqn:E1; [|discriminate].
  destruct (take_varnum (skipn a w)) as [[l b]|] eqn:E2; [|discriminate].
  destruct (l <=? N.of_nat (length (skipn (a + b) w))) eqn:E3; [|discriminate].
  intros H. injection H as <- _. apply take_varnum_some in E1, E2.
  pose proof (tl_dec_ok _ _ _ E1) as L1. pose proof (tl_dec_ok _ _ _ E2) as L2. rewrite skipn_length in L2, E3.
  eexists. cbn [fst snd]. apply (parse_and_check_tl_ok _ t a l b).
  - apply tl_dec_firstn; [exact E1|lia].
  - rewrite skipn_firstn_comm. apply tl_dec_firstn; [exact E2|lia].
  - rewrite firstn_length. lia.
Qed.

Lemma split_stream_consistent : forall fuel w, Forall consistent (fst (split_stream fuel w)).
Proof.
  induction fuel as [|f IH]; intros w; cbn [split_stream]; [constructor|].
  destruct (first_packet w) as [[p rest]|] eqn:E; [|constructor].
  specialize (IH rest). destruct (split_stream f rest) as [ps r]. cbn [fst] in *.
  constructor; [eapply first_packet_consistent; exact E|exact IH].
Qed.

(* every (typ, buf) the callback gets, from any byte stream in any chunking: buf is exactly one TLV element of
   Type typ, so parse_and_check_tl(buf, typ) succeeds -- over a stream face _receive never sees inconsistent outer framing *)
Theorem delivered_consistent cfg chunks f' outs :
  run_events cfg face_init (map Feed chunks) = (f', outs) -> Forall consistent (concat outs).
Proof.
  intros H. destruct (framing_any_stream _ _ _ _ H) as (-> & _). apply split_stream_consistent.
Qed.
