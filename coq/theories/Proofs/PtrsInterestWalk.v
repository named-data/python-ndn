(* The reflected declared order of InterestPacketValue, as the walk of Model/PacketPtrs.v sees it: where its
   fields and its three offset markers sit. *)
From NDN Require Import Base.Prelude Model.PacketPtrs Proofs.TlvAssign Proofs.PtrsWalk.
From NDN Require Generated.Schemas.
Local Open Scope N_scope.

Definition LI : layout := Generated.Schemas.ndn_format_0_3_InterestPacketValue_layout.
(* LI is [7; 33; 18; 30; 10; 12; 34; signature-start marker; digest-start marker; 36; 44; 46; digest-end marker]:
   positions 7, 8 and 12 hold the markers, 9 to 11 the fields declared after the two start markers. *)

Definition fidxI (t : N) : option nat :=
  if 7 =? t then Some 0%nat else if 33 =? t then Some 1%nat else if 18 =? t then Some 2%nat
  else if 30 =? t then Some 3%nat else if 10 =? t then Some 4%nat else if 12 =? t then Some 5%nat
  else if 34 =? t then Some 6%nat else if 36 =? t then Some 9%nat else if 44 =? t then Some 10%nat
  else if 46 =? t then Some 11%nat else None.

Lemma LI_nodup : NoDup (lfields LI).
Proof. apply nodupb_spec. reflexivity. Qed.

Lemma lay_index_LI t : lay_index LI 0 t = fidxI t.
Proof. reflexivity. Qed.

Lemma fidxI_7 t : fidxI t = Some 0%nat <-> t = 7.
Proof. split; [intros H; exact (lay_index_inj LI 0 t 7 0 H eq_refl)|intros ->; reflexivity]. Qed.
Lemma fidxI_7' : fidxI 7 = Some 0%nat. Proof. reflexivity. Qed.

Lemma LI_params t j : lay_index LI 0 t = Some j -> (7 <= j)%nat -> t = 36 \/ t = 44 \/ t = 46.
Proof.
  intros H Hj. pose proof (lay_index_after LI 0 t j 7 H Hj) as Hin.
  change (skipn 7 LI) with [inr 1; inr 2; inl 36; inl 44; inl 46; inr 3 : N + N] in Hin.
  destruct Hin as [E|[E|[E|[E|[E|[E|[]]]]]]]; try discriminate E; injection E as <-; auto.
Qed.

Lemma before_markers A : (forall x, In x A -> x <> 36 /\ x <> 44 /\ x <> 46) -> Forall (before LI 7) A.
Proof.
  intros H. apply Forall_forall. intros x Hx j Hj. destruct (Nat.lt_ge_cases j 7) as [|Hge]; [assumption|].
  destruct (H x Hx) as (N1 & N2 & N3). destruct (LI_params x j Hj Hge) as [|[|]]; contradiction.
Qed.

(* InterestSignatureValue is the last field; the digest-end marker is declared after it and is never recorded *)
Lemma LI_last t j : lay_index LI 0 t = Some j -> (j <= 11)%nat.
Proof.
  intros H. destruct (Nat.lt_ge_cases j 12) as [|Hge]; [lia|].
  pose proof (lay_index_after LI 0 t j 12 H Hge) as Hin. change (skipn 12 LI) with [inr 3 : N + N] in Hin.
  destruct Hin as [E|[]]. discriminate E.
Qed.

Lemma walkI_no_end ts idx pos marks ev : walk LI idx ts pos marks = Ok ev ->
  get_mark MARK_DIG_END (last_marks marks ev) = get_mark MARK_DIG_END marks.
Proof.
  intros W. apply (last_marks_Forall (fun m => get_mark MARK_DIG_END m = get_mark MARK_DIG_END marks)); [reflexivity|].
  apply (walk_mark_kept LI LI_nodup MARK_DIG_END 12 eq_refl _ _ _ _ _ W). right.
  apply Forall_forall. intros x _ j Hj. apply LI_last in Hj. lia.
Qed.
