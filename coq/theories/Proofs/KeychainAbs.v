(* The abstraction from tables to the nested maps of Spec/KeychainSpec.v; the Mapping views and the
   signer selection of the model are those of the specification on the abstract state.  Also [view_consistent]:
   the four views of one scope of a well-formed table agree among themselves. *)
From NDN Require Import Base.Prelude Model.Keychain Spec.KeychainSpec.
From NDN Require Import Proofs.KeychainTables Proofs.KeychainInv Proofs.KeychainOutcome Proofs.KeychainInvariant.
Local Open Scope N_scope.

Definition scope_map {V} (g : row -> V) (p : N) (l : rows) : list (name * V) :=
  map (fun r => (r_name r, g r)) (filter (in_scope p) l).
Definition scope_defname (p : N) (l : rows) : option name := option_map r_name (scope_default p l).

Definition abs_key (t : tables) (k : row) : skey :=
  mkSK (r_val k) (scope_map r_val (r_id k) (t_certs t)) (scope_defname (r_id k) (t_certs t)).
Definition abs_ident (t : tables) (i : row) : sident :=
  mkSI (scope_map (abs_key t) (r_id i) (t_keys t)) (scope_defname (r_id i) (t_keys t)).
Definition abs_tables (t : tables) (tp : list (name * N)) : skc :=
  mkSKC (scope_map (abs_ident t) 0 (t_ids t)) (scope_defname 0 (t_ids t)) tp.
Definition abs (c : cst) : skc := abs_tables (db c) (tpm c).

Lemma scope_map_names {V} (g : row -> V) p l : view_names (scope_map g p l) = v_iter p l.
Proof. unfold view_names, scope_map, v_iter. rewrite map_map. reflexivity. Qed.
Lemma scope_map_len {V} (g : row -> V) p l : view_len (scope_map g p l) = v_len p l.
Proof. unfold view_len, scope_map, v_len. apply map_length. Qed.
Lemma scope_map_get {V} (g : row -> V) p l n :
  nget (scope_map g p l) n = match v_get p n l with Ok r => Some (g r) | Err _ => None end.
Proof.
  unfold scope_map, v_get. induction l as [|x l IH]; cbn; [reflexivity|].
  destruct (in_scope p x) eqn:S; cbn.
  - unfold has_name. rewrite (name_eqb_sym n (r_name x)). destruct (name_eqb (r_name x) n); cbn; [reflexivity | exact IH].
  - rewrite andb_false_r. exact IH.
Qed.
Lemma scope_map_mem {V} (g : row -> V) p l n : view_mem (scope_map g p l) n = v_contains p n l.
Proof.
  unfold view_mem, al_mem, v_contains. rewrite scope_map_get.
  destruct (v_get p n l); reflexivity.
Qed.
Lemma scope_defname_default p l : scope_defname p l = opt_name (v_default p l).
Proof. unfold scope_defname, v_default, opt_name. destruct (scope_default p l); reflexivity. Qed.
Lemma scope_defname_none p l : scope_defname p l = None <-> scope_has_def p l = false.
Proof. unfold scope_defname. rewrite <- scope_default_none. destruct (scope_default p l); cbn; split; congruence. Qed.

Lemma view_mem_names {V} (m : list (name * V)) n : view_mem m n = true <-> In n (view_names m).
Proof.
  unfold view_mem, al_mem, view_names. destruct (al_get name_eqb m n) eqn:E.
  - split; [|reflexivity]. intros _. apply (al_get_some_in name_eqb name_eqb_eq) in E.
    apply in_map_iff. exists (n, v). auto.
  - apply (al_get_none name_eqb name_eqb_eq) in E. split; [discriminate | contradiction].
Qed.
Lemma view_get_mem {V} (m : list (name * V)) n : (exists v, view_get m n = Some v) <-> view_mem m n = true.
Proof.
  unfold view_mem, al_mem, view_get. destruct (al_get name_eqb m n) as [v|]; split; intros H; try reflexivity; try discriminate.
  - exists v. reflexivity.
  - destruct H. discriminate.
Qed.
Lemma view_len_names {V} (m : list (name * V)) : view_len m = length (view_names m).
Proof. unfold view_len, view_names. symmetry. apply map_length. Qed.

Lemma abs_ident_get t tp n :
  s_ident (abs_tables t tp) n = match kc_get n t with Ok i => Some (abs_ident t i) | Err _ => None end.
Proof. unfold s_ident, abs_tables, kc_get. cbn. apply (scope_map_get (abs_ident t)). Qed.
Lemma abs_key_get t i n :
  nget (si_keys (abs_ident t i)) n = match id_get i n t with Ok k => Some (abs_key t k) | Err _ => None end.
Proof. unfold abs_ident, id_get. cbn. apply (scope_map_get (abs_key t)). Qed.
Lemma abs_cert_get t k n :
  nget (sk_certs (abs_key t k)) n = match key_get k n t with Ok c => Some (r_val c) | Err _ => None end.
Proof. unfold abs_key, key_get. cbn. apply (scope_map_get r_val). Qed.
Lemma abs_s_key t tp kn :
  s_key (abs_tables t tp) kn = match key_lookup kn t with Ok k => Some (abs_key t k) | Err _ => None end.
Proof.
  unfold s_key, key_lookup. rewrite abs_ident_get. destruct (kc_get (drop2 kn) t) as [i|]; cbn; [|reflexivity].
  apply abs_key_get.
Qed.
Lemma s_key_listed t tp k : wf_tables t -> In k (t_keys t) -> s_key (abs_tables t tp) (r_name k) = Some (abs_key t k).
Proof. intros W Hk. rewrite abs_s_key, (key_lookup_in _ _ W Hk). reflexivity. Qed.
Lemma s_key_unlisted t tp kn : ~ In kn (map r_name (t_keys t)) -> s_key (abs_tables t tp) kn = None.
Proof. intros N. rewrite abs_s_key. apply key_lookup_none in N. destruct (key_lookup kn t); [discriminate | reflexivity]. Qed.

Record view_agrees {V} (m : list (name * V)) (p : N) (l : rows) : Prop := mkVA {
  va_iter : view_names m = v_iter p l;
  va_len : view_len m = v_len p l;
  va_mem : forall n, view_mem m n = v_contains p n l;
  va_get : forall n, (exists v, view_get m n = Some v) <-> is_ok (v_get p n l) = true
}.
Lemma scope_map_agrees {V} (g : row -> V) p l : view_agrees (scope_map g p l) p l.
Proof.
  constructor.
  - apply scope_map_names.
  - apply scope_map_len.
  - apply scope_map_mem.
  - intros n. rewrite view_get_mem, scope_map_mem. reflexivity.
Qed.

Theorem views_refine c :
  let a := abs c in let t := db c in
  view_agrees (s_ids a) 0 (t_ids t) /\
  (forall i, In i (t_ids t) -> view_agrees (si_keys (abs_ident t i)) (r_id i) (t_keys t)) /\
  (forall k, In k (t_keys t) -> view_agrees (sk_certs (abs_key t k)) (r_id k) (t_certs t)).
Proof. cbn. split; [|split]; intros; apply scope_map_agrees. Qed.

Record view_consistent (p : N) (l : rows) : Prop := mkVC {
  vc_len : v_len p l = length (v_iter p l);
  vc_mem : forall n, v_contains p n l = true <-> In n (v_iter p l);
  vc_get : forall n r, v_get p n l = Ok r -> r_name r = n /\ r_par r = p /\ In n (v_iter p l);
  vc_miss : forall n e, v_get p n l = Err e -> e = EKey /\ ~ In n (v_iter p l);
  vc_nodup : NoDup (v_iter p l)
}.
Lemma view_consistent_wf p l : wf_rows l -> view_consistent p l.
Proof.
  intros W. constructor.
  - apply v_len_iter.
  - intros n. apply v_contains_iter.
  - intros n r H. apply v_get_ok in H. destruct H as [H1 [H2 H3]]. repeat split; auto. apply v_iter_in. eauto.
  - intros n e. apply v_get_err.
  - apply v_iter_nodup. assumption.
Qed.

Lemma default_cert_name_abs t k :
  to_option (default_cert_name k t) = sk_defcert (abs_key t k).
Proof.
  unfold default_cert_name, abs_key. cbn. rewrite scope_defname_default.
  destruct (v_default (r_id k) (t_certs t)); reflexivity.
Qed.

Lemma select_default_key t i :
  wf_tables t ->
  to_option (do k <- v_default (r_id i) (t_keys t) ;; do cn <- default_cert_name k t ;; Ok (r_name k, cn)) =
  (odo kn <- si_defkey (abs_ident t i) ;; odo k <- nget (si_keys (abs_ident t i)) kn ;; odo d <- sk_defcert k ;; Some (kn, d)).
Proof.
  intros W. change (si_defkey (abs_ident t i)) with (scope_defname (r_id i) (t_keys t)). rewrite scope_defname_default.
  destruct (v_default (r_id i) (t_keys t)) as [k|] eqn:D; cbn [bind obind to_option opt_name]; [|reflexivity].
  apply v_default_ok in D. destruct D as [Hk [_ Pk]].
  rewrite abs_key_get, (id_get_in _ _ _ _ W Hk eq_refl Pk). cbn [bind obind to_option].
  rewrite <- default_cert_name_abs. destruct (default_cert_name k t); reflexivity.
Qed.

Lemma resolve_select a t tp :
  wf_tables t -> to_option (resolve_args a t) = s_select a (abs_tables t tp).
Proof.
  intros W. unfold resolve_args, s_select. destruct (a_cert a) as [cn|]; [reflexivity|].
  destruct (a_key a) as [kn|].
  - rewrite abs_s_key. unfold key_lookup. destruct (kc_get (drop2 kn) t) as [i|]; cbn [bind obind to_option]; [|reflexivity].
    destruct (id_get i kn t) as [k|]; cbn [bind obind to_option]; [|reflexivity].
    rewrite <- default_cert_name_abs. destruct (default_cert_name k t); reflexivity.
  - destruct (a_ident a) as [idn|]; cbn [obind].
    + rewrite abs_ident_get. destruct (kc_get idn t) as [i|]; cbn [bind obind to_option]; [|reflexivity].
      apply select_default_key, W.
    + unfold abs_tables at 1. cbn [s_defid]. rewrite scope_defname_default.
      destruct (v_default 0 (t_ids t)) as [i|] eqn:D; cbn [bind obind to_option opt_name]; [|reflexivity].
      apply v_default_ok in D. rewrite abs_ident_get, (kc_get_in _ _ _ W (proj1 D) eq_refl). apply select_default_key, W.
Qed.

Lemma out_get_signer_spec F a c x :
  inv c -> out_get_signer F a c x ->
  match signer_of a (abs c) with
  | Some g => fst x = Ok (RSigner g) \/ (F /\ fst x = Err EFault)
  | None => is_ok (fst x) = false
  end.
Proof.
  intros I H. unfold out_get_signer in H. unfold signer_of.
  destruct (a_nosig a); [subst; auto|]. destruct (a_digest a); [subst; auto|].
  unfold abs. rewrite <- (resolve_select a (db c) (tpm c) (inv_wf _ I)).
  destruct (resolve_args a (db c)) as [kc|]; cbn [to_option obind abs_tables s_tpm]; [|subst; reflexivity].
  destruct (al_get ckey_eqb (cache c) _) as [g0|] eqn:Hit.
  - subst. destruct (inv_cache _ I _ _ _ Hit) as [m [-> ->]]. cbn [obind]. auto.
  - destruct (al_get name_eqb (tpm c) (fst kc)) as [m|]; cbn [obind]; destruct H as [-> | [HF ->]]; auto.
Qed.

Theorem get_signer_refines f a c g c' :
  inv c -> run_op f (OGetSigner a) c = (Ok (RSigner g), c') -> signer_of a (abs c) = Some g.
Proof.
  intros I R. pose proof (out_get_signer_spec _ a c _ I (run_op_outs_inv f (OGetSigner a) c I)) as H. rewrite R in H.
  cbn [fst] in H. destruct (signer_of a (abs c)); [|discriminate]. destruct H as [H | [_ H]]; [congruence | discriminate].
Qed.
Theorem get_signer_complete a c g :
  inv c -> signer_of a (abs c) = Some g -> fst (run_op None (OGetSigner a) c) = Ok (RSigner g).
Proof.
  intros I S. pose proof (out_get_signer_spec _ a c _ I (run_op_outs_none (OGetSigner a) c I)) as H. rewrite S in H.
  destruct H as [H | [[] _]]. exact H.
Qed.

(* the signer belongs to a key that is listed, under its identity, with the public bits of that private key *)
Theorem signer_key_listed a c m loc :
  inv c -> signer_of a (abs c) = Some (SgKey m loc) ->
  exists kn cn k, s_select a (abs c) = Some (kn, cn) /\ s_key (abs c) kn = Some k /\ sk_bits k = m /\
                  loc = match a_locator a with Some l => l | None => cn end.
Proof.
  intros I S. unfold signer_of in S. destruct (a_nosig a); [discriminate|]. destruct (a_digest a); [discriminate|].
  destruct (s_select a (abs c)) as [[kn cn]|] eqn:Sel; [|discriminate]. cbn [obind fst snd] in S.
  unfold abs in S at 1. cbn [abs_tables s_tpm] in S.
  destruct (al_get name_eqb (tpm c) kn) as [m0|] eqn:Em; [|discriminate]. cbn in S. inversion S; subst.
  destruct (inv_sub _ I _ _ Em) as [k [Hk [<- Vk]]].
  exists (r_name k), cn, (abs_key (db c) k). repeat split; auto. exact (s_key_listed _ (tpm c) k (inv_wf _ I) Hk).
Qed.
