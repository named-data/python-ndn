(* model ⊑ spec, one operation at a time: a run without injected failure moves the abstract state exactly as
   [spec_step] of Spec/KeychainSpec.v says, and raises exactly when the specification refuses.  get_signer is the
   exception in [refines]: spec_step is the identity for it, so whether it raises is not spec_step's to say (signer_of
   decides, KeychainAbs.get_signer_refines / get_signer_complete); here it only leaves the abstract state as it was. *)
From NDN Require Import Base.Prelude Model.Keychain Spec.KeychainSpec.
From NDN Require Import Proofs.KeychainTables Proofs.KeychainHoare Proofs.KeychainInv Proofs.KeychainOutcome Proofs.KeychainInvariant
  Proofs.KeychainAbs Proofs.KeychainRefineA.
Local Open Scope N_scope.

Definition refines (o : op) (c : cst) (x : outcome) : Prop :=
  match o with
  | OGetSigner _ => abs (snd x) = abs c
  | _ => match spec_step o (abs c) with
         | Some a' => is_ok (fst x) = true /\ abs (snd x) = a'
         | None => is_ok (fst x) = false /\ abs (snd x) = abs c
         end
  end.

(* the specification's new_key through the name TpmFile.generate_key chooses *)
Lemma s_new_key_eq idn kt ks m v a :
  s_new_key idn kt ks m v a =
  odo _ <- s_ident a idn ;;
  match new_key_name idn kt ks (s_tpm a) with
  | Err _ => None
  | Ok kn => match s_key a kn with Some _ => None | None => Some (s_add_cert (kn ++ [C_SELF; v]) 0 (s_add_key kn m a)) end
  end.
Proof.
  unfold s_new_key, new_key_name. destruct (s_ident a idn); cbn [obind]; [|reflexivity].
  destruct (2 <=? kt); [reflexivity|].
  destruct ks as [cs|k]; cbn [bind to_option obind].
  - destruct (pick_kid idn cs (s_tpm a)) as [kid|]; cbn [bind to_option obind]; [|reflexivity].
    destruct (nmem (s_tpm a) (idn ++ [C_KEY; kid])); reflexivity.
  - destruct (nmem (s_tpm a) (idn ++ [C_KEY; k])); reflexivity.
Qed.

Lemma new_key_db_refines t tp i kn m v :
  wf_tables t -> In i (t_ids t) -> drop2 kn = r_name i -> (2 <= length kn)%nat ->
  match new_key_db i kn m v t with
  | Ok t2 => s_key (abs_tables t tp) kn = None /\
             abs_tables t2 (nset tp kn m) = s_add_cert (kn ++ [C_SELF; v]) 0 (s_add_key kn m (abs_tables t tp))
  | Err _ => exists k, s_key (abs_tables t tp) kn = Some k
  end.
Proof.
  intros W Hi Dn Ln. unfold new_key_db. rewrite (s_key_find _ _ W).
  destruct (sql_insert_key (r_id i) kn m t) as [t1|e] eqn:E1; cbn [bind].
  - pose proof (wf_insert_key _ _ _ _ _ W Hi Dn Ln E1) as W1.
    pose proof (abs_insert_key t tp W t1 i kn m Hi Dn E1) as A1.
    apply sql_insert_key_ok in E1. destruct E1 as [lk [R ->]].
    pose proof (r_insert_ok _ _ _ _ _ R) as [_ NI]. rewrite (proj2 (r_find_none _ _) NI). cbn [option_map].
    destruct (sql_insert_cert kn (kn ++ [C_SELF; v]) 0 _) as [t2|e] eqn:E2.
    + split; [reflexivity|]. rewrite <- A1. apply (abs_insert_cert _ (nset tp kn m) W1 t2 kn); [apply drop2_app2 | exact E2].
    + (* impossible: a certificate of that name would belong to a key of that name *)
      exfalso. unfold sql_insert_cert in E2. cbn [t_keys t_certs] in E2.
      destruct (r_insert_new _ _ _ _ _ R) as [x [Hx [Nx _]]].
      destruct (r_find_present kn lk) as [k1 Fk1]; [rewrite <- Nx; apply in_map; assumption|]. rewrite Fk1 in E2.
      destruct (r_insert (r_id k1) (kn ++ [C_SELF; v]) 0 (t_certs t)) as [l|e'] eqn:Rc; [discriminate|].
      apply r_insert_err in Rc. destruct Rc as [_ Hin]. apply in_map_iff in Hin. destruct Hin as [c [Nc Hc]].
      destruct (cert_owner _ _ W Hc) as [k [Hk [_ [Nk _]]]]. rewrite Nc, drop2_app2 in Nk.
      apply NI. rewrite <- Nk. apply in_map. assumption.
  - unfold sql_insert_key in E1. destruct (r_insert (r_id i) kn m (t_keys t)) as [l|e'] eqn:R; [discriminate|].
    apply r_insert_err in R. destruct R as [_ Hin]. destruct (r_find_present _ _ Hin) as [kr ->]. cbn. eauto.
Qed.

Lemma new_key_refines t tp i idn kt ks m v :
  wf_tables t -> kc_get idn t = Ok i ->
  s_new_key idn kt ks m v (abs_tables t tp) =
  match new_key_name idn kt ks tp with
  | Err _ => None
  | Ok kn => match new_key_db i kn m v t with Ok t2 => Some (abs_tables t2 (nset tp kn m)) | Err _ => None end
  end.
Proof.
  intros W G. rewrite s_new_key_eq, abs_ident_get, G. cbn [obind s_tpm abs_tables].
  destruct (new_key_name idn kt ks tp) as [kn|] eqn:Nn; [|reflexivity].
  apply kc_get_ok in G. destruct G as [Hi Ni]. destruct (new_key_name_drop2 _ _ _ _ _ Nn) as [Dn Ln]. rewrite <- Ni in Dn.
  pose proof (new_key_db_refines t tp i kn m v W Hi Dn Ln) as R. fold (abs_tables t tp).
  destruct (new_key_db i kn m v t) as [t2|]; [destruct R as [-> ->] | destruct R as [k ->]]; reflexivity.
Qed.

Lemma touch_refines n cands material ver c r c' :
  inv c -> out_touch False n cands material ver c (r, c') -> refines (OTouchIdentity n cands material ver) c (r, c').
Proof.
  intros I H. pose proof (inv_wf _ I) as W. unfold refines. cbn [spec_step fst snd].
  unfold out_touch in H. unfold abs at 1. rewrite abs_ident_get. rewrite kc_contains_get in H.
  destruct (kc_get n (db c)) as [i0|e0] eqn:G0; cbn [is_ok] in H.
  - destruct (scope_has_def 0 (t_ids (db c))) eqn:Hd.
    + destruct H as [i [_ [= -> ->]]]. split; [reflexivity|].
      unfold abs, abs_tables. cbn [s_ids s_defid s_tpm]. f_equal. unfold first_default.
      destruct (scope_defname 0 (t_ids (db c))) eqn:D; [reflexivity|]. apply scope_defname_none in D. congruence.
    + destruct H as [[t' [i [[= <-] [_ [= -> ->]]]]] | [[] _]]. split; [reflexivity|].
      unfold abs at 1. cbn [commit_db db tpm]. rewrite (abs_default_identity _ _ W), abs_ident_get, G0.
      apply scope_defname_none in Hd. unfold abs, abs_tables. cbn [s_ids s_defid s_tpm]. rewrite Hd. reflexivity.
  - destruct H as [[[] _] | H].
    destruct (sql_insert_identity n (db c)) as [t1|e1] eqn:E1.
    2:{ destruct (insert_identity_absent n _ W) as [t1 E1']; [rewrite kc_contains_get, G0; reflexivity | congruence]. }
    destruct (insert_identity_get _ _ _ W E1) as [i G1]. rewrite G1 in H.
    pose proof (abs_insert_identity _ (tpm c) W _ _ E1) as A1. fold (abs c) in A1.
    rewrite <- A1, (new_key_refines _ _ _ _ _ _ _ _ (wf_insert_identity _ _ _ W E1) G1).
    destruct (new_key_name n 0 (KidRandom cands) (tpm c)) as [kn|e]; [|injection H as -> ->; auto].
    destruct H as [[t3 [i' [E3 [_ H]]]] | [e [E3 [= -> ->]]]]; rewrite E3; [|auto].
    cbn zeta in H. destruct H as [[= -> ->] | [[] _]]. auto.
Qed.

Lemma new_key_op_refines idn ktype ks material ver c r c' :
  inv c -> out_new_key False idn ktype ks material ver c (r, c') -> refines (ONewKey idn ktype ks material ver) c (r, c').
Proof.
  intros I H. pose proof (inv_wf _ I) as W. unfold refines. cbn [spec_step fst snd].
  unfold out_new_key in H. rewrite kc_contains_get in H. unfold abs.
  destruct (kc_get idn (db c)) as [i|e0] eqn:G; cbn [is_ok negb] in H.
  2:{ injection H as -> ->. rewrite s_new_key_eq, abs_ident_get, G. cbn [obind]. auto. }
  rewrite (new_key_refines _ _ _ _ _ _ _ _ W G).
  destruct (new_key_name idn ktype ks (tpm c)) as [kn|e]; [|injection H as -> ->; auto].
  destruct H as [[t2 [k [E [_ [= -> ->]]]]] | [[e [E [= -> ->]]] | [[] _]]]; rewrite E; [|rewrite (rollback_clean _ (inv_clean _ I))]; auto.
Qed.

Lemma import_cert_refines kn cn data c r c' :
  inv c -> wf_op (OImportCert kn cn data) -> out_txn1 False (sql_insert_cert kn cn data) (fun c => c) c (r, c') ->
  refines (OImportCert kn cn data) c (r, c').
Proof.
  intros I Wo H. pose proof (inv_wf _ I) as W. unfold refines. cbn [spec_step fst snd].
  unfold abs at 1 2. rewrite (s_key_find _ _ W), (s_cert_find _ _ W). destruct Wo as [Dn Ln].
  destruct H as [[t [E [= -> ->]]] | [[e [E [= -> ->]]] | [[] _]]].
  - pose proof E as E'. apply sql_insert_cert_ok in E'. destruct E' as [k0 [l [-> [R _]]]].
    apply r_insert_ok in R. rewrite (proj2 (r_find_none _ _) (proj2 R)). cbn [option_map].
    split; [reflexivity|]. apply (abs_insert_cert (db c) (tpm c) W t kn); auto.
  - unfold sql_insert_cert in E. destruct (r_find kn (t_keys (db c))) as [k0|]; cbn [option_map]; [|auto].
    destruct (r_insert (r_id k0) cn data (t_certs (db c))) as [l|e'] eqn:R; [discriminate|].
    apply r_insert_err in R. destruct (r_find_present _ _ (proj2 R)) as [cr ->]. cbn [option_map]. auto.
Qed.

Lemma del_key_refines kn c x : inv c -> out_del_key False kn c x -> refines (ODelKey kn) c x.
Proof.
  intros I H. unfold refines. cbn [spec_step]. unfold abs at 1. rewrite abs_s_key.
  apply out_del_key_cases in H. destruct (key_lookup kn (db c)) as [k|] eqn:L; cbn [obind]; [|subst x; auto].
  destruct H as [-> | [[] _]]. apply key_lookup_ok in L. destruct L as [Hk Nk].
  split; [reflexivity|]. exact (abs_delete_key (db c) (tpm c) (inv_wf _ I) k kn Hk Nk).
Qed.
Lemma del_cert_refines cn c x : inv c -> out_txn1 False (sql_delete_cert cn) (set_cache []) c x -> refines (ODelCert cn) c x.
Proof.
  intros I H. rewrite (out_txn1_nofault _ _ _ _ _ _ (fun f => f) eq_refl H). split; [reflexivity|].
  exact (abs_delete_cert (db c) (tpm c) (inv_wf _ I) cn).
Qed.

Section DelIdent.
  Variable n : name.
  (* the last step of s_remove_identity, once the keys are gone *)
  Definition finish_ident (a : skc) : skc := mkSKC (ndel (s_ids a) n) (clear_default (s_defid a) n) (s_tpm a).

  Lemma del_ident_refines i ks c x :
    at_loop n i ks c -> del_ident_out False n ks c x ->
    is_ok (fst x) = true /\ abs (snd x) = finish_ident (fold_left (fun a kn => s_remove_key kn a) ks (abs c)).
  Proof.
    intros A H. pattern ks, c, x. revert A H. apply del_ident_loop; cbn [fst snd fold_left].
    - intros c0 [I _]. split; [reflexivity|]. unfold finish_ident, abs, abs_tables.
      cbn [db tpm commit_db set_cache t_ids t_keys t_certs s_ids s_defid s_tpm]. f_equal.
      + apply (scope_map_delete_name (abs_ident (db c0))), I.
      + apply scope_defname_delete_name, I.
    - intros _ _ [].
    - intros k ks0 c0 kr e c' _ L Hout. discriminate (out_del_key_nofault _ _ _ _ _ (fun f => f) L Hout).
    - intros k ks0 c0 kr x0 [I _] L. pose proof (key_lookup_ok _ _ _ L) as [Hk Nk].
      change (abs (del_key_done kr k c0)) with (abs_tables (del_key_db kr k (db c0)) (ndel (tpm c0) k)).
      rewrite (abs_delete_key (db c0) (tpm c0) (inv_wf _ I) kr k Hk Nk). auto.
  Qed.
End DelIdent.

Theorem step_refines o c : inv c -> wf_op o -> refines o c (run_op None o c).
Proof.
  intros I Wo. pose proof (run_op_outs_none o c I) as H. pose proof (inv_wf _ I) as W.
  assert (NF : ~ False) by tauto.
  destruct (run_op None o c) as [r c'].
  destruct o as [n | n cs m v | idn kt ks m v | kn cn d | n | idn kn | idn kn cn | cn | kn | n | idn kn | idn kn cn | a |];
    unfold refines; cbn [outs spec_step fst snd] in *.
  - (* new_identity *)
    unfold out_new_identity in H. unfold abs at 1. rewrite abs_ident_get. rewrite kc_contains_get in H.
    destruct (kc_get n (db c)) as [i|e0]; cbn [is_ok] in H; [injection H as -> ->; auto|].
    destruct H as [[t1 [i [E [_ [= -> ->]]]]] | [[] _]]. split; [reflexivity|].
    exact (abs_insert_identity (db c) (tpm c) W t1 n E).
  - (* touch_identity *) apply (touch_refines _ _ _ _ _ _ _ I H).
  - (* new_key *) apply (new_key_op_refines _ _ _ _ _ _ _ _ I H).
  - (* import_cert *) apply (import_cert_refines _ _ _ _ _ _ I Wo H).
  - (* set_default_identity *)
    injection (out_txn1_nofault _ _ _ _ _ _ NF eq_refl H) as -> ->. split; [reflexivity|].
    exact (abs_default_identity (db c) (tpm c) W n).
  - (* Identity.set_default_key *)
    unfold abs at 1. rewrite abs_ident_get.
    destruct (kc_get idn (db c)) as [i|e]; cbn [obind guarded] in *; [|injection H as -> ->; auto].
    injection (out_txn1_nofault _ _ _ _ _ _ NF eq_refl H) as -> ->. split; [reflexivity|].
    exact (abs_default_key (db c) (tpm c) W kn).
  - (* Key.set_default_cert *)
    unfold abs at 1. rewrite abs_ident_get.
    destruct (kc_get idn (db c)) as [i|e]; cbn [obind guarded] in *; [|injection H as -> ->; auto].
    rewrite abs_key_get. destruct (id_get i kn (db c)) as [k|e]; cbn [obind guarded] in *; [|injection H as -> ->; auto].
    injection (out_txn1_nofault _ _ _ _ _ _ NF eq_refl H) as -> ->. split; [reflexivity|].
    exact (abs_default_cert (db c) (tpm c) W cn).
  - (* del_cert *) apply (del_cert_refines _ _ _ I H).
  - (* del_key *) apply (del_key_refines _ _ _ I H).
  - (* del_identity *)
    unfold abs at 1. rewrite abs_ident_get.
    destruct (out_del_identity_loop _ _ _ _ I H) as [[e [-> [= -> ->]]] | [i [ks [A D]]]]; cbn [obind]; [auto|].
    pose proof A as [_ [G <-]]. rewrite G. cbn [obind].
    destruct (del_ident_refines n i _ c _ A D) as [Hok Ha]. cbn [fst snd] in Hok, Ha. split; [assumption|].
    rewrite Ha. unfold s_remove_identity. unfold abs at 2. rewrite abs_ident_get, G. unfold finish_ident.
    unfold abs_ident. cbn [si_keys]. rewrite scope_map_names. reflexivity.
  - (* Identity.del_key *)
    unfold abs at 1. rewrite abs_ident_get.
    destruct (kc_get idn (db c)) as [i0|e]; cbn [obind guarded] in *; [|injection H as -> ->; auto].
    apply (del_key_refines _ _ _ I H).
  - (* Key.del_cert *)
    unfold abs at 1. rewrite abs_ident_get.
    destruct (kc_get idn (db c)) as [i|e]; cbn [obind guarded] in *; [|injection H as -> ->; auto].
    rewrite abs_key_get. destruct (id_get i kn (db c)) as [k|e]; cbn [obind guarded] in *; [|injection H as -> ->; auto].
    apply (del_cert_refines _ _ _ I H).
  - (* get_signer *)
    destruct (out_get_signer_cases _ _ _ _ H) as [[r' [= _ ->]] | [kn [loc [m [_ [= _ ->]]]]]]; reflexivity.
  - (* reopen *)
    injection H as -> ->. split; [reflexivity|]. unfold abs, do_reopen. cbn [db tpm]. rewrite (inv_clean _ I). reflexivity.
Qed.
