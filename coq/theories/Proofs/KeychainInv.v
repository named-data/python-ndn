(* Well-formedness of the three tables (unique row ids and names, at most one default per scope, valid
   references, NDN naming of keys and certificates), what the lookups of the model find in such tables
   ([key_owner], [key_lookup]), and its preservation by every SQL statement the keychain issues. *)
From NDN Require Import Base.Prelude Model.Keychain Proofs.KeychainTables.
Local Open Scope N_scope.

Definition refs_ok (ps cs : rows) : Prop := forall c, In c cs -> exists p, In p ps /\ r_id p = r_par c.
Definition named_under (ps cs : rows) : Prop :=
  forall c p, In c cs -> In p ps -> r_id p = r_par c -> drop2 (r_name c) = r_name p /\ (2 <= length (r_name c))%nat.

Record wf_tables (t : tables) : Prop := mkWfT {
  wf_i : wf_rows (t_ids t);
  wf_k : wf_rows (t_keys t);
  wf_c : wf_rows (t_certs t);
  wf_ipar : forall i, In i (t_ids t) -> r_par i = 0;
  wf_kref : refs_ok (t_ids t) (t_keys t);
  wf_cref : refs_ok (t_keys t) (t_certs t);
  wf_kname : named_under (t_ids t) (t_keys t);
  wf_cname : named_under (t_keys t) (t_certs t)
}.

Lemma wf_empty : wf_tables empty_tables.
Proof.
  constructor; cbn; try apply wf_rows_nil.
  - intros i [].
  - intros c [].
  - intros c [].
  - intros c p [].
  - intros c p [].
Qed.

(* same rows up to the default flags *)
Definition row_sim (x y : row) : Prop := r_id x = r_id y /\ r_par x = r_par y /\ r_name x = r_name y /\ r_val x = r_val y.
Definition rows_sim (l l' : rows) : Prop :=
  (forall y, In y l' -> exists x, In x l /\ row_sim x y) /\ (forall x, In x l -> exists y, In y l' /\ row_sim x y).
Lemma rows_sim_map (u : row -> row) l : (forall x, row_sim x (u x)) -> rows_sim l (map u l).
Proof.
  intros Hu. split.
  - intros y Hy. apply in_map_iff in Hy. destruct Hy as [x [<- Hx]]. eauto.
  - intros x Hx. exists (u x). split; [apply in_map; assumption | apply Hu].
Qed.
Lemma rows_sim_refl l : rows_sim l l.
Proof. split; intros x H; exists x; unfold row_sim; auto. Qed.
Lemma upd_default_sim r x : row_sim x (upd_default r x).
Proof. unfold row_sim, upd_default. destruct (_ =? _); [cbn; auto|]. destruct (in_scope _ _); cbn; auto. Qed.
Lemma r_set_default_sim n l : rows_sim l (r_set_default n l).
Proof.
  destruct (r_set_default_cases n l) as [-> | [r [_ [_ ->]]]]; [apply rows_sim_refl | apply rows_sim_map, upd_default_sim].
Qed.

Lemma refs_ok_sim ps ps' cs cs' : rows_sim ps ps' -> rows_sim cs cs' -> refs_ok ps cs -> refs_ok ps' cs'.
Proof.
  intros [_ P] [C _] R c' Hc'. destruct (C _ Hc') as [c [Hc [_ [Ec _]]]].
  destruct (R _ Hc) as [p [Hp Ep]]. destruct (P _ Hp) as [p' [Hp' [Ei _]]]. exists p'. split; [assumption|]. congruence.
Qed.
Lemma named_under_sim ps ps' cs cs' : rows_sim ps ps' -> rows_sim cs cs' -> named_under ps cs -> named_under ps' cs'.
Proof.
  intros [P _] [C _] R c' p' Hc' Hp' E.
  destruct (C _ Hc') as [c [Hc [_ [Ec [Nc _]]]]]. destruct (P _ Hp') as [p [Hp [Ei [_ [Np _]]]]].
  rewrite <- Nc, <- Np. apply R; auto. congruence.
Qed.

Lemma kc_get_ok t n i : kc_get n t = Ok i -> In i (t_ids t) /\ r_name i = n.
Proof. unfold kc_get. intros H. apply v_get_ok in H. tauto. Qed.
Lemma kc_get_in t n i : wf_tables t -> In i (t_ids t) -> r_name i = n -> kc_get n t = Ok i.
Proof. intros W Hi E. unfold kc_get. apply v_get_in; auto. apply W. apply (wf_ipar _ W). assumption. Qed.
Lemma id_get_ok t i n k : id_get i n t = Ok k -> In k (t_keys t) /\ r_name k = n /\ r_par k = r_id i.
Proof. apply v_get_ok. Qed.
Lemma id_get_in t i n k : wf_tables t -> In k (t_keys t) -> r_name k = n -> r_par k = r_id i -> id_get i n t = Ok k.
Proof. intros W. apply v_get_in. apply W. Qed.
Lemma key_get_ok t k n c : key_get k n t = Ok c -> In c (t_certs t) /\ r_name c = n /\ r_par c = r_id k.
Proof. apply v_get_ok. Qed.
Lemma key_get_in t k n c : wf_tables t -> In c (t_certs t) -> r_name c = n -> r_par c = r_id k -> key_get k n t = Ok c.
Proof. intros W. apply v_get_in. apply W. Qed.

Lemma kc_contains_get n t : kc_contains n t = is_ok (kc_get n t).
Proof. reflexivity. Qed.
Lemma kc_contains_true n t : kc_contains n t = true -> exists i, kc_get n t = Ok i.
Proof. rewrite kc_contains_get. destruct (kc_get n t); [eauto | discriminate]. Qed.
Lemma kc_contains_spec t n : wf_tables t -> kc_contains n t = true <-> In n (map r_name (t_ids t)).
Proof.
  intros W. unfold kc_contains. rewrite v_contains_iter, v_iter_in. split.
  - intros [r [H1 [H2 _]]]. subst. apply in_map. assumption.
  - intros H. apply in_map_iff in H. destruct H as [r [E Hr]]. exists r. repeat split; auto. apply (wf_ipar _ W). assumption.
Qed.

Lemma key_owner t k :
  wf_tables t -> In k (t_keys t) ->
  exists i, In i (t_ids t) /\ r_id i = r_par k /\ r_name i = drop2 (r_name k) /\
            kc_get (drop2 (r_name k)) t = Ok i /\ id_get i (r_name k) t = Ok k.
Proof.
  intros W Hk. destruct (wf_kref _ W _ Hk) as [i [Hi Ei]]. destruct (wf_kname _ W _ _ Hk Hi Ei) as [Dn _].
  exists i. repeat split; auto.
  - rewrite Dn. apply kc_get_in; auto.
  - apply id_get_in; auto.
Qed.
Lemma cert_owner t c :
  wf_tables t -> In c (t_certs t) ->
  exists k, In k (t_keys t) /\ r_id k = r_par c /\ r_name k = drop2 (r_name c) /\ key_get k (r_name c) t = Ok c.
Proof.
  intros W Hc. destruct (wf_cref _ W _ Hc) as [k [Hk Ek]]. destruct (wf_cname _ W _ _ Hc Hk Ek) as [Dn _].
  exists k. repeat split; auto. apply key_get_in; auto.
Qed.
(* del_key's two lookups in one: the row of the key called kn, found through the identity its name says *)
Definition key_lookup (kn : name) (t : tables) : res row := do i <- kc_get (drop2 kn) t ;; id_get i kn t.
Lemma key_lookup_ok kn t k : key_lookup kn t = Ok k -> In k (t_keys t) /\ r_name k = kn.
Proof.
  unfold key_lookup. destruct (kc_get (drop2 kn) t) as [i|]; [|discriminate]. cbn. intros G. apply id_get_ok in G. tauto.
Qed.
Lemma key_lookup_in t k : wf_tables t -> In k (t_keys t) -> key_lookup (r_name k) t = Ok k.
Proof. intros W Hk. destruct (key_owner _ _ W Hk) as [i [_ [_ [_ [G Gk]]]]]. unfold key_lookup. rewrite G. exact Gk. Qed.
Lemma listed_key_lookup t p kn : wf_tables t -> In kn (v_iter p (t_keys t)) -> exists k, key_lookup kn t = Ok k.
Proof. intros W Hin. apply v_iter_in in Hin. destruct Hin as [k [Hk [<- _]]]. exists k. apply key_lookup_in; assumption. Qed.
Lemma key_lookup_none kn t : ~ In kn (map r_name (t_keys t)) -> is_ok (key_lookup kn t) = false.
Proof.
  intros N. destruct (key_lookup kn t) as [k|] eqn:L; [|reflexivity]. apply key_lookup_ok in L.
  exfalso. apply N. destruct L as [Hk <-]. apply in_map. assumption.
Qed.

Lemma sql_insert_identity_ok n t t' :
  sql_insert_identity n t = Ok t' -> exists l, r_insert 0 n 0 (t_ids t) = Ok l /\ t' = mkT l (t_keys t) (t_certs t).
Proof. unfold sql_insert_identity. destruct (r_insert 0 n 0 (t_ids t)) as [l|]; [|discriminate]. intros [= <-]. eauto. Qed.
Lemma sql_insert_key_ok p kn m t t' :
  sql_insert_key p kn m t = Ok t' -> exists l, r_insert p kn m (t_keys t) = Ok l /\ t' = mkT (t_ids t) l (t_certs t).
Proof. unfold sql_insert_key. destruct (r_insert p kn m (t_keys t)) as [l|]; [|discriminate]. intros [= <-]. eauto. Qed.
Lemma sql_insert_cert_ok kn cn d t t' :
  sql_insert_cert kn cn d t = Ok t' ->
  exists k l, r_find kn (t_keys t) = Some k /\ r_insert (r_id k) cn d (t_certs t) = Ok l /\ t' = mkT (t_ids t) (t_keys t) l.
Proof.
  unfold sql_insert_cert. destruct (r_find kn (t_keys t)) as [k|]; [|discriminate].
  destruct (r_insert (r_id k) cn d (t_certs t)) as [l|] eqn:E; [|discriminate]. intros [= <-]. eauto.
Qed.

Lemma wf_insert_identity n t t' : wf_tables t -> sql_insert_identity n t = Ok t' -> wf_tables t'.
Proof.
  intros W H. apply sql_insert_identity_ok in H. destruct H as [l [E ->]].
  pose proof (r_insert_new _ _ _ _ _ E) as [x [Hx [Nx [Px [_ [Ix Hall]]]]]].
  pose proof W as [Wi Wk Wc Wp Rk Rc Uk Uc]. constructor; cbn; auto.
  - eapply r_insert_wf; [|eassumption]; apply W.
  - intros i Hi. destruct (Hall _ Hi) as [Hi' | ->]; [apply Wp; assumption | assumption].
  - intros c Hc. destruct (Rk _ Hc) as [p [Hp Ep]]. exists p. split; [eapply r_insert_in; eassumption | assumption].
  - intros c p Hc Hp Ep. destruct (Hall _ Hp) as [Hp' | ->]; [apply Uk; assumption|].
    exfalso. destruct (Rk _ Hc) as [p0 [Hp0 Ep0]]. apply (next_id_fresh_row _ _ Hp0). congruence.
Qed.
Lemma insert_identity_has_default n t t1 : sql_insert_identity n t = Ok t1 -> scope_has_def 0 (t_ids t1) = true.
Proof. intros E. apply sql_insert_identity_ok in E. destruct E as [l [R ->]]. eapply r_insert_has_default; eassumption. Qed.
Lemma insert_identity_keys n t t1 : sql_insert_identity n t = Ok t1 -> t_keys t1 = t_keys t.
Proof. intros E. apply sql_insert_identity_ok in E. destruct E as [l [_ ->]]. reflexivity. Qed.
Lemma insert_identity_get n t t1 : wf_tables t -> sql_insert_identity n t = Ok t1 -> exists i, kc_get n t1 = Ok i.
Proof.
  intros W E. pose proof (wf_insert_identity _ _ _ W E) as W1.
  apply sql_insert_identity_ok in E. destruct E as [l [R ->]].
  destruct (r_insert_new _ _ _ _ _ R) as [x [Hx [Nx _]]]. exists x. apply kc_get_in; auto.
Qed.
Lemma insert_identity_absent n t :
  wf_tables t -> kc_contains n t = false -> exists t1, sql_insert_identity n t = Ok t1.
Proof.
  intros W C. unfold sql_insert_identity. destruct (r_insert 0 n 0 (t_ids t)) as [l|e] eqn:R; cbn; [eauto|].
  apply r_insert_err in R. destruct R as [_ Hin]. apply (kc_contains_spec _ _ W) in Hin. congruence.
Qed.

Lemma wf_tables_sim t t' :
  wf_tables t -> rows_sim (t_ids t) (t_ids t') -> rows_sim (t_keys t) (t_keys t') -> rows_sim (t_certs t) (t_certs t') ->
  wf_rows (t_ids t') -> wf_rows (t_keys t') -> wf_rows (t_certs t') -> wf_tables t'.
Proof.
  intros W Si Sk Sc Wi Wk Wc. constructor; auto.
  - intros i Hi. destruct (proj1 Si _ Hi) as [x [Hx [_ [Ep _]]]]. rewrite <- Ep. apply (wf_ipar _ W). assumption.
  - eapply refs_ok_sim; [exact Si | exact Sk | apply W].
  - eapply refs_ok_sim; [exact Sk | exact Sc | apply W].
  - eapply named_under_sim; [exact Si | exact Sk | apply W].
  - eapply named_under_sim; [exact Sk | exact Sc | apply W].
Qed.
Lemma wf_default_identity n t t' : wf_tables t -> sql_default_identity n t = Ok t' -> wf_tables t'.
Proof.
  intros W [= <-]. apply (wf_tables_sim t _ W); cbn; try apply rows_sim_refl; try apply W;
    [apply r_set_default_sim | apply r_set_default_wf, W].
Qed.
Lemma wf_default_key n t t' : wf_tables t -> sql_default_key n t = Ok t' -> wf_tables t'.
Proof.
  intros W [= <-]. apply (wf_tables_sim t _ W); cbn; try apply rows_sim_refl; try apply W;
    [apply r_set_default_sim | apply r_set_default_wf, W].
Qed.
Lemma wf_default_cert n t t' : wf_tables t -> sql_default_cert n t = Ok t' -> wf_tables t'.
Proof.
  intros W [= <-]. apply (wf_tables_sim t _ W); cbn; try apply rows_sim_refl; try apply W;
    [apply r_set_default_sim | apply r_set_default_wf, W].
Qed.
Lemma default_identity_get n t t' :
  wf_tables t -> kc_contains n t = true -> sql_default_identity n t = Ok t' -> exists i, kc_get n t' = Ok i.
Proof.
  intros W C E. pose proof (wf_default_identity _ _ _ W E) as W'. apply kc_contains_true.
  apply (kc_contains_spec _ _ W'). apply (kc_contains_spec _ _ W) in C.
  inversion E; subst. cbn. rewrite r_set_default_names. assumption.
Qed.

Lemma wf_insert_key i kn bits t t' :
  wf_tables t -> In i (t_ids t) -> drop2 kn = r_name i -> (2 <= length kn)%nat ->
  sql_insert_key (r_id i) kn bits t = Ok t' -> wf_tables t'.
Proof.
  intros W Hi Dn Ln H. apply sql_insert_key_ok in H. destruct H as [l [E ->]].
  pose proof (r_insert_new _ _ _ _ _ E) as [x [Hx [Nx [Px [_ [Ix Hall]]]]]].
  pose proof W as [Wi Wk Wc Wp Rk Rc Uk Uc]. constructor; cbn; auto.
  - eapply r_insert_wf; [|eassumption]; apply W.
  - intros c Hc. destruct (Hall _ Hc) as [Hc' | ->]; [apply Rk; assumption|]. exists i. auto.
  - intros c Hc. destruct (Rc _ Hc) as [p [Hp Ep]]. exists p. split; [eapply r_insert_in; eassumption | assumption].
  - intros c p Hc Hp Ep. destruct (Hall _ Hc) as [Hc' | ->]; [apply Uk; assumption|].
    assert (p = i) by (eapply id_inj; [apply W | assumption | assumption | congruence]). subst p.
    rewrite Nx. auto.
  - intros c p Hc Hp Ep. destruct (Hall _ Hp) as [Hp' | ->]; [apply Uc; assumption|].
    exfalso. destruct (Rc _ Hc) as [p0 [Hp0 Ep0]]. apply (next_id_fresh_row _ _ Hp0). congruence.
Qed.

Lemma wf_insert_cert kn cn d t t' :
  wf_tables t -> drop2 cn = kn -> (2 <= length cn)%nat -> sql_insert_cert kn cn d t = Ok t' -> wf_tables t'.
Proof.
  intros W Dn Ln H. apply sql_insert_cert_ok in H. destruct H as [k [l [F [E ->]]]].
  apply r_find_some in F. destruct F as [Hk Nk].
  pose proof (r_insert_new _ _ _ _ _ E) as [x [Hx [Nx [Px [_ [Ix Hall]]]]]].
  pose proof W as [Wi Wk Wc Wp Rk Rc Uk Uc]. constructor; cbn; auto.
  - eapply r_insert_wf; [|eassumption]; apply W.
  - intros c Hc. destruct (Hall _ Hc) as [Hc' | ->]; [apply Rc; assumption|]. exists k. auto.
  - intros c p Hc Hp Ep. destruct (Hall _ Hc) as [Hc' | ->]; [apply Uc; assumption|].
    assert (p = k) by (apply (id_inj _ _ _ Wk); auto; congruence). subst p.
    rewrite Nx. split; [congruence | assumption].
Qed.

Lemma wf_delete_certs (f : row -> bool) t : wf_tables t -> wf_tables (mkT (t_ids t) (t_keys t) (filter f (t_certs t))).
Proof.
  intros W. pose proof W as [Wi Wk Wc Wp Rk Rc Uk Uc]. constructor; cbn; auto.
  - apply filter_wf. apply W.
  - intros c Hc. apply filter_In in Hc. apply Rc. tauto.
  - intros c p Hc. apply filter_In in Hc. apply Uc. tauto.
Qed.
Lemma wf_delete_cert n t t' : wf_tables t -> sql_delete_cert n t = Ok t' -> wf_tables t'.
Proof. intros W H. inversion H. apply wf_delete_certs. assumption. Qed.
Lemma wf_delete_certs_of kid t t' : wf_tables t -> sql_delete_certs_of kid t = Ok t' -> wf_tables t'.
Proof. intros W H. inversion H. apply wf_delete_certs. assumption. Qed.

Lemma wf_delete_key kn t t' :
  wf_tables t ->
  (forall k c, In k (t_keys t) -> r_name k = kn -> In c (t_certs t) -> r_par c <> r_id k) ->
  sql_delete_key kn t = Ok t' -> wf_tables t'.
Proof.
  intros W NC H. inversion H; subst; clear H. pose proof W as [Wi Wk Wc Wp Rk Rc Uk Uc]. constructor; cbn; auto.
  - apply filter_wf. apply W.
  - intros c Hc. apply r_delete_name_in in Hc. apply Rk. tauto.
  - intros c Hc. destruct (Rc _ Hc) as [p [Hp Ep]]. exists p. split; [|assumption].
    apply r_delete_name_in. split; [assumption|]. intros En. apply (NC p c); auto.
  - intros c p Hc. apply r_delete_name_in in Hc. apply Uk. tauto.
  - intros c p Hc Hp. apply r_delete_name_in in Hp. apply Uc; tauto.
Qed.
Lemma wf_delete_identity n t t' :
  wf_tables t ->
  (forall i k, In i (t_ids t) -> r_name i = n -> In k (t_keys t) -> r_par k <> r_id i) ->
  sql_delete_identity n t = Ok t' -> wf_tables t'.
Proof.
  intros W NC H. inversion H; subst; clear H. pose proof W as [Wi Wk Wc Wp Rk Rc Uk Uc]. constructor; cbn; auto.
  - apply filter_wf. apply W.
  - intros i Hi. apply r_delete_name_in in Hi. apply Wp. tauto.
  - intros c Hc. destruct (Rk _ Hc) as [p [Hp Ep]]. exists p. split; [|assumption].
    apply r_delete_name_in. split; [assumption|]. intros En. apply (NC p c); auto.
  - intros c p Hc Hp. apply r_delete_name_in in Hp. apply Uk; tauto.
Qed.
