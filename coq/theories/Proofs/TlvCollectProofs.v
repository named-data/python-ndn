(* Proofs about the field collection of TlvModelMeta (Model/TlvCollect.v) against Spec/TlvCollectSpec.v. *)
From NDN Require Import Base.Prelude Model.TlvCollect Spec.TlvCollectSpec Proofs.ListLemmas.
Local Open Scope N_scope.

Section Proofs.
  Context {A : Type}.
  Notation get := (al_get (V:=A) N.eqb).
  Implicit Types (l acc : list (N * A)) (ks : list N).

  Definition add_new ks (n : N) : list N := if existsb (N.eqb n) ks then ks else ks ++ [n].
  Definition notin ks : N -> bool := fun y => negb (existsb (N.eqb y) ks).

  Lemma names_al_set acc n a : map fst (al_set N.eqb acc n a) = add_new (map fst acc) n.
  Proof.
    unfold add_new. induction acc as [|[k v] r IH]; cbn; [reflexivity|].
    destruct (n =? k); cbn; [reflexivity|].
    rewrite IH. destruct (existsb (N.eqb n) (map fst r)); reflexivity.
  Qed.

  Lemma filter_notin_add ks a L : filter (notin (add_new ks a)) L = filter (notin ks) (drop a L).
  Proof.
    unfold drop. induction L as [|y L IH]; cbn [filter]; [reflexivity|]. rewrite IH.
    replace (notin (add_new ks a) y) with (negb (y =? a) && notin ks y); [destruct (negb (y =? a)); reflexivity|].
    unfold notin, add_new. destruct (existsb (N.eqb a) ks) eqn:E.
    - destruct (N.eqb_spec y a) as [->|]; [rewrite E|]; reflexivity.
    - rewrite existsb_app. cbn. rewrite orb_false_r, negb_orb. apply andb_comm.
  Qed.

  Lemma names_put_all l : forall acc,
    map fst (put_all l acc) = map fst acc ++ filter (notin (map fst acc)) (firsts (map fst l)).
  Proof.
    induction l as [|[k v] r IH]; intros acc; cbn [put_all fold_left map fst firsts filter]; [now rewrite app_nil_r|].
    unfold put_all in IH. rewrite IH. unfold put. cbn [fst snd]. rewrite names_al_set, filter_notin_add.
    unfold add_new, notin. destruct (existsb (N.eqb k) (map fst acc)); cbn [negb]; [|rewrite <- app_assoc]; reflexivity.
  Qed.

  Lemma filter_notin_nil (L : list N) : filter (notin []) L = L.
  Proof. induction L; cbn; congruence. Qed.

  Lemma names_put_all_nil l : map fst (put_all l []) = firsts (map fst l).
  Proof. rewrite names_put_all. apply filter_notin_nil. Qed.

  Lemma drop_In x y L : In y (drop x L) <-> In y L /\ y <> x.
  Proof.
    unfold drop. rewrite filter_In. split; intros [H1 H2]; split; auto.
    - intros ->. now rewrite N.eqb_refl in H2.
    - apply N.eqb_neq in H2. now rewrite H2.
  Qed.

  Lemma firsts_In y (L : list N) : In y (firsts L) <-> In y L.
  Proof.
    induction L as [|x L IH]; cbn; [tauto|].
    rewrite drop_In, IH. destruct (N.eq_dec x y); intuition congruence.
  Qed.

  Lemma firsts_nodup (L : list N) : NoDup (firsts L).
  Proof.
    induction L as [|x L IH]; cbn; constructor.
    - rewrite drop_In. intros [_ H]; congruence.
    - now apply NoDup_filter.
  Qed.

  Lemma drop_notin x (L : list N) : ~ In x L -> drop x L = L.
  Proof.
    unfold drop. induction L as [|y L IH]; cbn; intros H; [reflexivity|].
    destruct (y =? x) eqn:E.
    - apply N.eqb_eq in E. tauto.
    - cbn. f_equal. tauto.
  Qed.

  Lemma firsts_id (L : list N) : NoDup L -> firsts L = L.
  Proof.
    induction 1 as [|x L Hx Hn IH]; cbn; [reflexivity|]. rewrite IH. f_equal. now apply drop_notin.
  Qed.

  Lemma names_put_all_nodup l acc : NoDup (map fst acc) -> NoDup (map fst (put_all l acc)).
  Proof.
    revert acc. induction l as [|p l IH]; intros acc H; [exact H|]. apply IH, (al_set_nodup N.eqb N.eqb_eq), H.
  Qed.

  Lemma get_al_set acc n a m : get (al_set N.eqb acc n a) m = if m =? n then Some a else get acc m.
  Proof. apply (al_get_set N.eqb N.eqb_eq). Qed.

  Lemma get_put_all l acc m :
    get (put_all l acc) m = match last_def m l with Some a => Some a | None => get acc m end.
  Proof.
    revert acc; induction l as [|[k v] r IH]; intros acc; cbn; [reflexivity|].
    unfold put_all in IH. rewrite IH. destruct (last_def m r); [reflexivity|].
    unfold put; cbn. rewrite get_al_set. destruct (m =? k); reflexivity.
  Qed.

  Lemma get_none l m : ~ In m (map fst l) -> get l m = None.
  Proof. apply (al_get_none N.eqb N.eqb_eq). Qed.

  Lemma last_def_nodup l m : NoDup (map fst l) -> last_def m l = get l m.
  Proof.
    induction l as [|[k v] r IH]; cbn; intros H; [reflexivity|].
    inversion H as [|? ? Hk Hr]; subst. rewrite (IH Hr).
    destruct (m =? k) eqn:E.
    - apply N.eqb_eq in E; subst m. now rewrite (get_none r k Hk).
    - destruct (get r m); reflexivity.
  Qed.

  Lemma alist_ext l1 l2 :
    NoDup (map fst l1) -> map fst l1 = map fst l2 -> (forall n, get l1 n = get l2 n) -> l1 = l2.
  Proof.
    revert l2; induction l1 as [|[k v] r IH]; intros [|[k2 v2] r2]; cbn; intros Hn Hm Hg;
      try discriminate; [reflexivity|].
    injection Hm as -> Hm. inversion Hn as [|? ? Hk Hr]; subst.
    pose proof (Hg k2) as H0. rewrite N.eqb_refl in H0. injection H0 as ->.
    f_equal. apply IH; auto.
    intros n. specialize (Hg n). destruct (n =? k2) eqn:E; [|exact Hg].
    apply N.eqb_eq in E; subst n. rewrite (get_none r k2 Hk). symmetry. apply get_none. now rewrite <- Hm.
  Qed.

  (* including the collected list of a base = pasting the base's declarations *)
  Lemma put_all_canon l acc : NoDup (map fst acc) -> put_all (put_all l []) acc = put_all l acc.
  Proof.
    intros Hacc. apply alist_ext.
    - now apply names_put_all_nodup.
    - rewrite !names_put_all. cbn [map app]. rewrite filter_notin_nil, (firsts_id _ (firsts_nodup _)). reflexivity.
    - intros n. rewrite !get_put_all.
      rewrite last_def_nodup by (apply names_put_all_nodup; constructor).
      rewrite get_put_all. cbn. destruct (last_def n l); reflexivity.
  Qed.

  Lemma collect_into_pasted (b : body A) : forall acc,
    NoDup (map fst acc) -> collect_into b acc = put_all (pasted b) acc.
  Proof.
    induction b as [|n a r IHr|base IHb r IHr]; intros acc Hacc; cbn.
    - reflexivity.
    - rewrite IHr; [reflexivity|]. apply (al_set_nodup N.eqb N.eqb_eq), Hacc.
    - rewrite (IHb []) by constructor. rewrite put_all_canon by assumption.
      rewrite IHr by now apply names_put_all_nodup.
      unfold put_all. now rewrite fold_left_app.
  Qed.

  Theorem collect_is_pasting (b : body A) : collect b = put_all (pasted b) [].
  Proof. apply collect_into_pasted. constructor. Qed.

  Theorem collect_meets_spec (b : body A) : collected_ok (pasted b) (collect b).
  Proof.
    rewrite collect_is_pasting. split.
    - apply names_put_all_nil.
    - intros n. rewrite get_put_all. cbn. destruct (last_def n (pasted b)); reflexivity.
  Qed.

  Theorem collect_names_distinct (b : body A) : NoDup (map fst (collect b)).
  Proof. rewrite (proj1 (collect_meets_spec b)). apply firsts_nodup. Qed.

  Theorem collect_names_complete (b : body A) n :
    In n (map fst (collect b)) <-> In n (map fst (pasted b)).
  Proof. rewrite (proj1 (collect_meets_spec b)). apply firsts_In. Qed.

  Theorem collected_ok_unique l got1 got2 : collected_ok l got1 -> collected_ok l got2 -> got1 = got2.
  Proof.
    intros [N1 G1] [N2 G2]. apply alist_ext.
    - rewrite N1. apply firsts_nodup.
    - congruence.
    - intros n. now rewrite G1, G2.
  Qed.
End Proofs.
