(* C16: what new_cert produces is one well-formed Data element whose value is the generic encoding of the
   certificate fields under the reflected descriptor CertificateV2Value; the decoder returns those fields; the
   signer is handed Name..SignatureInfo (data_covered of SignedPortionProofs.v on the slots of this descriptor).  Same architecture as
   Proofs/PacketRoundtrip.v, plus the hand-written outer TLV of new_cert. *)
From NDN Require Import Base.Prelude Model.TlvVar Model.Name Model.Tlv Model.Packet Model.PacketEnc Model.Cert
  Spec.TlvWf Spec.SignedPortion Spec.CertSpec Generated.Schemas Generated.ConstsCert
  Proofs.BytesLemmas Proofs.TlvVarProofs Proofs.NameWire Proofs.TlvSplit Proofs.TlvRoundtrip
  Proofs.TlvRoundtrip2 Proofs.TlvAssign Proofs.SignerSizes Proofs.PacketRoundtrip Proofs.SignedPortionProofs.
Local Open Scope N_scope.

Notation cfs := security_v2_CertificateV2Value.

Lemma assemble_outer_cut v pad :
  assemble_outer (v ++ pad) (length pad) = (do l <- tl_enc_r (N.of_nat (length v)) ;; Ok (tl_enc TN_DATA ++ l ++ v)).
Proof. unfold assemble_outer. rewrite app_length, Nat.add_sub, firstn_app_exact. reflexivity. Qed.

Lemma assemble_outer_ok v pad :
  N.of_nat (length v) < two64 -> assemble_outer (v ++ pad) (length pad) = Ok (tlv TYPE_DATA v).
Proof. intros Hl. rewrite assemble_outer_cut, tl_enc_r_ok by exact Hl. reflexivity. Qed.

Lemma assemble_outer_tlv v pad k w :
  length pad = k ->
  assemble_outer (v ++ pad) k = Ok w -> w = tlv TYPE_DATA v /\ N.of_nat (length v) < two64.
Proof.
  intros <-. rewrite assemble_outer_cut. intros H. apply bind_ok in H as (l & El & H). apply tl_enc_r_inv in El as [-> Hl].
  apply Ok_inj in H. split; [symmetry; exact H|exact Hl].
Qed.

Lemma sigvalue_buffer_split reserved sv :
  check_sig_len reserved sv = Ok tt ->
  sigvalue_buffer reserved sv =
    (tl_enc T_SIG_VALUE ++ tl_enc (N.of_nat (length sv)) ++ sv) ++ repeat 0 (N.to_nat (reserved - N.of_nat (length sv))).
Proof.
  intros [Hle Hfull]%check_sig_len_ok. unfold sigvalue_buffer. rewrite <- !app_assoc.
  destruct (N.eqb_spec (N.of_nat (length sv)) reserved) as [->|E]; [reflexivity|].
  rewrite (tl_enc_small (N.of_nat (length sv))) by lia. reflexivity.
Qed.

Lemma unused_length reserved (sv : bytes) :
  length (repeat 0 (N.to_nat (reserved - N.of_nat (length sv)))) = N.to_nat (reserved - N.of_nat (length sv)).
Proof. apply repeat_length. Qed.

Lemma kind_sigvalue : kind_of cfs T_SIG_VALUE = Some (KBytes false).
Proof. reflexivity. Qed.

Section Cert.
Variable sign : bytes -> bytes.

Definition written_of (a : cert_in) : list value :=
  match c_signer a with Some s => sg_written s | None => unwritten end.

Lemma signed_value_spec sg covered v k :
  signed_value sign cfs sg covered = Ok (v, k) ->
  exists sv sigel pad,
    v = (covered ++ sigel) ++ pad /\ length pad = k /\ enc_by cfs T_SIG_VALUE (vbytes sv) = Ok sigel /\
    match sg with
    | Some s => sv = Some (sign covered) /\ check_sig_len (sg_reserved s) (sign covered) = Ok tt
    | None => sv = None
    end.
Proof.
  unfold signed_value. destruct sg as [s|].
  - rewrite kind_sigvalue. intros H. apply bind_ok in H as ([] & Ec & H).
    rewrite (sigvalue_buffer_split _ _ Ec) in H. apply Ok_inj, pair_equal_spec in H. destruct H as [<- <-].
    exists (Some (sign covered)). eexists. eexists.
    split; [apply app_assoc|]. split; [apply repeat_length|]. split; [reflexivity|]. split; [reflexivity|exact Ec].
  - intros H. injection H as <- <-. exists None, [], [].
    split; [rewrite !app_nil_r; reflexivity|]. split; [reflexivity|]. split; reflexivity.
Qed.

Record cert_parts := {
  p_name : list bytes; p_t0 : bdt; p_t1 : bdt; p_nb : bytes; p_na : bytes;
  p_meta : bytes; p_content : bytes; p_info : bytes; p_sigel : bytes; p_sv : option bytes }.

Definition parts_of (a : cert_in) (m : made) (p : cert_parts) : Prop :=
  cert_name a = Ok (p_name p) /\ to_utc (c_start a) = Ok (p_t0 p) /\ to_utc (c_end a) = Ok (p_t1 p) /\
  strftime not_before_format (p_t0 p) = Ok (p_nb p) /\ strftime not_after_format (p_t1 p) = Ok (p_na p) /\
  enc_by cfs T_META_INFO cert_meta = Ok (p_meta p) /\
  enc_by cfs T_CONTENT (VBytes (c_pub a)) = Ok (p_content p) /\
  enc_by cfs T_SIG_INFO (cert_siginfo (written_of a) (p_nb p) (p_na p)) = Ok (p_info p) /\
  enc_by cfs T_SIG_VALUE (vbytes (p_sv p)) = Ok (p_sigel p) /\
  m_final_name m = p_name p /\
  m_sig_covered m = name_encode (p_name p) ++ p_meta p ++ p_content p ++ p_info p /\
  m_wire m = tlv TYPE_DATA (m_sig_covered m ++ p_sigel p) /\
  N.of_nat (length (m_sig_covered m ++ p_sigel p)) < two64 /\
  (match c_signer a with Some _ => p_sv p = Some (sign (m_sig_covered m)) | None => p_sv p = None end).

Lemma new_cert_parts a m : new_cert sign a = Ok m ->
  exists p, parts_of a m p /\
            forall s, c_signer a = Some s -> check_sig_len (sg_reserved s) (sign (m_sig_covered m)) = Ok tt.
Proof.
  unfold new_cert. intros H.
  apply bind_ok in H as (name & En & H). apply bind_ok in H as (t0 & E0 & H). apply bind_ok in H as (t1 & E1 & H).
  apply bind_ok in H as (nb & Eb & H). apply bind_ok in H as (na & Ea & H). fold (written_of a) in H.
  apply bind_ok in H as (s_meta & F1 & H). apply bind_ok in H as (s_content & F2 & H).
  apply bind_ok in H as (s_info & F3 & H). apply bind_ok in H as ([v k] & Ev & H). apply bind_ok in H as (w & Ew & H).
  destruct (signed_value_spec _ _ _ _ Ev) as (sv & sigel & pad & -> & Hk & F4 & Hsv).
  apply assemble_outer_tlv in Ew; [|exact Hk]. destruct Ew as [-> Hl]. apply Ok_inj in H. subst m.
  exists {| p_name := name; p_t0 := t0; p_t1 := t1; p_nb := nb; p_na := na; p_meta := s_meta; p_content := s_content;
            p_info := s_info; p_sigel := sigel; p_sv := sv |}.
  split.
  - refine (conj En (conj E0 (conj E1 (conj Eb (conj Ea (conj F1 (conj F2 (conj F3 (conj F4
             (conj eq_refl (conj eq_refl (conj eq_refl (conj Hl _))))))))))))).
    cbn [p_sv m_sig_covered]. destruct (c_signer a); [exact (proj1 Hsv)|exact Hsv].
  - intros s Es. rewrite Es in Hsv. exact (proj2 Hsv).
Qed.

Lemma parts_name {a m p} : parts_of a m p -> cert_name a = Ok (p_name p).
Proof. intros H. apply H. Qed.
Lemma parts_start {a m p} : parts_of a m p -> to_utc (c_start a) = Ok (p_t0 p).
Proof. intros H. apply H. Qed.
Lemma parts_end {a m p} : parts_of a m p -> to_utc (c_end a) = Ok (p_t1 p).
Proof. intros H. apply H. Qed.
Lemma parts_not_before {a m p} : parts_of a m p -> strftime not_before_format (p_t0 p) = Ok (p_nb p).
Proof. intros H. apply H. Qed.
Lemma parts_not_after {a m p} : parts_of a m p -> strftime not_after_format (p_t1 p) = Ok (p_na p).
Proof. intros H. apply H. Qed.
Lemma parts_meta {a m p} : parts_of a m p -> enc_by cfs T_META_INFO cert_meta = Ok (p_meta p).
Proof. intros H. apply H. Qed.
Lemma parts_content {a m p} : parts_of a m p -> enc_by cfs T_CONTENT (VBytes (c_pub a)) = Ok (p_content p).
Proof. intros H. apply H. Qed.
Lemma parts_info {a m p} : parts_of a m p ->
  enc_by cfs T_SIG_INFO (cert_siginfo (written_of a) (p_nb p) (p_na p)) = Ok (p_info p).
Proof. intros H. apply H. Qed.
Lemma parts_sigel {a m p} : parts_of a m p -> enc_by cfs T_SIG_VALUE (vbytes (p_sv p)) = Ok (p_sigel p).
Proof. intros H. apply H. Qed.
Lemma parts_final_name {a m p} : parts_of a m p -> m_final_name m = p_name p.
Proof. intros H. apply H. Qed.
Lemma parts_covered {a m p} : parts_of a m p ->
  m_sig_covered m = name_encode (p_name p) ++ p_meta p ++ p_content p ++ p_info p.
Proof. intros H. apply H. Qed.
Lemma parts_wire {a m p} : parts_of a m p -> m_wire m = tlv TYPE_DATA (m_sig_covered m ++ p_sigel p).
Proof. intros H. apply H. Qed.
Lemma parts_sv {a m p} : parts_of a m p ->
  match c_signer a with Some _ => p_sv p = Some (sign (m_sig_covered m)) | None => p_sv p = None end.
Proof. intros H. apply H. Qed.

Lemma new_cert_body a m p :
  parts_of a m p ->
  m_wire m = tlv TYPE_DATA (m_sig_covered m ++ p_sigel p) /\
  encode_model (depth_of cfs) cfs (cert_values (p_name p) (c_pub a) (written_of a) (p_nb p) (p_na p) (p_sv p))
  = Ok (m_sig_covered m ++ p_sigel p).
Proof.
  intros Hp. split; [exact (parts_wire Hp)|]. rewrite (parts_covered Hp).
  rewrite encode_model_by by exact (wf_fieldsb_spec _ wf_security_v2_CertificateV2Value).
  unfold cert_values. cbn [enc_fields_with security_v2_CertificateV2Value].
  pose proof (parts_meta Hp) as F1. pose proof (parts_content Hp) as F2.
  pose proof (parts_info Hp) as F3. pose proof (parts_sigel Hp) as F4.
  unfold T_META_INFO, T_CONTENT, T_SIG_INFO, T_SIG_VALUE in F1, F2, F3, F4. rewrite F1, F2, F3, F4. cbn [bind].
  rewrite app_nil_r, <- !app_assoc. reflexivity.
Qed.

(* T1 layout obligation: CertificateV2SignatureInfo = the SignatureInfo fields (IncludeBase), then ValidityPeriod,
   then the extension *)
Lemma siginfo_layout :
  security_v2_CertificateV2SignatureInfo =
  ndn_format_0_3_SignatureInfo ++ [(TN_VALIDITY_PERIOD, KModel security_v2_ValidityPeriod false);
                                   (TN_ADDITIONAL_DESCRIPTION, KModel security_v2_AdditionalDescription false)].
Proof. reflexivity. Qed.

Lemma validity_layout : security_v2_ValidityPeriod = [(TN_NOT_BEFORE, KBytes false); (TN_NOT_AFTER, KBytes false)].
Proof. reflexivity. Qed.

(* the certificate descriptor is the Data descriptor with the richer SignatureInfo; markers in the same places *)
Lemma cert_layout :
  cfs = [(TYPE_NAME, KName); (T_META_INFO, KModel ndn_format_0_3_MetaInfo false); (T_CONTENT, KBytes false);
         (T_SIG_INFO, KModel security_v2_CertificateV2SignatureInfo true); (T_SIG_VALUE, KBytes false)]
  /\ security_v2_CertificateV2Value_layout = ndn_format_0_3_DataPacketValue_layout.
Proof. split; reflexivity. Qed.

Lemma fits_cert_siginfo written nb na :
  fits (KModel ndn_format_0_3_SignatureInfo true) (VModel written) ->
  fits (KModel security_v2_CertificateV2SignatureInfo true) (cert_siginfo written nb na).
Proof.
  intros H. inversion H as [| | | | |fs ic vs HF| |]; subst. unfold cert_siginfo. rewrite siginfo_layout.
  constructor. apply Forall2_app; [exact HF|].
  constructor; [|constructor; [constructor|constructor]].
  cbn [snd]. constructor. rewrite validity_layout.
  constructor; [constructor; discriminate|constructor; [constructor; discriminate|constructor]].
Qed.

Lemma fits_vuint (o : option N) : match o with Some n => n < two64 | None => True end -> fits (KUint None) (vuint o).
Proof.
  destruct o as [n|]; intros H; [|constructor]. cbn [vuint].
  apply (fits_uint None n (nni_width n)); [reflexivity|apply nni_width_bound; exact H].
Qed.

Lemma fits_cert_meta : fits (KModel ndn_format_0_3_MetaInfo false) cert_meta.
Proof.
  unfold cert_meta. constructor.
  constructor; [|constructor; [|constructor; [constructor|constructor]]]; cbn [snd]; apply fits_vuint.
  - unfold cert_content_type, two64. lia.
  - unfold cert_freshness, two64. lia.
Qed.

Lemma cert_fits name pub written nb na sv :
  Forall wf_comp64 name -> fits (KModel ndn_format_0_3_SignatureInfo true) (VModel written) ->
  Forall2 (fun f v => fits (snd f) v) cfs (cert_values name pub written nb na sv).
Proof.
  intros Hn Hw. destruct cert_layout as [-> _]. unfold cert_values.
  constructor; [constructor; exact Hn|].
  constructor; [exact fits_cert_meta|].
  constructor; [constructor; discriminate|].
  constructor; [apply fits_cert_siginfo; exact Hw|].
  constructor; [destruct sv; constructor; discriminate|constructor].
Qed.

Lemma cert_name_shape a name :
  cert_name a = Ok name ->
  exists kn n, name_normalize (c_key_name a) = Ok kn /\ c_now a = Z.of_N n /\ n < two64 /\
               name = kn ++ [c_issuer a; comp_enc TYPE_VERSION (nni_enc n)].
Proof.
  unfold cert_name. destruct (name_normalize (c_key_name a)) as [kn|]; [|discriminate]. cbn [bind].
  unfold comp_from_number. destruct (c_now a <? 0)%Z eqn:Ez; [discriminate|].
  unfold nni_enc_r. destruct (Z.to_N (c_now a) <? two64) eqn:El; [|discriminate]. cbn [bind].
  unfold comp_from_bytes. cbn [bind]. intros H. apply Ok_inj in H. subst name.
  exists kn, (Z.to_N (c_now a)). split; [reflexivity|]. split; [lia|]. split; [lia|]. reflexivity.
Qed.

Lemma version_wf n : wf_comp64 (comp_enc TYPE_VERSION (nni_enc n)).
Proof. exact (ex_intro _ TYPE_VERSION (ex_intro _ (nni_enc n) (conj eq_refl (conj eq_refl (nni_enc_len_small n))))). Qed.

Lemma is_version_enc n : is_version (comp_enc TYPE_VERSION (nni_enc n)) = true.
Proof.
  (* the integer is 1, 2, 4 or 8 octets long: what [is_version] asks for *)
  unfold is_version. rewrite comp_split_enc; [|reflexivity|apply nni_enc_len_small].
  rewrite nni_enc_length. destruct (nni_width_cases n) as [E|[E|[E|E]]]; rewrite E; reflexivity.
Qed.

Lemma cert_name_wf a name kn :
  cert_name a = Ok name -> name_normalize (c_key_name a) = Ok kn ->
  Forall wf_comp64 kn -> wf_comp64 (c_issuer a) -> Forall wf_comp64 name.
Proof.
  intros H Hk Hw Hi. destruct (cert_name_shape a name H) as (kn' & n & E1 & _ & _ & ->).
  rewrite Hk in E1. apply Ok_inj in E1. subst kn'.
  apply Forall_app. split; [exact Hw|]. constructor; [exact Hi|]. constructor; [apply version_wf|constructor].
Qed.

Theorem new_cert_roundtrip a m p :
  parts_of a m p ->
  N.of_nat (length (m_wire m)) < two64 ->
  Forall wf_comp64 (p_name p) ->
  fits (KModel ndn_format_0_3_SignatureInfo true) (VModel (written_of a)) ->
  dec_cert (m_wire m) = Ok (cert_values (p_name p) (c_pub a) (written_of a) (p_nb p) (p_na p) (p_sv p)).
Proof.
  intros Hp Hl Hn Hw. destruct (new_cert_body a m p Hp) as [Ew Eb].
  rewrite Ew in *. apply require_name_tlv; [reflexivity|exact Hl| |discriminate].
  exact (parse_encode_roundtrip _ _ false _ _ (wf_fieldsb_spec _ wf_security_v2_CertificateV2Value)
           (cert_fits _ _ _ _ _ _ Hn Hw) Eb).
Qed.

Theorem new_cert_signed_portion a m p s :
  parts_of a m p -> c_signer a = Some s ->
  N.of_nat (length (m_wire m)) < two64 ->
  signed_portion_data (m_sig_covered m ++ p_sigel p) = Some (m_sig_covered m).
Proof.
  intros Hp Es Hl. pose proof (parts_sigel Hp) as F4. pose proof (parts_sv Hp) as Hsv. rewrite Es in Hsv.
  rewrite Hsv in F4. apply enc_bytes_tlv in F4; [|reflexivity]. rewrite (parts_wire Hp) in Hl. apply tlv_len_bound in Hl.
  rewrite F4, (parts_covered Hp) in *.
  pose proof (fun t v w => enc_by_slot _ t v w (wf_fieldsb_spec _ wf_security_v2_CertificateV2Value) eq_refl) as Sl.
  epose proof (data_covered (p_name p) [p_meta p; p_content p; p_info p] _
                 (Forall2_cons _ _ (Sl _ _ _ (parts_meta Hp)) (Forall2_cons _ _ (Sl _ _ _ (parts_content Hp))
                    (Forall2_cons _ _ (Sl _ _ _ (parts_info Hp)) (Forall2_nil _))))) as G.
  cbn [concat] in G. rewrite app_nil_r, <- !app_assoc in G. rewrite <- !app_assoc in Hl |- *. exact (G Hl).
Qed.

End Cert.
