(* C06: tie between the source text and the model, re-established on every run.
   Generated/ReceiveGen.v is produced by tools/gen_receive.py from the python ast of
   appv2.py / app.py (_receive), transport/stream_face.py (run, shutdown), transport/udp_face.py
   (datagram_received) and encoding/tlv_var.py (read_tl_num_from_stream).
   The two coroutines are translated statement by statement and must be *convertible* with the
   hand-written ones of Model/Stream.v; the except tuples must cover what the theorems need. *)
From NDN Require Import Base.Prelude Model.TlvVar Model.Packet Model.Stream Model.Receive
  Proofs.TlvVarProofs Proofs.ReceiveTotal.
From NDN Require Generated.ReceiveGen.
Module Gen := Generated.ReceiveGen.
Local Open Scope N_scope.

(* T2: read_tl_num_from_stream and the try body of StreamFace.run *)
Theorem gen_read_tl_num_eq : Gen.read_tl_num_from_stream = read_tl_num.
Proof. reflexivity. Qed.
Theorem gen_run_body_eq : Gen.run_try_body = run_body.
Proof. reflexivity. Qed.

(* T1: the except clause of StreamFace.run, what its handler does, how the callback is started *)
Definition run_cfg_gen : run_cfg :=
  RunCfg (catches Gen.run_caught EIncomplete) (catches Gen.run_caught EConnReset).
Theorem run_cfg_gen_eq : run_cfg_gen = run_cfg_src.
Proof. reflexivity. Qed.
Theorem run_spawns_task : Gen.run_spawns_task = true.
Proof. reflexivity. Qed.
Theorem shutdown_clears_running : Gen.shutdown_clears_running = true.
Proof. reflexivity. Qed.

(* T1: packet type constants of the dispatch *)
Theorem type_numbers_eq :
  Gen.src_TYPE_INTEREST = TYPE_INTEREST /\ Gen.src_TYPE_DATA = TYPE_DATA /\ Gen.src_TYPE_LP_PACKET = TYPE_LP_PACKET.
Proof. repeat split; reflexivity. Qed.

(* T1: the except tuples of _receive, both front-ends, as written in the source of this run *)
Definition cfg_v2 (nack_default : option N) : rcfg :=
  RCfg Gen.v2_catch_lp Gen.v2_catch_nack Gen.v2_catch_interest Gen.v2_catch_data
       Gen.v2_frag_guard Gen.v2_catch_fragtl nack_default.
Definition cfg_v1 (nack_default : option N) : rcfg :=
  RCfg Gen.v1_catch_lp Gen.v1_catch_nack Gen.v1_catch_interest Gen.v1_catch_data
       Gen.v1_frag_guard Gen.v1_catch_fragtl nack_default.

Theorem cfg_v2_ok nd : cfg_okb (cfg_v2 nd) = true.
Proof. reflexivity. Qed.
Theorem cfg_v1_ok nd : cfg_okb (cfg_v1 nd) = true.
Proof. reflexivity. Qed.

(* T1: UdpFace.datagram_received guards parse_tl_num against everything it can raise *)
Theorem udp_guard_ok : Gen.udp_guarded = true /\ catches Gen.udp_caught EIndex = true /\ catches Gen.udp_caught EStruct = true.
Proof. repeat split; reflexivity. Qed.
