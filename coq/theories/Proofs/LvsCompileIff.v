(* compile accepts a schema exactly when it has none of the documented static errors: with signer names as the lexer
   produces them [static_ok] is [compilable], and compile succeeds exactly on the compilable schemas; a Checker is built
   from the compiled model exactly when its signing relation is acyclic. *)
From NDN Require Import Base.Prelude Model.LvsAst Model.LvsChecker Model.LvsCompiler Spec.LvsSem Spec.LvsChains
  Proofs.LvsFlatten Proofs.LvsCompileTree Proofs.LvsCompileAccepts Proofs.LvsCompileThms Proofs.LvsSignGraph Proofs.LvsTraverse
  Proofs.LvsCompileStatic.
Local Open Scope N_scope.

Definition sign_plain (S : lvsfile) : Prop := forall d k, In d S -> In k (r_sign d) -> ident_plain k.

Lemma compilable_static S : sign_plain S -> (static_ok S = true <-> compilable S).
Proof.
  intros Hpl. split; [apply static_compilable|]. intros [Hcl Hac Hcons Hsg]. apply static_ok_iff. split; [|split; [|split]].
  - exact (proj1 (refs_closed_iff S) Hcl).
  - intros d _. exact (ranked_depth_ok S Hcl Hac (r_id d)).
  - exact (proj1 (cons_resolvable_iff S) Hcons).
  - intros d k Hd Hk. exact (plain_signer_defined S d k Hsg Hd Hk (Hpl d k Hd Hk)).
Qed.

Theorem compile_iff S : schema_wf S = true -> sign_plain S -> ((exists m, compile S = Ok m) <-> static_ok S = true).
Proof. intros _ Hpl. rewrite (compilable_static S Hpl). exact (proj1 (verdict_ok_iff _ _ _ _ (compile_cases S))). Qed.

Lemma compiled_ids_ok S m : compile S = Ok m -> ids_ok m.
Proof.
  intros Hm. destruct (compile_inv _ _ Hm) as (chains & st & t0 & _ & _ & Hmodel). intros i nd Hg.
  destruct (mirrors_get_inv _ _ _ _ (compiled_mirrors st m _ Hmodel) Hg) as (g & _ & Hid & _). exact Hid.
Qed.

(* Checker(compile S): accepted iff no name pattern (node) is, directly or transitively, its own signer; else the schema error *)
Theorem checker_verdict S m : schema_wf S = true -> compile S = Ok m ->
  ((exists r, sanity_check (sanity_fuel m) m = Ok r) <-> sign_acyclic m) /\
  (forall e, sanity_check (sanity_fuel m) m = Err e -> e = ESemantic).
Proof.
  intros Hwf Hm. apply loader_verdict; [exact (compile_wf_sane S m Hwf Hm) | exact (compiled_ids_ok S m Hm)].
Qed.
