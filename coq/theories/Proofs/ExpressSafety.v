(* C03 — safety facts that hold for EVERY history (well-formed or not):
   no exception escapes (no InvalidStateError from a future, hence [errs] stays empty and no awaitable finishes with an
   internal error), every awaitable finishes at most once, and the completion log is exactly the set of finished
   waiter tasks.  All three rest on what every per-record function of the model does ([benign]). *)
From NDN Require Import Base.Prelude Spec.ExpressSpec Model.ExpressPipeline Proofs.ListLemmas Proofs.ExpressBasics
  Proofs.ExpressInv.
From Coq Require Import Permutation.
Local Open Scope N_scope.

Definition no_err_outcome (o : outcome) : Prop := match o with OErr _ => False | _ => True end.
Definition clean_eff (e : eff) : Prop := f_errs e = [] /\ Forall (fun x : N * outcome * N => no_err_outcome (snd (fst x))) (f_log e).
Definition clean (s : st) : Prop := errs s = [] /\ Forall (fun x : N * outcome * N => no_err_outcome (snd (fst x))) (log s).

Definition done_entry (i : N) (r : irec) : list (N * outcome * N) :=
  match i_wait r with WDone o t => [(i, o, t)] | _ => [] end.

(* what every per-record function of the model is: it keeps the static fields, raises nothing (the done-guards:
   fut_set is only ever reached on a pending future), and logs exactly the transitions into WDone, which is absorbing *)
Definition benign (f : N -> irec -> eff) : Prop :=
  forall i r, same_static r (f_rec (f i r)) /\ clean_eff (f i r) /\
              done_entry i (f_rec (f i r)) = done_entry i r ++ f_log (f i r).

Lemma benign_quiet f :
  (forall i r, same_static r (f_rec (f i r)) /\ i_wait (f_rec (f i r)) = i_wait r /\ f_errs (f i r) = [] /\ f_log (f i r) = []) ->
  benign f.
Proof.
  intros H i r. destruct (H i r) as (S & W & E & L).
  unfold clean_eff, done_entry. rewrite E, L, W, app_nil_r. split; [exact S | split; [split; constructor | reflexivity]].
Qed.

Lemma benign_keep : benign (fun _ r => keep r).
Proof. apply benign_quiet. intros i r. repeat split. Qed.
Lemma benign_cond (c : N -> bool) f : benign f -> benign (fun i r => if c i then f i r else keep r).
Proof. intros B i r. cbv beta. destruct (c i); [apply B | apply benign_keep]. Qed.

Lemma benign_fire b t : benign (fun _ r => only (fire_rec b t r)).
Proof. apply benign_quiet. intros i r. unfold fire_rec. destruct (timer_due b t r); repeat split. Qed.
Lemma benign_sat fe d : benign (fun _ r => sat_rec fe d r).
Proof. apply benign_quiet. intros i r. unfold sat_rec, fut_set. destruct fe, (fdone (i_fut r)); repeat split. Qed.
Lemma benign_nack x : benign (fun _ r => nack_rec x r).
Proof. apply benign_quiet. intros i r. unfold nack_rec, fut_set. destruct (fdone (i_fut r)); repeat split. Qed.
Lemma benign_cancel : benign (fun _ r => only (cancel_rec r)).
Proof. apply benign_quiet. intros i r. unfold cancel_rec. destruct (i_wait r) eqn:W; repeat split; exact W. Qed.
Lemma benign_fut_cancel : benign (fun _ r => only (set_fut r (fut_cancel (i_fut r)))).
Proof. apply benign_quiet. intros i r. repeat split. Qed.
Lemma finish_quiet fe r d v :
  let e := finish_validation fe r d v in
  same_static r (f_rec e) /\ i_wait (f_rec e) = i_wait r /\ f_errs e = [] /\ f_log e = [].
Proof. unfold finish_validation, fut_set. destruct (fdone (i_fut r)); repeat split. Qed.
Lemma benign_sv fe : benign (sv_rec fe).
Proof.
  apply benign_quiet. intros i r. unfold sv_rec. destruct (i_val r); try (repeat split; fail).
  destruct (i_vm r); [|repeat split]. destruct (finish_quiet fe r d v) as (S & W & E & _). cbn [f_rec f_errs f_log]. auto.
Qed.

Lemma verdict_outcome_no_err fe d v : no_err_outcome (verdict_outcome fe d v).
Proof. unfold verdict_outcome. destruct (pass fe v); exact I. Qed.

Lemma benign_ws fe nw : benign (ws_rec fe nw).
Proof.
  intros i [nm cb dg lf dl vm nd fu wa tm tf xc va]. unfold done_entry, clean_eff, same_static.
  (* along the tests of [ws_rec]: each branch keeps the waiter ([keep], or WWaiting to WValidating) with an empty log,
     or is the one move to WDone it logs, with an outcome that is not an internal error *)
  destruct wa; [| destruct xc; [|destruct tf; [|destruct fu; [| destruct fe; [|destruct vm] | | |]]] | destruct xc |];
    cbn -[verdict_outcome]; repeat split; repeat constructor; apply verdict_outcome_no_err.
Qed.

Lemma benign_vdone fe nw v : benign (fun i r => vdone_rec fe nw i v r).
Proof.
  destruct fe.
  - apply benign_quiet. intros i r. unfold vdone_rec. destruct (i_val r); try (repeat split; fail). apply finish_quiet.
  - intros i [nm cb dg lf dl vm nd fu wa tm tf xc va].
    unfold done_entry, clean_eff, same_static.
    destruct wa; try destruct xc; cbn -[verdict_outcome]; repeat split; repeat constructor; apply verdict_outcome_no_err.
Qed.

Lemma benign_await fe nw : benign (fun _ r => only (await_rec fe nw r)).
Proof.
  intros i r. split; [apply ss_await | split; [split; constructor|]].
  unfold done_entry, await_rec. destruct (i_wait r) eqn:W; cbn; rewrite ?W; reflexivity.
Qed.

Lemma benign_ev_rec fe nw e (c : N -> bool) : benign (fun i => ev_rec fe nw e (c i) i).
Proof.
  destruct e; cbn [ev_rec]; try exact benign_keep.
  - apply (benign_cond (fun j => j =? i)), benign_await.
  - apply (benign_cond c), benign_sat.
  - apply (benign_cond c), benign_nack.
  - apply (benign_cond (fun j => j =? i)), benign_vdone.
  - apply (benign_cond (fun j => j =? i)), benign_cancel.
  - apply (benign_cond c), benign_fut_cancel.
Qed.

Definition is_express (e : ev) : bool := match e with Express _ _ _ _ _ _ _ => true | _ => false end.

Lemma apply_records fe s e :
  is_express e = false ->
  exists c, let s' := upd_all (fun i => ev_rec fe (now s) e (c i) i) s in
            ints (apply fe s e) = ints s' /\ log (apply fe s e) = log s' /\ errs (apply fe s e) = errs s'.
Proof.
  intros NE. set (none := fun _ : N => false).
  assert (K : forall s0 : st, upd_all (fun _ r => keep r) s = s0 -> ints s = ints s0 /\ log s = log s0 /\ errs s = errs s0)
    by (intros s0 <-; rewrite upd_all_keep; auto).
  destruct e; try discriminate NE; cbn [apply]; try (exists none; apply K; reflexivity).
  - exists none. repeat split.
  - exists (fun j => mem j (pit_hits (data_hit n hash) (pit s))). repeat split.
  - exists (fun j => mem j (pit_hits (nack_hit n dig) (pit s))). repeat split.
  - exists none. repeat split.
  - exists none. repeat split.
  - unfold do_shutdown. destruct (shut s); [exists none; apply K; reflexivity|].
    exists (fun j => mem j (pit_hits (fun _ _ _ => true) (pit s))). repeat split.
  - unfold do_attach. destruct (al_mem name_eqb (fib s) p); exists none; apply K; reflexivity.
Qed.

Lemma benign_run (P : st -> Prop) fe :
  (forall s s', ints s' = ints s -> log s' = log s -> errs s' = errs s -> P s -> P s') ->
  (forall g s, benign g -> P s -> P (upd_all g s)) ->
  (forall s i n cbp dig life vm, P s -> P (do_express fe s i n cbp dig life vm)) ->
  P init -> forall h, P (run_hist fe h).
Proof.
  intros Same U X. apply run_preserves, step_preserves.
  - intros s t. apply Same; reflexivity.
  - intros b t s. apply U, benign_fire.
  - intros s H. unfold settle. apply U; [apply benign_ws|].
    apply (Same (upd_all (sv_rec fe) s)); try reflexivity. apply U; [apply benign_sv | exact H].
  - intros s e H. destruct (is_express e) eqn:E.
    + destruct e; try discriminate E. apply X, H.
    + destruct (apply_records fe s e E) as (c & I & L & R). apply (Same _ _ I L R), U, H. apply benign_ev_rec.
Qed.

Lemma clean_upd_all f s : (forall i r, clean_eff (f i r)) -> clean s -> clean (upd_all f s).
Proof.
  intros H [E L]. split; cbn.
  - rewrite E. cbn. apply flat_map_all_nil. intros [k r] _. apply H.
  - apply Forall_app; split; auto. apply Forall_forall. intros x I. apply in_flat_map in I.
    destruct I as [[k r] [_ I]]. destruct (H k r) as [_ F]. rewrite Forall_forall in F. auto.
Qed.

Theorem no_internal_error fe h :
  errs (run_hist fe h) = [] /\ forall i e t, ~ In (i, OErr e, t) (log (run_hist fe h)).
Proof.
  assert (C : clean (run_hist fe h)).
  { apply benign_run; [| | |split; constructor].
    - unfold clean. intros s s' _ -> ->. auto.
    - intros g s B. apply clean_upd_all. intros i r. apply B.
    - intros s i n cbp dig life vm. destruct (do_express_frame fe s i n cbp dig life vm) as (L & E & _).
      unfold clean. rewrite L, E. auto. }
  destruct C as [E L]. split; auto. intros i e t I. rewrite Forall_forall in L. apply (L _ I).
Qed.

Definition lkey (x : N * outcome * N) : N := fst (fst x).

Definition finished (l : list (N * irec)) : list (N * outcome * N) :=
  flat_map (fun kr => done_entry (fst kr) (snd kr)) l.

Definition log_ok (s : st) : Prop := NoDup (map fst (ints s)) /\ Permutation (log s) (finished (ints s)).

Lemma in_finished l i o t : In (i, o, t) (finished l) <-> exists r, In (i, r) l /\ i_wait r = WDone o t.
Proof.
  unfold finished, done_entry. rewrite in_flat_map. split.
  - intros [[k r] [I J]]. cbn in J. destruct (i_wait r) eqn:W; [destruct J..|]. destruct J as [J|[]]. injection J as -> -> ->. eauto.
  - intros [r [I W]]. exists (i, r). cbn. rewrite W. split; [exact I | left; reflexivity].
Qed.

Lemma finished_keys l : NoDup (map fst l) -> NoDup (map lkey (finished l)).
Proof.
  induction l as [|[k r] l IH]; cbn; [constructor|]. intros ND. inversion ND; subst. unfold done_entry at 1.
  destruct (i_wait r); cbn; auto. constructor; auto. intros I. apply H1.
  apply in_map_iff in I. destruct I as [[[j o'] t'] [<- I]]. apply in_finished in I. destruct I as [r' [I _]].
  apply in_map_iff. exists (j, r'). auto.
Qed.

Lemma log_ok_upd_all f s : benign f -> log_ok s -> log_ok (upd_all f s).
Proof.
  intros G [K P]. split; [rewrite ids_upd_all; exact K|]. cbn [log ints upd_all].
  rewrite P. clear P K. induction (ints s) as [|[k r] l IH]; cbn; [constructor|].
  rewrite (proj2 (proj2 (G k r))), <- IH, <- !app_assoc. apply Permutation_app_head.
  rewrite !app_assoc. apply Permutation_app_tail, Permutation_app_comm.
Qed.

Lemma log_ok_express fe s i n cbp dig life vm : log_ok s -> log_ok (do_express fe s i n cbp dig life vm).
Proof.
  intros H. destruct (do_express_frame fe s i n cbp dig life vm) as (L & _ & _ & _ & _ & _ & [[_ E] | (_ & Gi & nid & l & _ & E & _)]);
    [unfold log_ok; rewrite L, E; exact H|].
  destruct H as [K P]. unfold log_ok. rewrite L, E. split.
  - rewrite map_app. apply NoDup_snoc; [exact K | apply (al_get_none N.eqb N.eqb_eq), Gi].
  - unfold finished, done_entry. rewrite flat_map_app. cbn. rewrite !app_nil_r. exact P.
Qed.

Lemma log_ok_run fe h : log_ok (run_hist fe h).
Proof.
  apply benign_run; [| |apply log_ok_express | split; constructor].
  - unfold log_ok. intros s s' -> -> _. auto.
  - intros g s B. apply log_ok_upd_all, B.
Qed.

Theorem at_most_once fe h : NoDup (map lkey (log (run_hist fe h))).
Proof.
  destruct (log_ok_run fe h) as [K P]. apply (Permutation_NoDup (Permutation_sym (Permutation_map lkey P))), finished_keys, K.
Qed.

Lemma completion_spec s i :
  log_ok s ->
  completion s i = match get_int s i with
                   | Some r => match i_wait r with WDone o _ => Some o | _ => None end
                   | None => None
                   end.
Proof.
  intros [K P]. unfold completion.
  assert (IFF : forall o t, In (i, o, t) (log s) <-> exists r, get_int s i = Some r /\ i_wait r = WDone o t).
  { intros o t. rewrite (Permutation_in' eq_refl P), in_finished. split; intros [r [I W]]; exists r; split; auto.
    - apply (al_get_of_in N.eqb N.eqb_eq); assumption.
    - apply (al_get_some_in N.eqb N.eqb_eq), I. }
  destruct (find _ (log s)) as [[[j o] t]|] eqn:F.
  - apply find_some in F. destruct F as [I E]. apply N.eqb_eq in E. cbn in E. subst j.
    apply IFF in I. destruct I as [r [-> ->]]. reflexivity.
  - destruct (get_int s i) as [r|] eqn:G; [|reflexivity]. destruct (i_wait r) eqn:W; try reflexivity.
    assert (I : In (i, o, t) (log s)) by (apply IFF; eauto).
    apply (find_none _ _ F) in I. cbn in I. rewrite N.eqb_refl in I. discriminate I.
Qed.
