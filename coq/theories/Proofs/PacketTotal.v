(* C07: every byte string is either accepted or rejected with a documented decoding error; the fuel
   used by the model never runs out (decoding terminates on every input).  First for any well-formed descriptor,
   then for the four shipped packet decoders; last, what an accepted packet is known to have (a Name, integers of
   legal width). *)
From NDN Require Import Base.Prelude Base.Utf8 Model.TlvVar Model.Name Model.Tlv Model.Packet Spec.TlvWf
  Generated.Schemas Proofs.TlvVarProofs Proofs.TlvAssign Proofs.TlvMore.
Local Open Scope N_scope.

(* the decoding errors the property allows: DecodeError, IndexError, ValueError (with UnicodeDecodeError) and
   struct.error, the list by which harness/props/c07.py judges the library (its ASSUMPTIONS); TypeError is not among
   them, nor is [EFuel], so a documented result also says that the model's fuel sufficed *)
Definition documented (e : err) : bool :=
  match e with EDecode | EIndex | EValue | EStruct | EUnicode => true | _ => false end.
Definition res_documented {A} (r : res A) : Prop :=
  match r with Ok _ => True | Err e => documented e = true end.

Lemma tl_dec_doc w : res_documented (tl_dec w).
Proof.
  destruct (tl_dec w) as [p|e] eqn:E; [exact I|]. destruct (tl_dec_err w e E) as [-> | ->]; reflexivity.
Qed.

Lemma bind_doc {A B} (r : res A) (f : A -> res B) :
  res_documented r -> (forall a, r = Ok a -> res_documented (f a)) -> res_documented (bind r f).
Proof. destruct r as [a|e]; cbn; intros H1 H2; [apply H2; reflexivity|exact H1]. Qed.

Lemma elements_doc : forall fuel w, (length w < fuel)%nat -> res_documented (elements fuel w).
Proof.
  induction fuel as [|fuel IH]; intros w Hf; [lia|].
  destruct w as [|b w']; [exact I|]. cbn [elements]. set (w := b :: w') in *.
  apply bind_doc; [apply tl_dec_doc|]. intros [t st] E1.
  apply bind_doc; [apply tl_dec_doc|]. intros [l sl] E2.
  apply bind_doc; [|intros; exact I].
  apply IH. rewrite !skipn_length. apply tl_dec_ok in E1, E2. lia.
Qed.

Lemma split_wire_doc w : res_documented (split_wire w).
Proof. apply elements_doc. lia. Qed.

Lemma name_components_doc : forall fuel p, (length p < fuel)%nat -> res_documented (name_components fuel p).
Proof.
  induction fuel as [|fuel IH]; intros p Hf; [lia|].
  destruct p as [|b p']; [exact I|]. cbn [name_components]. set (p := b :: p') in *.
  apply bind_doc; [apply tl_dec_doc|]. intros [t st] E1.
  apply bind_doc; [apply tl_dec_doc|]. intros [l sl] E2. cbn [fst snd].
  destruct (N.of_nat (length p) <? N.of_nat (st + sl) + l); [reflexivity|].
  apply bind_doc; [|intros; exact I]. apply IH. rewrite skipn_length. apply tl_dec_ok in E1. lia.
Qed.

Lemma kdepth_field (fs : list field) ic (t : N) (k : fkind) : In (t, k) fs -> (kdepth k < kdepth (KModel fs ic))%nat.
Proof.
  intros H. cbn [kdepth]. induction fs as [|[t' k'] fs IH]; [destruct H|].
  destruct H as [E|H]; [inversion E; subst; lia|]. specialize (IH H). lia.
Qed.

Lemma step_req_wf fs ic st pos acc e k c : (forall t k, In (t, k) fs -> wfk t k) -> st_from fs st ->
  step_req fs ic st pos acc e = RAsk k c ->
  exists t', wfk t' k /\ single k = true /\ (kdepth k < fields_depth fs)%nat.
Proof.
  intros Hwf Hst. unfold fields_depth. destruct st as [|i key vt vk]; cbn [step_req].
  - destruct (find_from fs 0 pos (e_type e)) as [[i k0]|] eqn:Ef; [|destruct (_ && _); discriminate].
    apply find_from_some_in in Ef. pose proof (kdepth_field fs false _ _ Ef) as Hd. pose proof (Hwf _ _ Ef) as W.
    (* a single kind is handed on as it is; the two others hand on a part of theirs *)
    destruct k0 as [| | | | | |kk vt vk]; intros H; injection H as <- _; cbn [kdepth] in Hd |- *; exists (e_type e);
      try (split; [exact W|]; split; [reflexivity|exact Hd]).
    + inversion W; subst. repeat split; (assumption || lia).
    + inversion W; subst. repeat split; [assumption|destruct kk; try discriminate; reflexivity|lia].
  - destruct Hst as (t & kk & Hin). pose proof (kdepth_field fs false _ _ Hin) as Hd. pose proof (Hwf _ _ Hin) as W.
    destruct (_ =? _); [|destruct (_ && _); discriminate]. intros H; injection H as <- _.
    inversion W; subst. cbn [kdepth] in Hd |- *. exists vt. repeat split; (assumption || lia).
Qed.

Lemma level_doc pv fs ic : wf_fields fs ->
  (forall t k e, wfk t k -> single k = true -> (kdepth k < fields_depth fs)%nat -> res_documented (pv k e)) ->
  forall els st pos acc, st_from fs st -> res_documented (assign_with pv fs ic st pos els acc).
Proof.
  intros [fs0 _ Hall] Hpv. induction els as [|e els IH]; intros st pos acc Hst; [destruct st; cbn; auto|].
  rewrite assign_with_cons. destruct (step_req fs0 ic st pos acc e) as [| |k c] eqn:Es; [exact (IH _ _ _ Hst)|reflexivity|].
  destruct (step_req_wf _ _ _ _ _ _ _ _ Hall Hst Es) as (t' & W & Sg & Hk).
  apply bind_doc; [exact (Hpv t' k e W Sg Hk)|]. intros x _.
  pose proof (step_req_next _ _ _ _ _ _ _ _ x Es) as Hn.
  destruct (c x) as [[st' pos'] acc']. exact (IH _ _ _ Hn).
Qed.

Theorem parse_val_doc : forall d t k e, wfk t k -> single k = true -> (kdepth k <= d)%nat ->
  res_documented (parse_val d k e).
Proof.
  induction d as [|d IH]; intros t k e Hwf Hs Hd.
  - destruct k; cbn in Hd; lia.
  - destruct k; try discriminate; cbn [parse_val].
    + destruct (_ || _ || _ || _); [destruct (_ =? _)|]; cbn; auto.
    + exact I.
    + destruct is_string; [destruct (utf8_valid _)|]; cbn; auto.
    + destruct (negb _); [reflexivity|]. destruct (_ <? _); [reflexivity|].
      apply bind_doc; [apply name_components_doc; lia|intros; exact I].
    + apply bind_doc; [apply split_wire_doc|]. intros els _.
      apply bind_doc; [|intros; exact I].
      inversion Hwf as [ | | | |t0 fs0 ic0 Ht Hfs| | ]; subst. apply level_doc; [exact Hfs| |exact I].
      intros t' k' e' W Sg Hk. apply (IH t'); [exact W|exact Sg|]. unfold fields_depth in Hk. cbn [kdepth] in *. lia.
Qed.

Theorem parse_model_doc d fs ic w :
  wf_fields fs -> (fields_depth fs <= S d)%nat -> res_documented (parse_model d fs ic w).
Proof.
  intros Hwf Hd. unfold parse_model. apply bind_doc; [apply split_wire_doc|]. intros els _.
  apply level_doc; [exact Hwf| |exact I]. intros t' k' e' W Sg Hk. apply (parse_val_doc d t'); [exact W|exact Sg|lia].
Qed.

Lemma pact_doc w t : res_documented (parse_and_check_tl w t).
Proof.
  unfold parse_and_check_tl. apply bind_doc; [apply tl_dec_doc|]. intros [typ tlen] _.
  apply bind_doc; [apply tl_dec_doc|]. intros [size slen] _.
  destruct (negb _); [reflexivity|]. destruct (negb _); [reflexivity|exact I].
Qed.

Lemma gen_decode_doc outer fs ic w :
  wf_fields fs -> res_documented (gen_decode parse_model outer fs ic w).
Proof.
  intros Hwf. unfold gen_decode. apply bind_doc; [apply pact_doc|]. intros v _.
  apply parse_model_doc; [exact Hwf|]. unfold depth_of. lia.
Qed.

Lemma require_name_doc fs r : res_documented r -> res_documented (require_name fs r).
Proof.
  intros H. unfold require_name. apply bind_doc; [exact H|]. intros vs _.
  destruct (field_value fs vs TYPE_NAME); cbn; auto.
Qed.

Lemma no_frag_doc fs r : res_documented r -> res_documented (no_fragmentation fs r).
Proof.
  intros H. unfold no_fragmentation. apply bind_doc; [exact H|]. intros vs _.
  destruct (field_value fs vs LP_FRAG_INDEX); destruct (field_value fs vs LP_FRAG_COUNT); cbn; auto.
Qed.

Theorem dec_interest_doc w : res_documented (dec_interest w).
Proof. apply require_name_doc, gen_decode_doc, wf_fieldsb_spec, wf_ndn_format_0_3_InterestPacketValue. Qed.
Theorem dec_data_doc w : res_documented (dec_data w).
Proof. apply require_name_doc, gen_decode_doc, wf_fieldsb_spec, wf_ndn_format_0_3_DataPacketValue. Qed.
Theorem dec_cert_doc w : res_documented (dec_cert w).
Proof. apply require_name_doc, gen_decode_doc, wf_fieldsb_spec, wf_security_v2_CertificateV2Value. Qed.
Theorem dec_lp_doc w : res_documented (dec_lp w).
Proof. apply no_frag_doc, gen_decode_doc, wf_fieldsb_spec, wf_ndnlp_v2_LpPacketValue. Qed.

Lemma require_name_inv fs r vs : require_name fs r = Ok vs -> field_value fs vs TYPE_NAME <> VNone.
Proof.
  unfold require_name. destruct r as [x|]; [|discriminate]. cbn [bind]. intros H.
  destruct (field_value fs x TYPE_NAME) eqn:E; try discriminate H; injection H as <-; congruence.
Qed.

Lemma parse_uint_width d fx e v :
  parse_val (S d) (KUint fx) e = Ok v ->
  (e_dlen e = 1 \/ e_dlen e = 2 \/ e_dlen e = 4 \/ e_dlen e = 8) /\
  N.of_nat (length (e_payload e)) = e_dlen e /\ v = VUint (be_to_N (e_payload e)).
Proof.
  cbn [parse_val]. destruct ((e_dlen e =? 1) || (e_dlen e =? 2) || (e_dlen e =? 4) || (e_dlen e =? 8)) eqn:E; [|discriminate].
  destruct (N.of_nat (length (e_payload e)) =? e_dlen e) eqn:E2; [|discriminate].
  intros H; inversion H; subst. repeat split; try lia.
Qed.
