(* Checker.match / Checker.check on a sane binary model = the tree-path semantics of
   Spec/LvsTree.v; every query halts within [match_cost] loop iterations. *)
From NDN Require Import Base.Prelude Model.LvsAst Model.LvsChecker Spec.LvsSem Spec.LvsTree Proofs.ListLemmas
  Proofs.LvsTreePaths Proofs.LvsMachine.
Local Open Scope N_scope.

Section Thms.
  Variable ufn : ident -> option (bytes -> list (option bytes) -> res bool).
  Variable m : lvsmodel.
  Hypothesis Hsane : sane m.

  Lemma tree_match_root name c n c' : tree_match ufn m name c n c' <-> path ufn m (root m) name c n c'.
  Proof. unfold tree_match. rewrite (proj1 (root_subtree m Hsane)). split; [intros (s & E & H); injection E as <-; exact H | eauto]. Qed.

  Lemma feed_collect {X B} (h : N -> ctx -> res X) (k : N -> ctx -> X -> B) ev l :
    (do r <- feed (R := unit) (fun acc n c => do x <- h n c ;; Ok (inl (k n c x :: acc))) ev [] ;;
     match r with inl acc => Ok (rev acc) | inr _ => Ok [] end) = Ok l ->
    quiet ev /\ forall y, In y l <-> exists n c x, In (Yield n c) ev /\ h n c = Ok x /\ y = k n c x.
  Proof.
    assert (G : forall ev acc r, feed (R := unit) (fun acc n c => do x <- h n c ;; Ok (inl (k n c x :: acc))) ev acc = Ok r ->
              exists ys, r = inl (rev ys ++ acc) /\ Forall2 (fun it y => exists n c x, it = Yield n c /\ h n c = Ok x /\ y = k n c x) ev ys).
    { clear l ev. induction ev as [|[n c|e] ev IH]; intros acc r; cbn; [| |discriminate].
      - intros H; injection H as <-. exists []. split; [reflexivity | constructor].
      - destruct (h n c) as [x|] eqn:Eh; [|discriminate]. cbn. intros H.
        apply IH in H. destruct H as (ys & -> & HF). exists (k n c x :: ys). split.
        + cbn. rewrite <- app_assoc. reflexivity.
        + constructor; eauto 6. }
    destruct (feed _ ev []) as [x|] eqn:Efl; [|discriminate]. destruct (G _ _ _ Efl) as (ys & -> & HF).
    cbn. intros H; injection H as <-. rewrite app_nil_r, rev_involutive. split; [|intros y; split].
    - intros e He. destruct (forall2_in_l _ _ _ _ HF He) as (y & _ & n & c & x & E & _). discriminate.
    - intros Hin. destruct (forall2_in_r _ _ _ _ HF Hin) as (it & Hit & n & c & x & -> & Hx & ->). eauto 6.
    - intros (n & c & x & Hin & Hx & ->). destruct (forall2_in_l _ _ _ _ HF Hin) as (y & Hy & n0 & c0 & x0 & E & Hx0 & ->).
      injection E as <- <-. rewrite Hx in Hx0. injection Hx0 as <-. exact Hy.
  Qed.

  Definition bcons (P : N -> ctx -> res bool) : unit -> N -> ctx -> res (unit + unit) :=
    fun _ n c => do b <- P n c ;; Ok (if b then inr tt else inl tt).
  Definition is_inr {X Y} (x : X + Y) : bool := match x with inl _ => false | inr _ => true end.

  Lemma bcons_answer P ev b : (do r <- feed (bcons P) ev tt ;; Ok (is_inr r)) = Ok b ->
    if b then exists n c, In (Yield n c) ev /\ P n c = Ok true
    else quiet ev /\ forall n c, In (Yield n c) ev -> P n c = Ok false.
  Proof.
    revert b. induction ev as [|[n0 c0|e] ev IH]; cbn; [| |discriminate].
    - intros b H; injection H as <-. split; [intros e []|intros n c []].
    - unfold bcons at 1. cbn. destruct (P n0 c0) as [[|]|] eqn:Ep; cbn; try discriminate.
      + intros b H; injection H as <-. exists n0, c0. auto.
      + intros b H. apply IH in H. destruct b.
        * destruct H as (n & c & Hin & Hp). exists n, c. auto.
        * destruct H as [Hq Hall]. split; [intros e [E|He]; [discriminate | exact (Hq e He)]|].
          intros n c [E|Hin]; [injection E as <- <-; exact Ep | auto].
  Qed.

  Theorem match_all_spec fuel name c l :
    (match_cost m name <= fuel)%nat -> match_all ufn m fuel name c = Ok l ->
    forall n c', In (n, c') l <-> tree_match ufn m name c n c'.
  Proof.
    intros Hf H. unfold match_all in H. rewrite (mrun_events ufn m Hsane) in H by exact Hf.
    apply (feed_collect (fun _ _ => Ok tt) (fun n c _ => (n, c))) in H. destruct H as [Ee HF].
    intros n c'. rewrite HF, tree_match_root. split.
    - intros (n0 & c0 & x & Hin & _ & E). injection E as -> ->. apply events_sound, Hin.
    - intros Hp. exists n, c', tt. split; [exact (events_complete ufn m _ _ _ _ _ Ee Hp) | auto].
  Qed.

  (* more fuel than the bound changes nothing: the loop has halted *)
  Theorem match_all_halts fuel name c :
    (match_cost m name <= fuel)%nat -> match_all ufn m fuel name c = match_all ufn m (match_cost m name) name c.
  Proof. intros Hf. unfold match_all. rewrite !(mrun_events ufn m Hsane) by lia. reflexivity. Qed.

  Theorem lvs_match_spec fuel name nm l :
    strip_digest name = Ok nm -> (match_cost m nm <= fuel)%nat -> lvs_match ufn m fuel name = Ok l ->
    forall rs cn, In (rs, cn) l <->
      exists n c, tree_match ufn m nm [] n c /\ node_rule_names m n = Ok rs /\ cn = context_to_name m c.
  Proof.
    intros Hs Hf H. unfold lvs_match in H. rewrite Hs in H. cbn [bind] in H. rewrite (mrun_events ufn m Hsane) in H by exact Hf.
    apply (feed_collect (fun n _ => node_rule_names m n) (fun _ c rn => (rn, context_to_name m c))) in H. destruct H as [Ee HF].
    intros rs cn. rewrite HF. split.
    - intros (n & c & rn & Hin & Hrn & E). injection E as -> ->. exists n, c. split; [apply tree_match_root, events_sound, Hin | auto].
    - intros (n & c & Hp & Hrn & ->). exists n, c, rs. split; [|auto]. apply (events_complete ufn m _ _ _ _ _ Ee), tree_match_root, Hp.
  Qed.

  Theorem lvs_match_halts fuel name nm :
    strip_digest name = Ok nm -> (match_cost m nm <= fuel)%nat ->
    lvs_match ufn m fuel name = lvs_match ufn m (match_cost m nm) name.
  Proof. intros Hs Hf. unfold lvs_match. rewrite Hs. cbn [bind]. rewrite !(mrun_events ufn m Hsane) by lia. reflexivity. Qed.

  Definition key_test (pnode : node) : N -> ctx -> res bool := fun kn _ => Ok (existsb (N.eqb kn) (n_sign pnode)).

  Definition pkt_test (s : N) (k : list bytes) : N -> ctx -> res bool :=
    fun pn cx =>
      match get_node m pn with
      | None => Err EIndex
      | Some pnode => do r2 <- feed (bcons (key_test pnode)) (tree_events ufn m k s cx) tt ;; Ok (is_inr r2)
      end.

  Definition check_tree (s : N) (p k : list bytes) : res bool :=
    do r <- feed (bcons (pkt_test s k)) (tree_events ufn m p s []) tt ;; Ok (is_inr r).

  Lemma lvs_check_tree fuel pkt key p k :
    strip_digest pkt = Ok p -> strip_digest key = Ok k ->
    (Nat.max (match_cost m p) (match_cost m k) <= fuel)%nat ->
    lvs_check ufn m fuel pkt key = check_tree (root m) p k.
  Proof.
    intros Hp Hk Hf. unfold lvs_check. rewrite Hp, Hk. cbn [bind]. rewrite (mrun_events ufn m Hsane) by lia. unfold check_tree.
    rewrite (feed_ext _ (bcons (pkt_test (root m) k))).
    - destruct (feed (bcons (pkt_test (root m) k)) (tree_events ufn m p (root m) []) tt) as [[[]|[]]|]; reflexivity.
    - intros [] pn cx. unfold bcons at 1, pkt_test. destruct (get_node m pn) as [pnode|]; [|reflexivity].
      rewrite (mrun_events ufn m Hsane) by lia. rewrite (feed_ext _ (bcons (key_test pnode))).
      + destruct (feed (bcons (key_test pnode)) (tree_events ufn m k (root m) cx) tt) as [[[]|[]]|]; reflexivity.
      + intros [] kn c0. unfold bcons, key_test. cbn. destruct (existsb (N.eqb kn) (n_sign pnode)); reflexivity.
  Qed.

  Theorem lvs_check_spec fuel pkt key p k b :
    strip_digest pkt = Ok p -> strip_digest key = Ok k ->
    (Nat.max (match_cost m p) (match_cost m k) <= fuel)%nat ->
    lvs_check ufn m fuel pkt key = Ok b ->
    (b = true <-> exists pn cx pnode kn cx',
        tree_match ufn m p [] pn cx /\ get_node m pn = Some pnode /\ tree_match ufn m k cx kn cx' /\ In kn (n_sign pnode)).
  Proof.
    intros Hp Hk Hf H. rewrite (lvs_check_tree fuel pkt key p k Hp Hk Hf) in H. apply bcons_answer in H. destruct b.
    - split; [intros _|reflexivity]. destruct H as (pn & cx & Hin & Ht).
      unfold pkt_test in Ht. destruct (get_node m pn) as [pnode|] eqn:Eg; [|discriminate].
      apply bcons_answer in Ht. destruct Ht as (kn & cx' & Hink & Htk). injection Htk as Hx. apply (existsb_eqb_in N.eqb N.eqb_eq) in Hx.
      exists pn, cx, pnode, kn, cx'. rewrite !tree_match_root. auto using events_sound.
    - split; [discriminate|]. intros (pn & cx & pnode & kn & cx' & Hpp & Hg & Hpk & Hin). destruct H as [Ee Hall].
      apply tree_match_root, (events_complete ufn m _ _ _ _ _ Ee), Hall in Hpp. unfold pkt_test in Hpp. rewrite Hg in Hpp.
      apply bcons_answer in Hpp. destruct Hpp as [Eek Hallk].
      apply tree_match_root, (events_complete ufn m _ _ _ _ _ Eek), Hallk in Hpk. unfold key_test in Hpk.
      rewrite (proj2 (existsb_eqb_in N.eqb N.eqb_eq kn _) Hin) in Hpk. discriminate.
  Qed.

  Theorem lvs_check_halts fuel pkt key p k :
    strip_digest pkt = Ok p -> strip_digest key = Ok k ->
    (Nat.max (match_cost m p) (match_cost m k) <= fuel)%nat ->
    lvs_check ufn m fuel pkt key = lvs_check ufn m (Nat.max (match_cost m p) (match_cost m k)) pkt key.
  Proof.
    intros Hp Hk Hf. rewrite (lvs_check_tree fuel pkt key p k Hp Hk Hf), (lvs_check_tree _ pkt key p k Hp Hk (Nat.le_refl _)). reflexivity.
  Qed.
End Thms.
