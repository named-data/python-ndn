(* C20 — default_face: a well-formed URI yields the face it denotes; a face is only ever produced for
   a scheme of the table (unknown scheme = error). *)
From NDN Require Import Base.Prelude Base.Text Model.ConfBase Model.ClientConf Spec.ClientConfSpec
  Proofs.ListLemmas Proofs.TextProofs Proofs.ConfBaseLemmas.
From Coq Require Strings.String Strings.Ascii.
Import Coq.Strings.String.StringSyntax Coq.Strings.Ascii.AsciiSyntax.
Local Open Scope N_scope.

Definition scheme_ok (s : str) : bool :=
  match s with c :: _ => is_alpha c | [] => false end && forallb is_scheme_char s.

Definition port_text (port : option str) : str :=
  match port with Some p => ch_colon :: p | None => [] end.

(* what urlsplit leaves alone in a netloc *)
Definition netloc_plain (c : N) : bool := negb (is_netloc_end c) && negb (is_unsafe c) && (c <? 128).

#[local] Hint Unfold uri_plain name_char v6_char netloc_plain : chars.

Lemma lower_alpha c : is_alpha (lower_c c) = true -> is_alpha c = true.
Proof.
  unfold lower_c, is_alpha. destruct (is_upper c) eqn:E; cbv iota; [intros _; reflexivity | rewrite E; trivial].
Qed.
Lemma lower_scheme_char c : is_scheme_char (lower_c c) = true -> is_scheme_char c = true.
Proof.
  unfold lower_c, is_scheme_char, is_alpha.
  destruct (is_upper c) eqn:E; cbv iota; [intros _; reflexivity | rewrite E; trivial].
Qed.

Lemma scheme_ok_lower s : scheme_ok (lower s) = true -> scheme_ok s = true.
Proof.
  unfold scheme_ok. intros H. apply andb_true_iff in H as [H1 H2]. apply andb_true_iff. split.
  - destruct s as [|c r]; [discriminate|]. apply lower_alpha. exact H1.
  - unfold lower in H2. rewrite forallb_forall in *. intros x Hx. apply lower_scheme_char. apply H2.
    apply in_map. exact Hx.
Qed.

Lemma scheme_kind_ok s k : scheme_kind (lower s) = Some k -> scheme_ok s = true.
Proof.
  intros H. apply (al_get_some_in str_eqb str_eqb_spec) in H.
  assert (T : forallb (fun p => scheme_ok (fst p)) scheme_table = true) by reflexivity.
  rewrite forallb_forall in T. apply scheme_ok_lower, (T _ H).
Qed.

Lemma default_face_eq nf uri :
  default_face nf uri =
  do u <- urlsplit nf uri ;;
  match scheme_kind (u_scheme u) with
  | Some KUnix => Ok (FUnix (if nonempty (u_path u) then u_path u else unix_default_path))
  | k => do port <- url_port (u_netloc u) ;;
         let port' := match port with Some 0 => default_port | Some p => p | None => default_port end in
         match k with
         | Some KTcp => Ok (FTcp (match url_hostname (u_netloc u) with Some (c :: h) => c :: h | _ => tcp_default_host end) port')
         | Some KUdp => Ok (FUdp (url_hostname (u_netloc u)) port')
         | _ => Err EValue
         end
  end.
Proof.
  unfold default_face, scheme_in, scheme_kind, scheme_table. destruct (urlsplit nf uri) as [u|e]; [|reflexivity]. cbn [bind].
  (* true of any seven strings *)
  generalize (slit "unix"), (slit "tcp"), (slit "tcp4"), (slit "tcp6"), (slit "udp"), (slit "udp4"), (slit "udp6").
  intros s t t4 t6 d d4 d6. cbn [al_get existsb]. destruct (str_eqb (u_scheme u) s); [reflexivity|].
  destruct (url_port (u_netloc u)) as [port|e]; cbn [bind].
  all: set (x := u_scheme u); repeat (destruct (str_eqb x _); [reflexivity|]); reflexivity.
Qed.

Lemma scheme_clean scheme rest :
  scheme_ok scheme = true ->
  filter (fun c => negb (is_unsafe c)) (lstrip_by is_c0_or_space (scheme ++ ch_colon :: rest)) =
  scheme ++ ch_colon :: filter (fun c => negb (is_unsafe c)) rest.
Proof.
  unfold scheme_ok. intros H. apply andb_true_iff in H as [Hc Hs].
  destruct scheme as [|c s]; [discriminate|]. cbn [app].
  rewrite lstrip_by_head by (revert Hc; charc; lia).
  rewrite app_comm_cons, filter_app, filter_id by (by_chars Hs). reflexivity.
Qed.

Lemma scheme_split scheme rest :
  scheme_ok scheme = true -> partition_on ch_colon (scheme ++ ch_colon :: rest) = (scheme, Some rest).
Proof.
  unfold scheme_ok. intros H. apply andb_true_iff in H. apply partition_on_app.
  exact (forallb_avoid ch_colon (proj2 H) eq_refl).
Qed.

Lemma tail_ok_filter tail : tail_ok tail = true -> tail_ok (filter (fun c => negb (is_unsafe c)) tail) = true.
Proof.
  destruct tail as [|c t]; [reflexivity|]. cbn [tail_ok filter]. intros H.
  replace (is_unsafe c) with false by (revert H; charc; lia). exact H.
Qed.

Lemma urlsplit_authority nf scheme netloc tail :
  scheme_ok scheme = true -> forallb netloc_plain netloc = true -> netloc_brackets_ok netloc = true ->
  tail_ok tail = true ->
  urlsplit nf (scheme ++ slit "://" ++ netloc ++ tail) =
  Ok (mk_url (lower scheme) netloc
        (fst (partition_on ch_q (fst (partition_on ch_hash (filter (fun c => negb (is_unsafe c)) tail)))))).
Proof.
  intros Hs Hn Hb Ht. unfold urlsplit.
  change (scheme ++ slit "://" ++ netloc ++ tail) with (scheme ++ ch_colon :: [ch_slash; ch_slash] ++ netloc ++ tail).
  rewrite scheme_clean, scheme_split by exact Hs. destruct scheme as [|c s]; [discriminate|].
  change (is_alpha c && forallb is_scheme_char (c :: s)) with (scheme_ok (c :: s)). rewrite Hs.
  rewrite !filter_app, (filter_id _ netloc) by (by_chars Hn).
  change (filter _ [ch_slash; ch_slash]) with [47; 47]. cbn [app]. cbv iota beta.
  rewrite break_on_tail by (by_chars Hn || apply tail_ok_filter, Ht). rewrite Hb. cbn [bind].
  replace (is_ascii netloc) with true by (symmetry; by_chars Hn).
  destruct (filter _ tail); reflexivity.
Qed.

Lemma urlsplit_scheme nf scheme rest u :
  scheme_ok scheme = true -> urlsplit nf (scheme ++ ch_colon :: rest) = Ok u -> u_scheme u = lower scheme.
Proof.
  intros Hs. unfold urlsplit.
  rewrite scheme_clean, scheme_split by exact Hs. destruct scheme as [|c s]; [discriminate|].
  change (is_alpha c && forallb is_scheme_char (c :: s)) with (scheme_ok (c :: s)). rewrite Hs.
  match goal with |- context [bind ?X _] => destruct X as [[nl u3]|e] end; [|discriminate]. cbn [bind].
  destruct (negb (is_ascii nl) && nf nl); [discriminate|]. intros [= <-]. reflexivity.
Qed.

Lemma v6_text a s : host_text (HV6 a) ++ s = ch_lbr :: a ++ ch_rbr :: s.
Proof. cbn. rewrite <- app_assoc. reflexivity. Qed.

Lemma port_text_chars port :
  port_ok port = true -> forallb (fun c => is_digit c || (c =? ch_colon)) (port_text port) = true.
Proof.
  destruct port as [p|]; [|reflexivity]. cbn [port_ok port_text forallb].
  intros [[[_ Hd]%andb_prop _]%andb_prop _]%andb_prop. apply andb_true_intro. split; [reflexivity | by_chars Hd].
Qed.

(* one class of characters for each form of host[:port]: what lies outside it does not occur (forallb_avoid) *)
Lemma name_port_chars n port :
  forallb name_char n = true -> port_ok port = true ->
  forallb (fun c => name_char c || (is_digit c || (c =? ch_colon))) (n ++ port_text port) = true.
Proof.
  intros Hn Hp.
  rewrite forallb_app, (forallb_orb_l _ _ n Hn), (forallb_orb_r _ _ _ (port_text_chars port Hp)). reflexivity.
Qed.

Lemma v6_port_chars a port :
  forallb v6_char a = true -> port_ok port = true ->
  forallb (fun c => v6_char c || (c =? ch_lbr) || (c =? ch_rbr)) (host_text (HV6 a) ++ port_text port) = true.
Proof.
  intros Ha Hp. rewrite v6_text. cbn [forallb]. rewrite forallb_app. cbn [forallb].
  rewrite (forallb_orb_l _ _ a (forallb_orb_l _ _ a Ha)).
  (* digits and the colon are IPv6 characters *)
  replace (forallb _ (port_text port)) with true by (symmetry; by_chars (port_text_chars port Hp)). reflexivity.
Qed.

Lemma netloc_ok h port :
  host_ok h = true -> port_ok port = true ->
  forallb netloc_plain (host_text h ++ port_text port) = true /\
  netloc_brackets_ok (host_text h ++ port_text port) = true /\
  hostinfo (host_text h ++ port_text port) = (match h with HName n => n | HV6 a => a end, port).
Proof.
  intros Hh Hp. unfold netloc_brackets_ok, hostinfo.
  destruct h as [n|a]; apply andb_true_iff in Hh; destruct Hh as [H1 H2].
  - pose proof (name_port_chars n port H2 Hp) as Hc. cbn [host_text]. split; [by_chars Hc|].
    rewrite (contains_false ch_lbr) by exact (forallb_avoid ch_lbr Hc eq_refl).
    rewrite (contains_false ch_rbr) by exact (forallb_avoid ch_rbr Hc eq_refl). split; [reflexivity|].
    rewrite rpartition_on_none by exact (forallb_avoid ch_at Hc eq_refl). cbn [snd].
    rewrite (partition_on_none ch_lbr) by exact (forallb_avoid ch_lbr Hc eq_refl).
    destruct port as [[|d p]|]; [discriminate| |]; cbn [port_text].
    + rewrite partition_on_app by exact (forallb_avoid ch_colon H2 eq_refl). reflexivity.
    + rewrite app_nil_r, partition_on_none by exact (forallb_avoid ch_colon H2 eq_refl). reflexivity.
  - pose proof (v6_port_chars a port H1 Hp) as Hc. rewrite v6_text in *. split; [by_chars Hc|].
    replace (contains ch_lbr _) with true by (symmetry; apply (contains_mid ch_lbr [])).
    replace (contains ch_rbr _) with true by (symmetry; apply (contains_mid ch_rbr (ch_lbr :: a))).
    cbn [negb andb orb].
    rewrite rpartition_on_none by exact (forallb_avoid ch_at Hc eq_refl). cbn [snd].
    rewrite partition_on_head, partition_on_app by exact (forallb_avoid ch_rbr H1 eq_refl). split; [exact H2|].
    destruct port as [[|d p]|]; [discriminate| |]; cbn [port_text].
    + rewrite partition_on_head. reflexivity.
    + reflexivity.
Qed.

Lemma url_hostname_ok netloc h port :
  hostinfo netloc = (match h with HName n => n | HV6 a => a end, port) -> host_ok h = true ->
  url_hostname netloc = Some (host_addr h) /\ nonempty (host_addr h) = true.
Proof.
  intros E Hh. unfold url_hostname. rewrite E. cbn [fst].
  destruct h as [[|c r]|[|c r]]; apply andb_true_iff in Hh; destruct Hh as [H1 H2]; try discriminate.
  - rewrite partition_on_none by exact (forallb_avoid ch_pct H2 eq_refl). split; reflexivity.
  - cbn [host_addr partition_on]. destruct (c =? ch_pct); [split; reflexivity|].
    destruct (partition_on ch_pct r) as [x [z|]]; split; reflexivity.
Qed.

(* the port default_face ends up with ("if not port") is the port the URI denotes, as the port is not 0 *)
Lemma url_port_ok netloc x port :
  hostinfo netloc = (x, port) -> port_ok port = true ->
  exists o, url_port netloc = Ok o /\
            match o with Some 0 => default_port | Some p => p | None => default_port end = denoted_port port.
Proof.
  intros E Hp. unfold url_port. rewrite E. cbn [snd]. destruct port as [p|]; [|eexists; split; reflexivity].
  cbn [port_ok] in Hp. apply andb_prop in Hp as [[[_ Hdig]%andb_prop Hlo]%andb_prop Hhi].
  rewrite Hdig, Hhi. eexists. split; [reflexivity|]. cbn [denoted_port]. destruct (dec_of p); [lia|reflexivity].
Qed.

(* scheme://host[:port][tail] with a tcp*/udp* scheme gives the face the URI denotes *)
Theorem default_face_denoted nf scheme k h port tail :
  scheme_kind (lower scheme) = Some k -> k <> KUnix ->
  host_ok h = true -> port_ok port = true -> tail_ok tail = true ->
  default_face nf (uri_text scheme h port tail) = Ok (denoted_face k h port tail).
Proof.
  intros Hk Hnu Hh Hp Ht. rewrite default_face_eq. unfold uri_text.
  change (match port with Some p => ch_colon :: p | None => [] end) with (port_text port).
  rewrite (app_assoc (host_text h)).
  destruct (netloc_ok h port Hh Hp) as (Hpl & Hbr & Hi).
  destruct (url_hostname_ok _ _ _ Hi Hh) as [Hhost Hne].
  destruct (url_port_ok _ _ _ Hi Hp) as (o & Hport & Hport').
  rewrite urlsplit_authority; [| apply (scheme_kind_ok _ k), Hk | assumption..].
  cbn [bind u_scheme u_netloc u_path]. rewrite Hk, Hhost, Hport. cbn [bind]. rewrite Hport'.
  destruct k; [congruence| |reflexivity]. cbn [denoted_face]. destruct (host_addr h); [discriminate|reflexivity].
Qed.

Theorem default_face_unix nf scheme path :
  scheme_kind (lower scheme) = Some KUnix -> unix_path_ok path = true ->
  default_face nf (scheme ++ slit "://" ++ path) = Ok (FUnix path).
Proof.
  intros Hk Hp. rewrite default_face_eq. apply andb_true_iff in Hp as [Hs Hc].
  change (scheme ++ slit "://" ++ path) with (scheme ++ slit "://" ++ [] ++ path).
  rewrite urlsplit_authority.
  - cbn [bind u_scheme u_path]. rewrite Hk, filter_id by (by_chars Hc).
    rewrite (partition_on_none ch_hash) by exact (forallb_avoid ch_hash Hc eq_refl). cbn [fst].
    rewrite (partition_on_none ch_q) by exact (forallb_avoid ch_q Hc eq_refl). cbn [fst].
    destruct path; [discriminate|]. reflexivity.
  - apply (scheme_kind_ok _ KUnix), Hk.
  - reflexivity.
  - reflexivity.
  - destruct path as [|c r]; [reflexivity|]. revert Hs. unfold starts_with, tail_ok. cbn [is_prefixb]. charc. lia.
Qed.

Theorem default_face_known_only nf uri f :
  default_face nf uri = Ok f ->
  exists u, urlsplit nf uri = Ok u /\ scheme_kind (u_scheme u) = Some (face_kind_of f).
Proof.
  rewrite default_face_eq. destruct (urlsplit nf uri) as [u|e]; [|discriminate]. cbn [bind].
  intros H. exists u. split; [reflexivity|].
  destruct (scheme_kind (u_scheme u)) as [[| |]|]; [|destruct (url_port (u_netloc u)); cbn [bind] in H..]; now inversion H.
Qed.

Theorem default_face_unknown_scheme nf scheme rest :
  scheme_ok scheme = true -> scheme_kind (lower scheme) = None ->
  exists e, default_face nf (scheme ++ ch_colon :: rest) = Err e.
Proof.
  intros Hs Hk. destruct (default_face nf (scheme ++ ch_colon :: rest)) as [f|e] eqn:E; [|eauto].
  destruct (default_face_known_only _ _ _ E) as (u & Hu & Hkk).
  rewrite (urlsplit_scheme _ _ _ _ Hs Hu) in Hkk. congruence.
Qed.
