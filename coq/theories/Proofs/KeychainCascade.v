(* Deleting a key removes its certificates and its private key; deleting an identity removes all its keys
   with theirs — and nothing else goes. *)
From NDN Require Import Base.Prelude Model.Keychain.
From NDN Require Import Proofs.KeychainTables Proofs.KeychainInv Proofs.KeychainOutcome Proofs.KeychainInvariant
  Proofs.KeychainDefaults.
Local Open Scope N_scope.

Definition key_gone (c c' : cst) (k : row) : Prop :=
  ~ In (r_name k) (map r_name (t_keys (db c'))) /\
  al_get name_eqb (tpm c') (r_name k) = None /\
  forall ce, In ce (t_certs (db c)) -> r_par ce = r_id k -> ~ In ce (t_certs (db c')).

(* a key row that has vanished took everything beneath it along, by the invariant of the state after *)
Lemma key_gone_by_inv c c' k :
  inv c -> inv c' -> tables_shrink (db c) (db c') -> In k (t_keys (db c)) -> ~ In k (t_keys (db c')) -> key_gone c c' k.
Proof.
  intros I I' [_ [Sk Sc]] Hk Nk.
  assert (Nn : ~ In (r_name k) (map r_name (t_keys (db c')))).
  { intros H. apply in_map_iff in H. destruct H as [k' [En Hk']]. pose proof (shrink_in _ _ _ Sk Hk') as Hk'0.
    assert (k' = k) by (apply (name_inj _ _ _ (wf_k _ (inv_wf _ I))); assumption).
    subst. contradiction. }
  repeat split; [assumption | |].
  - destruct (al_get name_eqb (tpm c') (r_name k)) as [m|] eqn:E; [|reflexivity].
    destruct (inv_sub _ I' _ _ E) as [k' [Hk' [En _]]]. exfalso. apply Nn. rewrite <- En. apply in_map. assumption.
  - intros ce Hce Pce Hce'. destruct (wf_cref _ (inv_wf _ I') _ Hce') as [k' [Hk' Ek']].
    pose proof (shrink_in _ _ _ Sk Hk') as Hk'0.
    assert (k' = k) by (apply (id_inj _ _ _ (wf_k _ (inv_wf _ I))); auto; congruence).
    subst. contradiction.
Qed.

Section Casc.
  Variable F : Prop.

  Lemma del_ident_ok_gone n i ks c x :
    at_loop n i ks c -> del_ident_out F n ks c x -> forall r c', x = (Ok r, c') -> ~ In n (map r_name (t_ids (db c'))).
  Proof.
    intros A H. pattern ks, c, x. revert A H. apply del_ident_loop; try discriminate.
    - intros c0 _ r c' [= _ <-]. cbn. intros Hin. apply in_map_iff in Hin. destruct Hin as [i0 [En Hi]].
      apply r_delete_name_in in Hi. tauto.
    - auto.
  Qed.

  Lemma del_ident_frame n i ks c x :
    at_loop n i ks c -> del_ident_out F n ks c x ->
    (forall k0, In k0 (t_keys (db c)) -> ~ In (r_name k0) ks -> In k0 (t_keys (db (snd x)))) /\
    (forall ce, In ce (t_certs (db c)) ->
                (forall k0, In k0 (t_keys (db c)) -> r_id k0 = r_par ce -> ~ In (r_name k0) ks) ->
                In ce (t_certs (db (snd x)))) /\
    (forall i0, In i0 (t_ids (db c)) -> r_name i0 <> n -> In i0 (t_ids (db (snd x)))).
  Proof.
    intros A H. pattern ks, c, x. revert A H. apply del_ident_loop; cbn [snd].
    - intros c0 _. cbn. repeat split; auto. intros i0 Hi0 Ni0. apply r_delete_name_in. auto.
    - auto.
    - intros k ks0 c0 kr e c' _ _ Hout. destruct (out_del_key_err _ _ _ _ _ Hout) as [-> _]. auto.
    - intros k ks0 c0 k1 x0 _ L [IHk [IHc IHi]]. apply key_lookup_ok in L. destruct L as [Hk1 Nk1]. cbn in IHk, IHc, IHi.
      repeat split.
      + intros k0 Hk0 Nin. apply IHk.
        * apply r_delete_name_in. split; [assumption|]. intros E. apply Nin. left. auto.
        * intros Hin. apply Nin. right. assumption.
      + intros ce Hce Hpar. apply IHc.
        * apply r_delete_scope_in. split; [assumption|]. intros E. apply (Hpar k1 Hk1 (eq_sym E)). left. auto.
        * intros k0 Hk0 Ek0 Hin. apply r_delete_name_in in Hk0. apply (Hpar k0 (proj1 Hk0) Ek0). right. assumption.
      + intros i0 Hi0 Ni0. apply IHi; assumption.
  Qed.
End Casc.

Theorem del_key_cascade f kn c r c' :
  inv c -> run_op f (ODelKey kn) c = (Ok r, c') ->
  exists k, In k (t_keys (db c)) /\ r_name k = kn /\ key_gone c c' k /\
            (* nothing else goes *)
            t_ids (db c') = t_ids (db c) /\
            (forall k0, In k0 (t_keys (db c)) -> r_name k0 <> kn -> In k0 (t_keys (db c'))) /\
            (forall ce, In ce (t_certs (db c)) -> r_par ce <> r_id k -> In ce (t_certs (db c'))) /\
            (forall K, K <> kn -> al_get name_eqb (tpm c') K = al_get name_eqb (tpm c) K).
Proof.
  intros I R. pose proof (run_op_outs_inv f (ODelKey kn) c I) as H. rewrite R in H. cbn [outs] in H.
  destruct (out_del_key_ok _ _ _ _ _ H) as [k [Gk [-> ->]]]. apply key_lookup_ok in Gk. destruct Gk as [Hk Nk].
  exists k. repeat split; auto; cbn.
  - intros Hin. apply in_map_iff in Hin. destruct Hin as [k' [En Hk']]. apply r_delete_name_in in Hk'. destruct Hk'. congruence.
  - rewrite Nk. apply (al_get_del_eq name_eqb name_eqb_eq). apply I.
  - intros ce Hce Pce Hin. apply r_delete_scope_in in Hin. tauto.
  - intros k0 Hk0 Nk0. apply r_delete_name_in. auto.
  - intros ce Hce Pce. apply r_delete_scope_in. auto.
  - intros K NE. apply (al_get_del_neq name_eqb name_eqb_eq). assumption.
Qed.

Theorem del_identity_cascade f n c r c' :
  inv c -> run_op f (ODelIdentity n) c = (Ok r, c') ->
  exists i, In i (t_ids (db c)) /\ r_name i = n /\
            ~ In n (map r_name (t_ids (db c'))) /\
            (forall k, In k (t_keys (db c)) -> r_par k = r_id i -> key_gone c c' k) /\
            (* nothing else goes *)
            (forall i0, In i0 (t_ids (db c)) -> r_name i0 <> n -> In i0 (t_ids (db c'))) /\
            (forall k0, In k0 (t_keys (db c)) -> r_par k0 <> r_id i -> In k0 (t_keys (db c'))) /\
            (forall ce k0, In ce (t_certs (db c)) -> In k0 (t_keys (db c)) -> r_id k0 = r_par ce -> r_par k0 <> r_id i ->
                           In ce (t_certs (db c'))).
Proof.
  intros I R. pose proof (run_op_outs_inv f (ODelIdentity n) c I) as H.
  pose proof (inv_run_op f (ODelIdentity n) c _ _ I Logic.I R) as I'.
  rewrite R in H. cbn [outs] in H.
  destruct (out_del_identity_loop _ _ _ _ I H) as [[e [_ [=]]] | [i [ks [A D]]]].
  pose proof A as [_ [G Eks]]. pose proof (kc_get_ok _ _ _ G) as [Hi Ni].
  pose proof (del_ident_ok_gone _ _ _ _ _ _ A D r c' eq_refl) as Gone.
  pose proof (shrink_del_ident _ _ _ _ _ _ A D) as Sh. cbn [snd] in Sh.
  destruct (del_ident_frame _ _ _ _ _ _ A D) as [Fk [Fc Fi]]. cbn [snd] in *.
  assert (Scope : forall k0, In k0 (t_keys (db c)) -> r_par k0 <> r_id i -> ~ In (r_name k0) ks).
  { intros k0 Hk0 Pk0 Hin. rewrite <- Eks in Hin. apply v_iter_in in Hin. destruct Hin as [k1 [Hk1 [Nk1 Pk1]]].
    assert (k1 = k0) by (apply (name_inj _ _ _ (wf_k _ (inv_wf _ I))); assumption).
    subst. contradiction. }
  exists i. split; [assumption|]. split; [assumption|]. split; [assumption|]. split; [|split; [assumption|split]].
  - intros k Hk Pk. apply key_gone_by_inv; auto.
    intros Hk'. destruct (wf_kref _ (inv_wf _ I') _ Hk') as [i' [Hi' Ei']].
    destruct Sh as [Si _]. pose proof (shrink_in _ _ _ Si Hi') as Hi'0.
    assert (i' = i) by (apply (id_inj _ _ _ (wf_i _ (inv_wf _ I))); auto; congruence).
    subst i'. apply Gone. rewrite <- Ni. apply in_map. assumption.
  - intros k0 Hk0 Pk0. apply Fk; [assumption|]. apply Scope; assumption.
  - intros ce k0 Hce Hk0 Ek0 Pk0. apply Fc; [assumption|]. intros k1 Hk1 Ek1.
    assert (k1 = k0) by (apply (id_inj _ _ _ (wf_k _ (inv_wf _ I))); auto; congruence).
    subst. apply Scope; assumption.
Qed.
