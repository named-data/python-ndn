(* C10: the bytes the library puts on the wire (Nack envelope, reply with PIT token) are exactly the
   ones the specification writes down, they are envelopes in the sense of LpProofs.v, and the [reply] closures
   of several outstanding Interests echo each their own token whatever the order of the replies. *)
From NDN Require Import Base.Prelude Model.TlvVar Model.Tlv Model.Packet Model.Lp Spec.TlvWf
  Spec.LpSpec
  Proofs.TlvVarProofs Proofs.TlvSplit Proofs.TlvRoundtrip2 Proofs.LpUnknown Proofs.LpProofs.
From NDN Require Import Generated.Schemas Generated.ConstsLp.
Local Open Scope N_scope.

Lemma encode_lp_inner attrs :
  encode_lp attrs = do inner <- encode_model lp_depth lp_fields (mk_vals lp_fields attrs) ;; Ok (tlv LP_PACKET inner).
Proof.
  unfold encode_lp, encode_model. change (depth_of lp_outer) with (S lp_depth).
  change lp_outer with [(attr_lp_packet, KModel lp_fields false)].
  cbn [mk_vals map aget fst enc_fields_with]. rewrite N.eqb_refl, enc_val_model by reflexivity.
  destruct (enc_fields_with (enc_val lp_depth) lp_fields (mk_vals lp_fields attrs)); [|reflexivity].
  cbn [bind]. rewrite app_nil_r. reflexivity.
Qed.

Definition token_vals (k data : bytes) : list value :=
  mk_vals lp_fields [(attr_pit_token, VBytes k); (attr_fragment, VBytes data)].
Definition token_els (k data : bytes) : list elem :=
  [Elem T_PIT_TOKEN (N.of_nat (length k)) k; Elem T_FRAGMENT (N.of_nat (length data)) data].

Definition nack_vals (r : N) (i : bytes) : list value :=
  mk_vals lp_fields [(attr_nack, VModel (mk_vals nack_fields [(attr_nack_reason, VUint r)])); (attr_fragment, VBytes i)].
Definition nack_els (r : N) (i : bytes) : list elem :=
  let p := tlv T_NACK_REASON (nni_enc r) in
  [Elem T_NACK (N.of_nat (length p)) p; Elem T_FRAGMENT (N.of_nat (length i)) i].

Lemma token_wire k data : spec_reply_wire (Some k) data = lp_wire (token_els k data).
Proof. unfold lp_wire, token_els. rewrite ser_pair. reflexivity. Qed.

Lemma nack_wire r i : spec_nack_wire i r = lp_wire (nack_els r i).
Proof. unfold lp_wire, nack_els. rewrite ser_pair. reflexivity. Qed.

Lemma token_enc k data : encode_model lp_depth lp_fields (token_vals k data) = Ok (ser_els (token_els k data)).
Proof.
  unfold token_els. rewrite ser_pair. unfold token_vals, lp_depth, encode_model.
  (* evaluation over the 13 declared fields; cbv with the byte-level functions kept folded is a hundred times
     cheaper here than cbn *)
  cbv -[N.of_nat tl_enc app length tlv]. cbn [app]. rewrite !app_nil_r. reflexivity.
Qed.

Lemma nack_enc r i :
  encode_model lp_depth lp_fields (nack_vals r i) =
  if 256 ^ N.of_nat (nni_width r) <=? r then Err EValue else Ok (ser_els (nack_els r i)).
Proof.
  unfold nack_els. rewrite ser_pair. unfold nack_vals, lp_depth, encode_model.
  cbv -[N.pow N.of_nat nni_width N_to_be tl_enc N.leb app length tlv nni_enc].
  destruct (256 ^ N.of_nat (nni_width r) <=? r); [reflexivity|].
  cbn [app]. rewrite !app_nil_r, uint_element. reflexivity.
Qed.

Lemma nack_enc_ok r i : r < two64 -> encode_model lp_depth lp_fields (nack_vals r i) = Ok (ser_els (nack_els r i)).
Proof. intros Hr. rewrite nack_enc. pose proof (nni_width_bound r Hr). replace (_ <=? r) with false by lia. reflexivity. Qed.

Theorem wrap_with_token_bytes data k : wrap_with_token data k = Ok (spec_reply_wire (Some k) data).
Proof.
  unfold wrap_with_token. rewrite encode_lp_inner. change (mk_vals lp_fields _) with (token_vals k data).
  rewrite token_enc, token_wire. reflexivity.
Qed.

Lemma make_network_nack_inner i r :
  make_network_nack i r = do inner <- encode_model lp_depth lp_fields (nack_vals r i) ;; Ok (tlv LP_PACKET inner).
Proof. exact (encode_lp_inner _). Qed.

Theorem make_network_nack_bytes i r : r < two64 -> make_network_nack i r = Ok (spec_nack_wire i r).
Proof. intros Hr. rewrite make_network_nack_inner, (nack_enc_ok r i Hr), nack_wire. reflexivity. Qed.

Theorem make_network_nack_too_big i r : two64 <= r -> is_ok (make_network_nack i r) = false.
Proof.
  intros Hr. rewrite make_network_nack_inner, nack_enc.
  replace (_ <=? r) with true; [reflexivity|]. symmetry. apply N.leb_le.
  apply N.le_trans with two64; [|exact Hr]. rewrite <- pow256_8.
  apply N.pow_le_mono_r; [discriminate|]. pose proof (nni_width_le r). lia.
Qed.

(* the header-first variant puts the same bytes on a stream *)
Theorem put_nocopy_bytes data k :
  N.of_nat (length (spec_reply_wire (Some k) data)) < two64 ->
  exists h, put_raw_packet_with_pit_token_nocopy true data k = Ok [h; data] /\
            h ++ data = spec_reply_wire (Some k) data.
Proof.
  intros Hl. unfold spec_reply_wire in *. apply tlv_len_bound in Hl.
  set (body := tlv T_PIT_TOKEN k ++ tlv T_FRAGMENT data) in *.
  assert (encode_model lp_depth lp_fields (mk_vals lp_fields [(attr_pit_token, VBytes k)]) = Ok (tlv T_PIT_TOKEN k)) as Ept.
  { unfold lp_depth, encode_model. cbv -[N.of_nat tl_enc app length tlv]. cbn [app]. rewrite !app_nil_r. reflexivity. }
  unfold put_raw_packet_with_pit_token_nocopy. fold lp_depth. rewrite Ept. cbn [bind]. cbv zeta.
  change FRAGMENT with T_FRAGMENT.
  assert (length body = length (tlv T_PIT_TOKEN k) + tl_size T_FRAGMENT + tl_size (N.of_nat (length data)) + length data)%nat
    as Eb by (unfold body; rewrite app_length, (tlv_length T_FRAGMENT); lia).
  replace (_ + N.of_nat (length data)) with (N.of_nat (length body)) by lia.
  rewrite !tl_enc_r_ok by (reflexivity || lia). cbn [bind].
  eexists. split; [reflexivity|].
  unfold body, tlv. rewrite <- !app_assoc. reflexivity.
Qed.

Lemma pair_envelope vs t1 p1 t2 p2 (els := [Elem t1 (N.of_nat (length p1)) p1; Elem t2 (N.of_nat (length p2)) p2]) :
  Forall2 (fun f v => fits (snd f) v) lp_fields vs -> t1 < two64 -> t2 < two64 ->
  N.of_nat (length (ser_els els)) < two64 -> encode_model lp_depth lp_fields vs = Ok (ser_els els) ->
  envelope_of vs els.
Proof.
  intros HF H1 H2 Hl He. repeat split; try assumption; [|exists els; split; [exact He|apply with_unknown_refl]].
  subst els. rewrite ser_pair, app_length, !tlv_length in Hl. cbn [e_payload] in Hl.
  repeat constructor; cbn [e_type e_dlen e_payload]; try assumption; lia.
Qed.

Lemma token_envelope k data :
  N.of_nat (length (ser_els (token_els k data))) < two64 -> envelope_of (token_vals k data) (token_els k data).
Proof.
  intros Hl. apply pair_envelope; [|reflexivity|reflexivity|exact Hl|apply token_enc].
  unfold token_vals, lp_fields, ndnlp_v2_LpPacketValue, mk_vals. cbn [map aget fst N.eqb Pos.eqb attr_pit_token attr_fragment].
  repeat (constructor; try (cbn [snd]; first [apply fits_none | apply fits_bytes; discriminate])).
Qed.

Lemma token_vals_attrs k data :
  unfragmented (token_vals k data) /\ lp_attr (token_vals k data) attr_nack = VNone /\
  lp_token (token_vals k data) = Some k /\ lp_attr (token_vals k data) attr_fragment = VBytes data.
Proof. repeat split. Qed.

(* what the peer (or this library itself) reads from the reply: the token and the unmodified data *)
Theorem token_echo_parses k data :
  N.of_nat (length (ser_els (token_els k data))) < two64 ->
  exists vs, dec_lp (spec_reply_wire (Some k) data) = Ok vs /\ lp_token vs = Some k /\ lp_fragment vs = Some data /\
             lp_nack vs = None /\ unfragmented vs.
Proof.
  intros Hl. exists (token_vals k data).
  rewrite token_wire, (dec_lp_envelope _ _ (token_envelope k data Hl)). repeat split.
Qed.

Lemma nack_envelope r i :
  r < two64 -> N.of_nat (length (spec_nack_wire i r)) < two64 -> envelope_of (nack_vals r i) (nack_els r i).
Proof.
  intros Hr Hl. rewrite nack_wire in Hl. apply tlv_len_bound in Hl.
  apply pair_envelope; [|reflexivity|reflexivity|exact Hl|apply nack_enc_ok; exact Hr].
  unfold nack_vals, lp_fields, ndnlp_v2_LpPacketValue, nack_fields, ndnlp_v2_NetworkNack, mk_vals.
  cbn [map aget fst N.eqb Pos.eqb attr_nack attr_fragment attr_nack_reason].
  repeat (first [apply Forall2_nil | apply Forall2_cons]; cbn [snd]);
    try apply fits_none; try (apply fits_bytes; discriminate).
  apply fits_model. repeat (first [apply Forall2_nil | apply Forall2_cons]; cbn [snd]).
  apply (fits_uint None r (nni_width r)); [reflexivity|apply nni_width_bound; exact Hr].
Qed.

Lemma nack_vals_attrs r i :
  unfragmented (nack_vals r i) /\ lp_attr (nack_vals r i) attr_nack = VModel [VUint r] /\
  lp_nack (nack_vals r i) = Some (Some r) /\ lp_attr (nack_vals r i) attr_fragment = VBytes i.
Proof. repeat split. Qed.

(* make_network_nack / parse_network_nack / parse_lp_packet round trip, every reason 0 .. 2^64-1 *)
Theorem nack_roundtrip i r w :
  r < two64 -> make_network_nack i r = Ok w -> N.of_nat (length w) < two64 ->
  parse_network_nack w = Ok (Some r, Some i) /\ parse_lp_packet w = Ok (Some r, Some i).
Proof.
  intros Hr Hm Hl. rewrite (make_network_nack_bytes i r Hr) in Hm. injection Hm as <-.
  pose proof (nack_envelope r i Hr Hl) as He. rewrite nack_wire.
  unfold parse_lp_packet, parse_lp_packet_v2, parse_network_nack.
  rewrite (gen_decode_envelope _ _ He), (dec_lp_envelope _ _ He). split; reflexivity.
Qed.

Theorem reply_v2_spec now c data :
  reply_v2 true now c data = Ok (if c_deadline c <? now then [] else [spec_reply_wire (c_token c) data]).
Proof.
  unfold reply_v2. destruct (c_deadline c <? now); [reflexivity|].
  destruct (c_token c) as [k|]; [|reflexivity].
  unfold put_raw_packet_with_pit_token. rewrite wrap_with_token_bytes. reflexivity.
Qed.

Theorem reply_v2_not_running now c data :
  c_deadline c <? now = false -> reply_v2 false now c data = Err E_NETWORK.
Proof. intros H. unfold reply_v2. rewrite H. destruct (c_token c); reflexivity. Qed.

Fixpoint arrivals (h : list lp_event) : list closure :=
  match h with
  | [] => []
  | EvInterest tok dl :: r => Closure tok dl :: arrivals r
  | EvReply _ _ _ :: r => arrivals r
  end.

Lemma arrivals_app a b : arrivals (a ++ b) = arrivals a ++ arrivals b.
Proof. induction a as [|[tok dl|i now data] a IH]; cbn [app arrivals]; [reflexivity|rewrite IH; reflexivity|exact IH]. Qed.

Lemma lp_run_app running a b :
  lp_run running (a ++ b) = fold_left (lp_step running) b (lp_run running a).
Proof. unfold lp_run. apply fold_left_app. Qed.

Lemma lp_run_closures running h : fst (lp_run running h) = arrivals h.
Proof.
  induction h as [|e h IH] using rev_ind; [reflexivity|].
  rewrite lp_run_app, arrivals_app. cbn [fold_left]. destruct e as [tok dl|i now data]; cbn [lp_step arrivals].
  - cbn [fst]. rewrite IH. reflexivity.
  - destruct (nth_error (fst (lp_run running h)) i); cbn [fst]; rewrite IH, app_nil_r; reflexivity.
Qed.

(* C10: pairing under several outstanding Interests.  Whatever happened before ([pre]: arrivals of other
   Interests, replies to them in any order) and whatever the other tokens are, the reply to the i-th Interest
   puts on the face exactly [spec_reply_wire token_i data] (nothing after the deadline), where token_i is the
   token (or absence of token) the i-th Interest arrived with *)
Theorem token_echo_history pre i now data c :
  nth_error (arrivals pre) i = Some c ->
  snd (lp_run true (pre ++ [EvReply i now data])) =
  snd (lp_run true pre) ++ [(i, Ok (if c_deadline c <? now then [] else [spec_reply_wire (c_token c) data]))].
Proof.
  intros H. rewrite lp_run_app. cbn [fold_left lp_step]. rewrite lp_run_closures, H. cbn [snd].
  rewrite reply_v2_spec. reflexivity.
Qed.

Theorem arrivals_stable pre post i c :
  nth_error (arrivals pre) i = Some c -> nth_error (arrivals (pre ++ post)) i = Some c.
Proof.
  intros H. rewrite arrivals_app. rewrite nth_error_app1; [exact H|].
  apply nth_error_Some. congruence.
Qed.
