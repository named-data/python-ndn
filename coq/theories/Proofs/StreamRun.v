(* C06 (A): running a reading coroutine against a growing buffer.  [run_one_app] says that a coroutine
   cannot tell whether the bytes arrived at once or in pieces; it holds for EVERY coroutine tree, because
   readexactly consumes nothing until it can return.  [run_body_first_packet]: on any buffer the body of
   StreamFace.run does what Spec/Framing.v [first_packet] says. *)
From NDN Require Import Base.Prelude Model.TlvVar Model.Stream Spec.Framing Proofs.BytesLemmas
  Proofs.TlvVarProofs.
Local Open Scope N_scope.

Lemma take_varnum_dec w : take_varnum w = to_option (tl_dec w).
Proof.
  destruct w as [|b r]; [reflexivity|]. rewrite tl_dec_cons. cbn [take_varnum].
  destruct (b <=? 252); [reflexivity|]. rewrite unpack_be_leb. unfold lenw. destruct (Nat.leb _ (length r)); reflexivity.
Qed.

Lemma take_varnum_some w v sz : take_varnum w = Some (v, sz) -> tl_dec w = Ok (v, sz).
Proof. rewrite take_varnum_dec. destruct (tl_dec w) as [[a b]|]; cbn; intros H; inversion H; reflexivity. Qed.

Section Resume.
  Context {A : Type}.

  Lemma run_one_app (m : rd A) : forall buf c,
    run_one m (buf ++ c) =
    match run_one m buf with
    | ODone a rest => ODone a (rest ++ c)
    | OFail e => OFail e
    | OBlocked m' b => run_one m' (b ++ c)
    end.
  Proof.
    induction m as [a|e|n k IH]; intros buf c; [reflexivity|reflexivity|].
    cbn [run_one]. destruct (n <=? N.of_nat (length buf)) eqn:E; [|reflexivity].
    replace (n <=? N.of_nat (length (buf ++ c))) with true by (rewrite app_length; lia).
    rewrite firstn_app_le, skipn_app_le by lia. apply IH.
  Qed.

  Definition waiting (m : rd A) (b : bytes) : Prop :=
    exists n k, m = Read n k /\ N.of_nat (length b) < n.

  Lemma run_one_blocked_waiting (m : rd A) : forall buf m' b,
    run_one m buf = OBlocked m' b -> waiting m' b.
  Proof.
    induction m as [a0|e0|n k IH]; intros buf m' b H; cbn [run_one] in H; try discriminate.
    destruct (n <=? N.of_nat (length buf)) eqn:E.
    - eapply IH. exact H.
    - inversion H; subst. exists n, k. split; [reflexivity|lia].
  Qed.

  Lemma waiting_blocked (m : rd A) b : waiting m b -> run_one m b = OBlocked m b.
  Proof.
    intros (n & k & -> & H). cbn [run_one]. replace (n <=? N.of_nat (length b)) with false by lia. reflexivity.
  Qed.

  (* [pre] lets the induction pass the bytes already consumed along *)
  Lemma run_one_suffix (m : rd A) : forall pre buf,
    match run_one m buf with
    | ODone _ rest | OBlocked _ rest => exists used, pre ++ buf = used ++ rest
    | OFail _ => True
    end.
  Proof.
    induction m as [a|e|n k IH]; intros pre buf; cbn [run_one]; [exists pre; reflexivity|exact I|].
    destruct (n <=? N.of_nat (length buf)); [|exists pre; reflexivity].
    specialize (IH (firstn (N.to_nat n) buf) (pre ++ firstn (N.to_nat n) buf) (skipn (N.to_nat n) buf)).
    rewrite <- app_assoc, firstn_skipn in IH. exact IH.
  Qed.

  Lemma run_one_blocked_buf (m : rd A) : forall buf m' b,
    run_one m buf = OBlocked m' b -> exists used, buf = used ++ b.
  Proof. intros buf m' b H. pose proof (run_one_suffix m [] buf) as S. rewrite H in S. exact S. Qed.

  Lemma run_one_done_length (m : rd A) buf a rest : run_one m buf = ODone a rest -> (length rest <= length buf)%nat.
  Proof.
    intros H. pose proof (run_one_suffix m [] buf) as S. rewrite H in S. cbn [app] in S.
    destruct S as [used ->]. rewrite app_length. lia.
  Qed.

  Lemma run_one_read_consumes n k buf (a : A) rest :
    1 <= n -> run_one (Read n k) buf = ODone a rest -> (length rest < length buf)%nat.
  Proof.
    intros Hn H. cbn [run_one] in H. destruct (n <=? N.of_nat (length buf)) eqn:E; [|discriminate].
    apply run_one_done_length in H. rewrite skipn_length in H. lia.
  Qed.

  Fixpoint never_fails (m : rd A) : Prop :=
    match m with
    | Ret _ => True
    | Fail _ => False
    | Read n k => forall x, N.of_nat (length x) = n -> never_fails (k x)
    end.

  Lemma never_fails_run (m : rd A) : never_fails m -> forall buf,
    match run_one m buf with
    | ODone _ _ => True
    | OBlocked m' _ => never_fails m'
    | OFail _ => False
    end.
  Proof.
    induction m as [a|e|n k IH]; intros Hs buf; cbn [run_one]; [exact I|exact Hs|].
    destruct (n <=? N.of_nat (length buf)) eqn:E; [|exact Hs].
    apply IH. apply Hs. rewrite firstn_length. lia.
  Qed.
End Resume.

Lemma never_fails_bind {A B} (m : rd A) (f : A -> rd B) :
  never_fails m -> (forall a, never_fails (f a)) -> never_fails (rbind m f).
Proof.
  induction m as [a0|e0|n k IH]; intros Hm Hf; cbn [rbind never_fails] in *; auto.
Qed.

Lemma run_one_rbind {A B} (m : rd A) (f : A -> rd B) : forall buf,
  run_one (rbind m f) buf =
  match run_one m buf with
  | ODone a rest => run_one (f a) rest
  | OFail e => OFail e
  | OBlocked m' b => OBlocked (rbind m' f) b
  end.
Proof.
  induction m as [a|e|n k IH]; intros buf; [reflexivity|reflexivity|].
  cbn [run_one rbind]. destruct (n <=? N.of_nat (length buf)); [apply IH|reflexivity].
Qed.

Lemma read_ext_never_fails k bio : never_fails (read_ext k bio).
Proof.
  unfold read_ext. cbn [never_fails]. intros x Hx. unfold unpack_exact.
  replace (Nat.eqb (length x) k) with true by lia. exact I.
Qed.

Lemma read_tl_num_never_fails bio : never_fails (read_tl_num bio).
Proof.
  unfold read_tl_num. cbn [never_fails]. intros x Hx.
  destruct x as [|num x']; [cbn in Hx; lia|].
  destruct (num <=? 252); [exact I|].
  destruct (num =? 253); [apply read_ext_never_fails|].
  destruct (num =? 254); apply read_ext_never_fails.
Qed.

Lemma run_body_never_fails : never_fails run_body.
Proof.
  unfold run_body. apply never_fails_bind; [apply read_tl_num_never_fails|]. intros [typ bio].
  apply never_fails_bind; [apply read_tl_num_never_fails|]. intros [siz bio'].
  cbn [never_fails]. intros; exact I.
Qed.

Lemma run_one_read_ext k bio (r : bytes) :
  run_one (read_ext k bio) r =
  if Nat.leb k (length r) then ODone (be_to_N (firstn k r), bio ++ firstn k r) (skipn k r)
  else OBlocked (read_ext k bio) r.
Proof.
  unfold read_ext. cbn [run_one]. destruct (Nat.leb_spec k (length r)) as [L|L].
  - replace (N.of_nat k <=? N.of_nat (length r)) with true by lia.
    rewrite Nat2N.id. unfold unpack_exact. rewrite firstn_length, Nat.min_l, Nat.eqb_refl by exact L. reflexivity.
  - replace (N.of_nat k <=? N.of_nat (length r)) with false by lia. reflexivity.
Qed.

(* the same case analysis as [tl_dec_cons], with the extended forms left to [read_ext] *)
Lemma run_one_read_tl_num bio b r :
  run_one (read_tl_num bio) (b :: r) =
  if b <=? 252 then ODone (b, bio ++ [b]) r else run_one (read_ext (lenw b) (bio ++ [b])) r.
Proof.
  unfold read_tl_num, lenw. cbn [run_one].
  replace (1 <=? N.of_nat (length (b :: r))) with true by (cbn [length]; lia).
  change (N.to_nat 1) with 1%nat. cbn [firstn skipn].
  destruct (b <=? 252); [reflexivity|]. destruct (b =? 253); [reflexivity|]. destruct (b =? 254); reflexivity.
Qed.

(* the stream reader and the buffer parser (Model/TlvVar.v tl_dec = parse_tl_num) agree *)
Lemma read_tl_num_run bio w :
  match take_varnum w with
  | Some (v, sz) => run_one (read_tl_num bio) w = ODone (v, bio ++ firstn sz w) (skipn sz w)
  | None => exists m b, run_one (read_tl_num bio) w = OBlocked m b
  end.
Proof.
  destruct w as [|b r]; [eexists _, _; reflexivity|]. rewrite run_one_read_tl_num. cbn [take_varnum].
  destruct (b <=? 252); [reflexivity|]. rewrite run_one_read_ext.
  destruct (Nat.leb _ (length r)); [|eexists _, _; reflexivity].
  cbn [firstn skipn]. rewrite <- app_assoc. reflexivity.
Qed.

Theorem read_tl_num_dec w v sz bio :
  tl_dec w = Ok (v, sz) ->
  run_one (read_tl_num bio) w = ODone (v, bio ++ firstn sz w) (skipn sz w).
Proof. intros H. pose proof (read_tl_num_run bio w) as R. rewrite take_varnum_dec, H in R. exact R. Qed.

Lemma varnum_dec w v r : varnum w v -> tl_dec (w ++ r) = Ok (v, length w).
Proof.
  intros [b Hb|x Hx|x Hx|x Hx].
  - cbn [app]. rewrite tl_dec_cons. replace (b <=? 252) with true by lia. reflexivity.
  - exact (tl_dec_ext 253 x r eq_refl Hx).
  - exact (tl_dec_ext 254 x r eq_refl Hx).
  - exact (tl_dec_ext 255 x r eq_refl Hx).
Qed.

Lemma varnum_take w v r : varnum w v -> take_varnum (w ++ r) = Some (v, length w).
Proof. intros H. rewrite take_varnum_dec, (varnum_dec w v r H). reflexivity. Qed.

Lemma first_packet_framed p r : framed p -> first_packet (snd p ++ r) = Some (p, r).
Proof.
  intros [t tn ln body Ht Hl]. cbn [snd]. unfold first_packet. rewrite <- !app_assoc.
  rewrite (varnum_take tn t _ Ht), skipn_app_exact, (varnum_take ln _ _ Hl).
  rewrite <- skipn_add, skipn_app_exact, skipn_app_exact, app_length.
  replace (N.of_nat (length body) <=? N.of_nat (length body + length r)) with true by lia.
  rewrite Nat2N.id, skipn_app_exact.
  rewrite !app_assoc, <- !app_length, firstn_app_exact. reflexivity.
Qed.

Theorem run_body_first_packet w :
  match first_packet w with
  | Some (p, rest) => run_one run_body w = ODone p rest
  | None => exists m b, run_one run_body w = OBlocked m b
  end.
Proof.
  unfold first_packet, run_body. rewrite run_one_rbind.
  pose proof (read_tl_num_run [] w) as R1. destruct (take_varnum w) as [[t a]|].
  2:{ destruct R1 as (m & b & ->). eexists _, _. reflexivity. }
  rewrite R1, run_one_rbind. cbn [app].
  pose proof (read_tl_num_run (firstn a w) (skipn a w)) as R2. destruct (take_varnum (skipn a w)) as [[l b]|].
  2:{ destruct R2 as (m & b & ->). eexists _, _. reflexivity. }
  rewrite R2. cbn [run_one]. rewrite !skipn_add.
  destruct (l <=? N.of_nat (length (skipn (a + b) w))).
  - rewrite !firstn_add, <- app_assoc. reflexivity.
  - eexists _, _. reflexivity.
Qed.

Theorem run_body_framed p r : framed p -> run_one run_body (snd p ++ r) = ODone p r.
Proof. intros H. pose proof (run_body_first_packet (snd p ++ r)) as R. rewrite (first_packet_framed p r H) in R. exact R. Qed.

Theorem run_body_partial pre : partial_packet pre -> exists m b, run_one run_body pre = OBlocked m b.
Proof.
  intros (t & suf & Hs & Hf).
  pose proof (run_body_framed _ [] Hf) as H. cbn [snd] in H. rewrite app_nil_r, run_one_app in H.
  destruct (run_one run_body pre) as [a rest|m b|e]; [|exists m, b; reflexivity|discriminate].
  injection H as _ H. destruct rest; destruct suf; try discriminate. congruence.
Qed.

Lemma run_body_empty : run_one run_body [] = OBlocked run_body [].
Proof. reflexivity. Qed.

Lemma run_body_consumes buf p rest : run_one run_body buf = ODone p rest -> (length rest < length buf)%nat.
Proof. apply (run_one_read_consumes 1%N). lia. Qed.
