(* Strings of Base/Text.v, in this order: string equality; strings over a character class, with a principle for per-byte
   facts by exhaustive check; decimal printing by its one equation and parsing it back; hexadecimal digits and parsing
   after printing; splitting after joining. *)
From NDN Require Import Base.Prelude Base.Text Proofs.ListLemmas.
Local Open Scope N_scope.

Lemma str_eqb_spec a b : str_eqb a b = true <-> a = b.
Proof. apply list_eqb_spec. intros; apply N.eqb_eq. Qed.

Lemma str_eqb_refl a : str_eqb a a = true.
Proof. apply (eqb_refl' _ str_eqb_spec). Qed.

Lemma str_eqb_head c r k kr : (c =? k) = false -> str_eqb (c :: r) (k :: kr) = false.
Proof. intros H. unfold str_eqb. cbn [list_eqb]. now rewrite H. Qed.

(* "c does not occur in s" is written [~ In c s] or, where a string is scanned for c, as a [forallb] *)
Lemma avoids_notin c s : forallb (fun x => negb (x =? c)) s = true <-> ~ In c s.
Proof.
  rewrite forallb_forall. split.
  - intros H Hi. specialize (H c Hi). rewrite N.eqb_refl in H. discriminate.
  - intros H x Hx. destruct (N.eqb_spec x c) as [->|_]; [contradiction|reflexivity].
Qed.

Lemma not_in_class (C : N -> bool) k l : C k = false -> forallb C l = true -> ~ In k l.
Proof. intros Hk Hl Hin. rewrite forallb_forall in Hl. apply Hl in Hin. congruence. Qed.

Lemma forallb_avoid {P : N -> bool} {s} c :
  forallb P s = true -> P c = false -> forallb (fun x => negb (x =? c)) s = true.
Proof. intros H Hc. apply avoids_notin, (not_in_class P c s Hc H). Qed.

Definition all_bytes : list N := map N.of_nat (seq 0 256).

Lemma byte_forall (P : N -> bool) : forallb P all_bytes = true -> forall b, b < 256 -> P b = true.
Proof.
  intros H b Hb. rewrite forallb_forall in H. apply H. unfold all_bytes.
  apply in_map_iff. exists (N.to_nat b). split; [lia|]. apply in_seq. lia.
Qed.

Lemma dec_aux_S f n acc :
  dec_aux (S f) n acc = if n <? 10 then (48 + n mod 10) :: acc else dec_aux f (n / 10) ((48 + n mod 10) :: acc).
Proof. reflexivity. Qed.

Lemma dec_aux_acc f : forall n acc, dec_aux f n acc = dec_aux f n [] ++ acc.
Proof.
  induction f as [|f IH]; intros n acc; [reflexivity|]. rewrite !dec_aux_S. destruct (n <? 10); [reflexivity|].
  rewrite IH, (IH _ [_]), <- app_assoc. reflexivity.
Qed.

Lemma dec_aux_fuel f : forall f' n acc, n < 2 ^ N.of_nat (S f) -> n < 2 ^ N.of_nat (S f') ->
  dec_aux (S f) n acc = dec_aux (S f') n acc.
Proof.
  induction f as [|f IH]; intros f' n acc H H'; rewrite (dec_aux_S _ n), (dec_aux_S f' n);
    destruct (N.ltb_spec n 10) as [L|L]; try reflexivity.
  - change (2 ^ N.of_nat 1) with 2 in H. lia.
  - rewrite Nat2N.inj_succ, N.pow_succ_r' in H, H'. destruct f' as [|f']; [change (2 ^ N.of_nat 1) with 2 in H'; lia|].
    apply IH; apply N.div_lt_upper_bound; lia.
Qed.

Lemma dec_fuel n : n < 2 ^ N.of_nat (S (N.to_nat (N.log2 n))).
Proof.
  rewrite Nat2N.inj_succ, N2Nat.id. destruct n; [reflexivity|]. apply N.log2_spec. reflexivity.
Qed.

(* the one equation of [dec_print]: nobody needs [dec_aux] or its fuel after it *)
Theorem dec_print_eq n : dec_print n = if n <? 10 then [48 + n] else dec_print (n / 10) ++ [48 + n mod 10].
Proof.
  unfold dec_print at 1. rewrite dec_aux_S. destruct (N.ltb_spec n 10) as [H|H]; [now rewrite N.mod_small|].
  pose proof (dec_fuel n) as F. rewrite Nat2N.inj_succ, N.pow_succ_r' in F.
  destruct (N.to_nat (N.log2 n)) as [|f]; [change (2 ^ N.of_nat 0) with 1 in F; lia|].
  rewrite dec_aux_acc. f_equal. apply dec_aux_fuel; [apply N.div_lt_upper_bound; lia|apply dec_fuel].
Qed.

Lemma dec_print_small n : n < 10 -> dec_print n = [48 + n].
Proof. intros H. rewrite dec_print_eq. now destruct (N.ltb_spec n 10); [|lia]. Qed.

Lemma dec_print_big n : 10 <= n -> dec_print n = dec_print (n / 10) ++ [48 + n mod 10].
Proof. intros H. rewrite dec_print_eq at 1. now destruct (N.ltb_spec n 10); [lia|]. Qed.

Lemma dec_ind (P : N -> Prop) : (forall n, (10 <= n -> P (n / 10)) -> P n) -> forall n, P n.
Proof.
  intros H n. induction n as [n IH] using (well_founded_induction N.lt_wf_0). apply H. intros Hn. apply IH.
  apply N.div_lt; lia.
Qed.

Definition dec_val (a : N) (s : str) : N := fold_left (fun a c => a * 10 + (c - 48)) s a.

Theorem dec_print_spec n :
  dec_print n <> [] /\ forallb is_digit (dec_print n) = true /\ dec_val 0 (dec_print n) = n.
Proof.
  induction n as [n IH] using dec_ind. destruct (N.lt_ge_cases n 10) as [H|H].
  - rewrite dec_print_small by exact H. repeat split; [discriminate|cbn [forallb]; unfold is_digit; lia|unfold dec_val; cbn [fold_left]; lia].
  - rewrite dec_print_big by exact H. destruct (IH H) as (I1 & I2 & I3). pose proof (N.mod_lt n 10 ltac:(lia)). repeat split.
    + destruct (dec_print (n / 10)); [congruence|discriminate].
    + rewrite forallb_app, I2. cbn [forallb]. unfold is_digit. lia.
    + unfold dec_val in *. rewrite fold_left_app, I3. cbn [fold_left]. pose proof (N.div_mod n 10 ltac:(lia)). lia.
Qed.

Lemma dec_digits_all_digits s : forall acc b,
  forallb is_digit s = true -> s <> [] -> dec_digits acc b s = Some (dec_val acc s).
Proof.
  induction s as [|c s IH]; intros acc b Hd Hne; [congruence|].
  cbn [forallb] in Hd. apply andb_true_iff in Hd. destruct Hd as [Hc Hs].
  cbn [dec_digits]. rewrite Hc. destruct s as [|c' s'].
  - reflexivity.
  - rewrite IH by (assumption || discriminate). reflexivity.
Qed.

(* int(f"{n}") = n *)
Theorem py_int_dec_print n : py_int (dec_print n) = Some (Z.of_N n).
Proof.
  destruct (dec_print_spec n) as (Hne & Hd & Hv). unfold py_int.
  destruct (dec_print n) as [|c s] eqn:E; [congruence|].
  assert (Hc : is_digit c = true) by (cbn in Hd; apply andb_true_iff in Hd; tauto).
  assert (c <> 45) by (unfold is_digit in Hc; lia).
  rewrite dec_digits_all_digits by (assumption || discriminate). rewrite Hv.
  destruct c as [|p]; [reflexivity|].
  (* [py_int] tests for the sign by a [match] on the numeral 45: c, which is not 45, is taken apart bit by bit
     until the match has decided *)
  repeat (destruct p as [p|p|]; try reflexivity); congruence.
Qed.

Lemma hexval_upper v : v < 16 -> hexval (hexdigit_upper v) = Some v.
Proof.
  intros H. unfold hexval, hexdigit_upper. destruct (v <? 10) eqn:E.
  - replace ((48 <=? 48 + v) && (48 + v <=? 57)) with true by lia. f_equal. lia.
  - replace ((48 <=? 55 + v) && (55 + v <=? 57)) with false by lia.
    replace ((65 <=? 55 + v) && (55 + v <=? 70)) with true by lia. f_equal. lia.
Qed.

Lemma hexval_lower v : v < 16 -> hexval (hexdigit_lower v) = Some v.
Proof.
  intros H. unfold hexval, hexdigit_lower. destruct (v <? 10) eqn:E.
  - replace ((48 <=? 48 + v) && (48 + v <=? 57)) with true by lia. f_equal. lia.
  - replace ((48 <=? 87 + v) && (87 + v <=? 57)) with false by lia.
    replace ((65 <=? 87 + v) && (87 + v <=? 70)) with false by lia.
    replace ((97 <=? 87 + v) && (87 + v <=? 102)) with true by lia. f_equal. lia.
Qed.

(* fromhex(b.hex()) = b *)
Theorem hex_parse_print (b : bytes) : wf_bytes b -> hex_parse (hex_print b) = Some b.
Proof.
  induction 1 as [|x b Hx Hb IH]; [reflexivity|].
  cbn [hex_print hex_parse]. rewrite !hexval_lower by lia. cbn [obind]. rewrite IH. cbn [obind].
  replace (x / 16 * 16 + x mod 16) with x by lia. reflexivity.
Qed.

Lemma join_with_snoc sep l y : l <> [] -> join_with sep (l ++ [y]) = join_with sep l ++ sep :: y.
Proof.
  induction l as [|x [|x' l] IH]; intros H; [congruence|reflexivity|].
  change (x :: x' :: l) with ([x] ++ x' :: l) at 1. cbn [app join_with] in *. rewrite IH by discriminate.
  rewrite <- app_assoc. reflexivity.
Qed.

Lemma split_on_nonempty sep s : split_on sep s <> [].
Proof. induction s as [|c s IH]; cbn; [discriminate|]. destruct (c =? sep); [discriminate|]. destruct (split_on sep s); discriminate. Qed.

Lemma split_on_no_sep sep s : forallb (fun c => negb (c =? sep)) s = true -> split_on sep s = [s].
Proof.
  induction s as [|c s IH]; intros H; [reflexivity|].
  cbn [forallb] in H. apply andb_true_iff in H. destruct H as [Hc Hs].
  cbn [split_on]. destruct (c =? sep); [discriminate|]. rewrite IH by exact Hs. reflexivity.
Qed.

Lemma split_on_app sep a r :
  forallb (fun c => negb (c =? sep)) a = true ->
  split_on sep (a ++ sep :: r) = a :: split_on sep r.
Proof.
  induction a as [|c a IH]; intros H.
  - cbn [app split_on]. rewrite N.eqb_refl. reflexivity.
  - cbn [forallb] in H. apply andb_true_iff in H. destruct H as [Hc Hs].
    cbn [app split_on]. destruct (c =? sep); [discriminate|]. rewrite IH by exact Hs. reflexivity.
Qed.

(* split(join(parts)) = parts *)
Theorem split_join sep (parts : list str) :
  parts <> [] -> Forall (fun p => forallb (fun c => negb (c =? sep)) p = true) parts ->
  split_on sep (join_with sep parts) = parts.
Proof.
  intros Hne H. revert Hne. induction H as [|p parts Hp Hps IH]; intros Hne; [exfalso; apply Hne; reflexivity|].
  destruct parts as [|q parts].
  - cbn [join_with]. apply split_on_no_sep. exact Hp.
  - change (join_with sep (p :: q :: parts)) with (p ++ sep :: join_with sep (q :: parts)).
    rewrite split_on_app by exact Hp. rewrite IH by discriminate. reflexivity.
Qed.
