(* C10: the envelopes the library itself builds, as the library receives them: the Nack envelope of
   make_network_nack arrives as a Nack with that reason, the reply envelope as the data with its token; and a
   worked envelope (non-vacuity). *)
From NDN Require Import Base.Prelude Model.TlvVar Model.Tlv Model.Lp Spec.TlvWf
  Spec.LpSpec Proofs.TlvSplit Proofs.LpUnknown Proofs.LpProofs Proofs.LpWire.
From NDN Require Import Generated.ConstsLp.
Local Open Scope N_scope.

Section NackReceived.
Variables St Out : Type.
Variable dispatch : St -> N -> option bytes -> bytes -> St * Out.
Variable on_nack : St -> N -> bytes -> St * Out.
Variable nothing : Out.

Theorem make_nack_received s i r t n :
  r < two64 -> tl_dec i = Ok (t, n) -> N.of_nat (length (spec_nack_wire i r)) < two64 ->
  make_network_nack i r = Ok (spec_nack_wire i r) /\
  receive_v2 St Out dispatch on_nack nothing s LP_PACKET (spec_nack_wire i r) = Ok (on_nack s r i) /\
  receive_v1 St Out dispatch on_nack nothing s LP_PACKET (spec_nack_wire i r) = Ok (on_nack s r i).
Proof.
  intros Hr Ht Hl. split; [apply make_network_nack_bytes; exact Hr|].
  pose proof (nack_envelope r i Hr Hl) as He. rewrite nack_wire.
  destruct (nack_vals_attrs r i) as (Hu & Hn & _ & Hf).
  exact (nack_exact_reason St Out dispatch on_nack nothing s _ _ _ i t n He Hu Hn Hf Ht).
Qed.
End NackReceived.

Example example_envelope :
  let vs := mk_vals lp_fields [(attr_pit_token, VBytes [1; 2]); (INCOMING_FACE_ID, VUint 7); (NON_DISCOVERY, VTrue);
                               (attr_fragment, VBytes [5; 0])] in
  let els := [Elem 81 1 [9]; Elem 98 2 [1; 2]; Elem 1000 0 []; Elem 812 1 [7]; Elem 844 0 []; Elem 80 2 [5; 0];
              Elem 1001 1 [0]] in
  envelope_of vs els /\ unfragmented vs /\ lp_attr vs attr_nack = VNone /\ lp_attr vs attr_fragment = VBytes [5; 0] /\
  tl_dec [5; 0] = Ok (5, 1%nat) /\ lp_token vs = Some [1; 2] /\
  unwrap_v2 LP_PACKET (lp_wire els) = UPacket 5 (Some [1; 2]) [5; 0] /\
  unwrap_v1 LP_PACKET (lp_wire els) = UPacket 5 None [5; 0].
Proof.
  cbv zeta. split; [|vm_compute; repeat split; reflexivity].
  split; [|split; [|split]].
  - vm_compute. repeat (first [apply Forall2_nil | apply Forall2_cons]);
      try apply fits_none; try (apply fits_bytes; discriminate); try apply fits_true.
    apply (fits_uint None 7 1%nat); reflexivity.
  - repeat constructor.
  - vm_compute. reflexivity.
  - exists [Elem 98 2 [1; 2]; Elem 812 1 [7]; Elem 844 0 []; Elem 80 2 [5; 0]]. split; [vm_compute; reflexivity|].
    repeat first [apply wu_nil | apply wu_keep | (apply wu_ins; [vm_compute; reflexivity|])].
Qed.

Theorem reply_unwraps k data t n :
  tl_dec data = Ok (t, n) -> N.of_nat (length (ser_els (token_els k data))) < two64 ->
  unwrap_v2 LP_PACKET (spec_reply_wire (Some k) data) = UPacket t (Some k) data.
Proof.
  intros Ht Hl. rewrite token_wire. unfold unwrap_v2.
  destruct (token_vals_attrs k data) as (Hu & Hn & Htok & Hf).
  rewrite (unwrap_envelope_fragment _ true caught_documented_v2 _ _ data t n (token_envelope k data Hl) Hu Hf Ht).
  unfold lp_nack, tok_if. rewrite Hn, Htok. reflexivity.
Qed.
