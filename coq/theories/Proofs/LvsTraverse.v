(* Helpers of the LVS model.  Membership in what [isort], [dedup], [sort_by_key] return, [zmem], the edges of an
   adjacency list.  The threaded traversals ([rfold] of Model/LvsChecker.v, [map_acc] of Model/LvsCompiler.v, [rmap] of
   Model/Name.v): induction on the processed prefix.  [verdict], the form in which the [res]-valued checks and compiler
   passes are specified. *)
From NDN Require Import Base.Prelude Model.Name Model.LvsAst Model.LvsChecker Model.LvsCompiler Proofs.ListLemmas Proofs.BytesLemmas
  Proofs.TextProofs.
Local Open Scope N_scope.

Lemma in_insert_sorted {K} (leb : K -> K -> bool) x y l : In y (insert_sorted leb x l) <-> y = x \/ In y l.
Proof.
  induction l as [|z l IH]; cbn; [intuition|].
  destruct (leb x z); cbn; [intuition|]. rewrite IH. intuition.
Qed.
Lemma in_isort {K} (leb : K -> K -> bool) y l : In y (isort leb l) <-> In y l.
Proof.
  induction l as [|x l IH]; cbn; [reflexivity|]. rewrite in_insert_sorted, IH. intuition.
Qed.
Lemma in_sort_by_key {V} (l : list (ident * V)) x : In x (sort_by_key l) <-> In x l.
Proof.
  assert (E : forall y l0, insert_by_key y l0 = insert_sorted (fun a b : ident * V => str_leb (fst a) (fst b)) y l0).
  { intros y l0. induction l0 as [|z l0 IH]; [reflexivity|]. unfold insert_by_key in *. cbn [insert_sorted]. rewrite <- IH. reflexivity. }
  unfold sort_by_key. induction l as [|y l IH]; cbn [fold_right]; [reflexivity|].
  rewrite E, in_insert_sorted, IH. cbn. intuition congruence.
Qed.

Lemma in_dedup {K} (eqb : K -> K -> bool) (Heq : forall a b, eqb a b = true <-> a = b) y l :
  In y (dedup eqb l) <-> In y l.
Proof.
  induction l as [|x l IH]; cbn; [reflexivity|].
  destruct (existsb (eqb x) l) eqn:E; cbn; rewrite IH; [|reflexivity].
  apply (existsb_eqb_in eqb Heq) in E. split; [auto|]. intros [->|H]; assumption.
Qed.

Lemma nodup_dedup {K} (eqb : K -> K -> bool) (Heq : forall a b, eqb a b = true <-> a = b) l : NoDup (dedup eqb l).
Proof.
  induction l as [|x l IH]; cbn; [constructor|]. destruct (existsb (eqb x) l) eqn:E; [exact IH|].
  constructor; [|exact IH]. intros Hin. apply (proj1 (in_dedup eqb Heq x l)), (existsb_eqb_in eqb Heq) in Hin. congruence.
Qed.

Lemma ident_eqb_eq a b : ident_eqb a b = true <-> a = b.
Proof. exact (str_eqb_spec a b). Qed.

Lemma existsb_ident c l : existsb (ident_eqb c) l = true <-> In c l.
Proof. apply (existsb_eqb_in ident_eqb ident_eqb_eq). Qed.

Lemma zmem_in t l : zmem t l = true <-> In t l.
Proof. apply (existsb_eqb_in Z.eqb Z.eqb_eq). Qed.

Lemma zmem_single a b : zmem a [b] = Z.eqb a b.
Proof. unfold zmem. cbn. apply orb_false_r. Qed.

Lemma zmem_snoc t l t0 : zmem t (l ++ [t0]) = zmem t (t0 :: l).
Proof. unfold zmem. rewrite existsb_app. cbn [existsb]. rewrite orb_false_r. apply orb_comm. Qed.

Lemma zmem_cons t x l : zmem t (x :: l) = Z.eqb t x || zmem t l.
Proof. reflexivity. Qed.

Lemma zmem_map_inj (g : Z -> Z) t l : (forall x, In x l -> g x = g t -> x = t) -> zmem (g t) (map g l) = zmem t l.
Proof.
  intros Hinj. apply eq_true_iff_eq. unfold zmem. rewrite !(existsb_eqb_in Z.eqb Z.eqb_eq), in_map_iff. split.
  - intros (x & Ex & Hx). rewrite <- (Hinj x Hx Ex). exact Hx.
  - intros H. exists t. auto.
Qed.

(* [al_set adj k (l ++ [v])] is adj_lst[k].append(v) on a key that is present: the checker's signing graph and the
   compiler's reference graph are both built that way. *)
Definition adj_edges {K V} (adj : list (K * list V)) : list (K * V) := flat_map (fun e => map (pair (fst e)) (snd e)) adj.

Lemma adj_edges_in {K V} (adj : list (K * list V)) a b : In (a, b) (adj_edges adj) <-> exists l, In (a, l) adj /\ In b l.
Proof.
  unfold adj_edges. rewrite in_flat_map. split.
  - intros ([a' l] & Hg & Hin). apply in_map_iff in Hin. destruct Hin as (b' & E & Hb). injection E as -> ->. eauto.
  - intros (l & Hg & Hb). exists (a, l). split; [exact Hg | apply in_map, Hb].
Qed.

Lemma al_append_edges {K V} (eqb : K -> K -> bool) (Heq : forall a b, eqb a b = true <-> a = b) (adj : list (K * list V)) k l v :
  al_get eqb adj k = Some l ->
  map fst (al_set eqb adj k (l ++ [v])) = map fst adj /\
  forall e, In e (adj_edges (al_set eqb adj k (l ++ [v]))) <-> In e (adj_edges adj) \/ e = (k, v).
Proof.
  intros El. split; [apply (al_set_keys_same eqb Heq), (al_get_in eqb Heq); eauto|].
  unfold adj_edges. induction adj as [|[k0 l0] adj IH]; [discriminate|]. cbn in El. cbn [al_set]. destruct (eqb k k0) eqn:Ek.
  - apply Heq in Ek. subst k0. injection El as ->. intros e. cbn [flat_map fst snd]. rewrite map_app, !in_app_iff. cbn [map In].
    split; [intros [[H|[H|[]]]|H]; auto | intros [[H|H]|H]; auto; subst e; auto].
  - intros e. cbn [flat_map]. rewrite !in_app_iff, (IH El e). tauto.
Qed.

Lemma rfold_ind {A B} (f : A -> B -> res A) (P : list B -> A -> Prop) l a0 :
  P [] a0 ->
  (forall done x todo a a1, l = done ++ x :: todo -> P done a -> f a x = Ok a1 -> P (done ++ [x]) a1) ->
  match rfold f l a0 with
  | Ok a' => P l a'
  | Err e => exists done x todo a, l = done ++ x :: todo /\ P done a /\ f a x = Err e
  end.
Proof.
  intros H0 Hstep.
  assert (G : forall todo done a, l = done ++ todo -> P done a ->
            match rfold f todo a with
            | Ok a' => P l a'
            | Err e => exists done x todo a, l = done ++ x :: todo /\ P done a /\ f a x = Err e
            end).
  { induction todo as [|x todo IH]; intros done a El Ha; cbn [rfold].
    - rewrite El, app_nil_r. exact Ha.
    - destruct (f a x) as [a1|e] eqn:Ef; cbn [bind]; [|exists done, x, todo, a; auto].
      apply (IH (done ++ [x])); [rewrite <- app_assoc; exact El | eapply Hstep; eauto]. }
  apply (G l [] a0 eq_refl H0).
Qed.

Lemma rfold_guard {A B} (ok : B -> bool) (g : A -> B -> A) (e : err) l a :
  rfold (fun a x => if ok x then Ok (g a x) else Err e) l a = if forallb ok l then Ok (fold_left g l a) else Err e.
Proof. revert a. induction l as [|x l IH]; intros a; cbn; [reflexivity|]. destruct (ok x); cbn; [apply IH | reflexivity]. Qed.

Lemma rfold_ext {A B} (f g : A -> B -> res A) l a : (forall a x, In x l -> f a x = g a x) -> rfold f l a = rfold g l a.
Proof.
  revert a. induction l as [|x l IH]; intros a H; cbn [rfold]; [reflexivity|]. rewrite (H a x (or_introl eq_refl)).
  destruct (g a x); cbn [bind]; [apply IH; intros; apply H; right; assumption | reflexivity].
Qed.

Lemma rfold_nested {A B C D} (h : B -> list C) (k : B -> C -> D) (f : A -> D -> res A) l a :
  rfold (fun a x => rfold (fun a c => f a (k x c)) (h x) a) l a = rfold f (flat_map (fun x => map (k x) (h x)) l) a.
Proof.
  revert a. induction l as [|x l IH]; intros a; cbn [rfold flat_map]; [reflexivity|].
  generalize (h x) a. clear a. induction l0 as [|c cs IHc]; intros a; cbn [rfold map app bind]; [apply IH|].
  destruct (f a (k x c)); cbn [bind]; [apply IHc | reflexivity].
Qed.

Lemma rfold_total2 {A B C} (R : C -> B -> Prop) (f : A -> B -> res A) (P : list C -> A -> Prop) src l a0 :
  Forall2 R src l -> P [] a0 ->
  (forall done c todo ndone x ntodo a, src = done ++ c :: todo -> l = ndone ++ x :: ntodo -> length ndone = length done ->
     R c x -> P done a -> exists a1, f a x = Ok a1 /\ P (done ++ [c]) a1) ->
  exists a', rfold f l a0 = Ok a' /\ P src a'.
Proof.
  intros F H0 Hstep.
  assert (G : forall todo ntodo, Forall2 R todo ntodo -> forall done ndone a,
            src = done ++ todo -> l = ndone ++ ntodo -> length ndone = length done -> P done a -> exists a', rfold f ntodo a = Ok a' /\ P src a').
  { induction 1 as [|c x todo ntodo Hcx _ IH]; intros done ndone a Es El Hlen Ha; cbn [rfold].
    - exists a. rewrite Es, app_nil_r. auto.
    - destruct (Hstep done c todo ndone x ntodo a Es El Hlen Hcx Ha) as (a1 & -> & H1). cbn [bind].
      apply (IH (done ++ [c]) (ndone ++ [x]) a1); [rewrite <- app_assoc; exact Es | rewrite <- app_assoc; exact El | | exact H1].
      rewrite !app_length, Hlen. reflexivity. }
  apply (G src l F [] [] a0 eq_refl eq_refl eq_refl H0).
Qed.

Lemma map_acc_ind {S A B} (f : S -> A -> S * B) (P : list A -> S -> list B -> Prop) l s0 :
  P [] s0 [] ->
  (forall done x todo s ys s1 y, l = done ++ x :: todo -> P done s ys -> f s x = (s1, y) -> P (done ++ [x]) s1 (ys ++ [y])) ->
  forall s' ys, map_acc f s0 l = (s', ys) -> P l s' ys.
Proof.
  intros H0 Hstep.
  assert (G : forall todo done s ys0 s' ys, l = done ++ todo -> P done s ys0 -> map_acc f s todo = (s', ys) -> P l s' (ys0 ++ ys)).
  { induction todo as [|x todo IH]; intros done s ys0 s' ys El Hs; cbn [map_acc].
    - intros E. injection E as <- <-. rewrite El, !app_nil_r. exact Hs.
    - destruct (f s x) as [s1 y] eqn:Ef. destruct (map_acc f s1 todo) as [s2 ys'] eqn:Em. intros E. injection E as <- <-.
      change (y :: ys') with ([y] ++ ys'). rewrite app_assoc.
      apply (IH (done ++ [x]) s1); [rewrite <- app_assoc; exact El | eapply Hstep; eauto | exact Em]. }
  intros s' ys. apply (G l [] s0 [] s' ys eq_refl H0).
Qed.

Lemma map_acc_link_le {A B} (f : N -> A -> N * B) l k k' ys :
  (forall s x s' y, f s x = (s', y) -> s <= s') -> map_acc f k l = (k', ys) ->
  k <= k' /\ Forall2 (fun x y => exists kc kd, k <= kc /\ kd <= k' /\ f kc x = (kd, y)) l ys.
Proof.
  intros Hf Hm.
  apply (map_acc_ind f (fun done s ys => k <= s /\ forall s', s <= s' ->
                          Forall2 (fun x y => exists kc kd, k <= kc /\ kd <= s' /\ f kc x = (kd, y)) done ys)) in Hm.
  - destruct Hm as [Hle G]. split; [exact Hle | apply G; lia].
  - split; [lia | constructor].
  - intros done x todo s ys0 s1 y _ [Hks IH] Ef. pose proof (Hf _ _ _ _ Ef) as Hle. split; [lia|].
    intros s' Hs'. apply Forall2_app; [apply IH; lia|]. constructor; [|constructor]. exists s, s1. auto.
Qed.

Lemma rmap_err {A B} (f : A -> res B) l e : rmap f l = Err e -> exists x, In x l /\ f x = Err e.
Proof.
  induction l as [|x l IH]; cbn; [discriminate|]. destruct (f x) as [y|e'] eqn:E; cbn.
  - destruct (rmap f l) as [t|e'']; cbn; [discriminate|]. intros H; inversion H; subst.
    destruct (IH eq_refl) as (x' & Hx' & Hf). exists x'. auto.
  - intros H; inversion H; subst. exists x. auto.
Qed.

(* What a check or a pass decides.  There is one lemma per way such checks are composed, so that the verdict of a
   function built from them is read off its text clause by clause. *)
Definition verdict {A} (e : err) (r : res A) (P : Prop) (Q : A -> Prop) : Prop :=
  match r with Ok a => P /\ Q a | Err e' => e' = e /\ ~ P end.

Lemma verdict_ok {A} e (r : res A) P Q a : verdict e r P Q -> r = Ok a -> P /\ Q a.
Proof. intros H ->. exact H. Qed.

Lemma verdict_err {A} e (r : res A) P Q e' : verdict e r P Q -> r = Err e' -> e' = e /\ ~ P.
Proof. intros H ->. exact H. Qed.

Lemma verdict_ok_iff {A} e (r : res A) P Q : verdict e r P Q ->
  ((exists a, r = Ok a) <-> P) /\ (forall e', r = Err e' -> e' = e).
Proof.
  destruct r as [a|e0]; cbn; intros [H1 H2].
  - split; [split; eauto | discriminate].
  - split; [split; [intros (a & E); discriminate | contradiction] | intros e' E; congruence].
Qed.

Lemma verdict_imp {A} e (r : res A) P P' (Q Q' : A -> Prop) :
  (P <-> P') -> (forall a, Q a -> Q' a) -> verdict e r P Q -> verdict e r P' Q'.
Proof. intros HP HQ. destruct r; cbn; [intros [H1 H2]; split; [tauto | auto] | tauto]. Qed.

Lemma verdict_unless {A} e (c : bool) P (k : res A) Q R :
  (c = false <-> P) -> (P -> verdict e k Q R) -> verdict e (if c then Err e else k) (P /\ Q) R.
Proof.
  intros Hc H. destruct c; [split; [reflexivity | intros [HP _]; apply Hc in HP; discriminate]|].
  assert (HP : P) by (apply Hc; reflexivity). specialize (H HP). destruct k; cbn in *; tauto.
Qed.

Lemma verdict_if {A} e (c : bool) (k : res A) Q R :
  verdict e k Q R -> verdict e (if c then k else Err e) (c = true /\ Q) R.
Proof. destruct c; [destruct k; cbn; tauto | split; [reflexivity | intros [E _]; discriminate]]. Qed.

Lemma verdict_some {A B} e (o : option B) (k : B -> res A) (Q : B -> Prop) R :
  (forall x, o = Some x -> verdict e (k x) (Q x) R) ->
  verdict e (match o with Some x => k x | None => Err e end) (exists x, o = Some x /\ Q x) R.
Proof.
  intros H. destruct o as [x|]; [|split; [reflexivity | intros (x & E & _); discriminate]].
  apply (verdict_imp e _ (Q x) _ R); [|auto|apply H; reflexivity].
  split; [eauto | intros (y & E & Hy); injection E as <-; exact Hy].
Qed.

Lemma verdict_bind {A B} e (r : res A) (k : A -> res B) P Q P' Q' :
  verdict e r P Q -> (forall a, Q a -> verdict e (k a) P' Q') -> verdict e (do a <- r ;; k a) (P /\ P') Q'.
Proof.
  destruct r as [a|e0]; cbn; intros H Hk; [|tauto].
  destruct H as [HP HQ]. specialize (Hk a HQ). destruct (k a); cbn in *; tauto.
Qed.

Lemma verdict_rfold {A B} e (f : A -> B -> res A) (G : B -> Prop) (I : list B -> A -> Prop) l a0 :
  I [] a0 ->
  (forall done x todo a, l = done ++ x :: todo -> I done a -> verdict e (f a x) (G x) (I (done ++ [x]))) ->
  verdict e (rfold f l a0) (forall x, In x l -> G x) (I l).
Proof.
  intros H0 Hstep.
  pose proof (rfold_ind f (fun done a => (forall x, In x done -> G x) /\ I done a) l a0) as H.
  lapply H; [clear H; intros H; lapply H; [clear H; intros H|] | split; [intros x []|exact H0]].
  - destruct (rfold f l a0) as [a'|e0]; [exact H|]. destruct H as (done & x & todo & a & El & [_ Ha] & Ef).
    destruct (verdict_err _ _ _ _ _ (Hstep done x todo a El Ha) Ef) as [-> Hn].
    split; [reflexivity|]. intros Hall. apply Hn, Hall. rewrite El. apply in_or_app. right. left. reflexivity.
  - intros done x todo a a1 El [Hd Ha] Ef. destruct (verdict_ok _ _ _ _ _ (Hstep done x todo a El Ha) Ef) as [Hg Hi].
    split; [|exact Hi]. intros y Hy. apply in_app_or in Hy. destruct Hy as [Hy|[<-|[]]]; auto.
Qed.

(* the post-condition of a pass that is asked only whether it succeeds *)
Definition any {A} (_ : A) : Prop := True.

Lemma verdict_eq {A} e (r : res A) P Q : verdict e r P Q -> verdict e r P (fun a => r = Ok a).
Proof. destruct r; cbn; [intros [H _]; auto | auto]. Qed.

Lemma verdict_and_pre {A} e (r : res A) (P : Prop) Q : verdict e r P Q -> verdict e r P (fun a => P /\ Q a).
Proof. destruct r; cbn; tauto. Qed.

Lemma verdict_then {A B} e (r : res A) (g : A -> B) P Q (Q' : B -> Prop) :
  verdict e r P Q -> (forall a, Q a -> Q' (g a)) -> verdict e (do a <- r ;; Ok (g a)) P Q'.
Proof. destruct r as [a|e0]; cbn; [intros [HP HQ] H; auto | auto]. Qed.

Lemma verdict_rmap {A B} e (f : A -> res B) (G : A -> Prop) (Q : A -> B -> Prop) l :
  (forall x, In x l -> verdict e (f x) (G x) (Q x)) ->
  verdict e (rmap f l) (forall x, In x l -> G x) (fun ys => Forall2 Q l ys).
Proof.
  induction l as [|x l IH]; intros H; cbn [rmap].
  - split; [intros x [] | constructor].
  - pose proof (H x (or_introl eq_refl)) as Hx. specialize (IH (fun y Hy => H y (or_intror Hy))).
    destruct (f x) as [y|e0]; cbn [bind].
    + destruct Hx as [Gx Qx]. destruct (rmap f l) as [ys|e1]; cbn [bind].
      * destruct IH as [Gl Ql]. split; [intros z [<-|Hz]; auto | constructor; auto].
      * destruct IH as [-> Hn]. split; [reflexivity | intros Hall; apply Hn; intros z Hz; apply Hall; right; exact Hz].
    + destruct Hx as [-> Hn]. split; [reflexivity | intros Hall; apply Hn, Hall; left; reflexivity].
Qed.
