(* Compiler._rename_temp_tags (Model/LvsCompiler.rename_temp_tags): the renamed copy of a chain is the image of
   the chain under an injective map from its temporary tags to fresh ones ([rename_temp_tags_spec]); hence it stands
   for the same source chain ([rename_copy]), with temporary tags in the fresh range and nothing else changed
   ([rename_fresh]). *)
From NDN Require Import Base.Prelude Model.LvsAst Model.LvsCompiler Proofs.ListLemmas Proofs.LvsRepresents
  Proofs.LvsSimA Proofs.LvsTraverse.
Local Open Scope N_scope.

Definition rn_lookup (mp : list (Z * Z)) (t : Z) : Z := match al_get Z.eqb mp t with Some t' => t' | None => t end.

Definition rn_comp (mp : list (Z * Z)) (c : ncomp) : ncomp :=
  match c with NPat t => if (t <? 0)%Z then NPat (rn_lookup mp t) else c | _ => c end.

Definition rn_cons (mp : list (Z * Z)) (c : ncons) : ncons :=
  match nc_pat c with
  | t :: _ => if (t <? 0)%Z then {| nc_pat := map (rn_lookup mp) (nc_pat c); nc_opts := nc_opts c |} else c
  | [] => c
  end.

(* mp maps into the fresh range [k, kc), injectively; kc is the next free number *)
Record mp_ok (k kc : N) (mp : list (Z * Z)) : Prop := {
  mo_range : forall a b, al_get Z.eqb mp a = Some b -> (Z.of_N k <= - b)%Z /\ (- b < Z.of_N kc)%Z;
  mo_inj : forall a a' b, al_get Z.eqb mp a = Some b -> al_get Z.eqb mp a' = Some b -> a = a'
}.

Definition mp_has (mp : list (Z * Z)) (t : Z) : Prop := exists b, al_get Z.eqb mp t = Some b.

Definition covers_name (mp : list (Z * Z)) (name : list ncomp) : Prop := forall t, In (NPat t) name -> (t < 0)%Z -> mp_has mp t.
Definition covers_cons (mp : list (Z * Z)) (cons : list ncons) : Prop :=
  forall c t0 l, In c cons -> nc_pat c = t0 :: l -> (t0 < 0)%Z -> forall x, In x (nc_pat c) -> mp_has mp x.

Definition mp_extends (mp mp' : list (Z * Z)) : Prop := forall a b, al_get Z.eqb mp a = Some b -> al_get Z.eqb mp' a = Some b.

Lemma mp_extends_refl mp : mp_extends mp mp.
Proof. intros a b H; exact H. Qed.
Lemma mp_extends_trans a b c : mp_extends a b -> mp_extends b c -> mp_extends a c.
Proof. intros H1 H2 x y H. apply H2, H1, H. Qed.

(* What a step from (mp, kc) to (mp', kc') that turns x into y guarantees: the map stays good and grows, and every later
   map covers x (D) and has y as the image of x (g). *)
Definition step_ok {A B} (g : list (Z * Z) -> A -> B) (D : list (Z * Z) -> A -> Prop) k mp kc x mp' kc' y : Prop :=
  mp_ok k kc' mp' /\ kc <= kc' /\ mp_extends mp mp' /\ forall mp'', mp_extends mp' mp'' -> D mp'' x /\ y = g mp'' x.

Record renames {A B} (f : list (Z * Z) * N -> A -> list (Z * Z) * N * B) g (D : list (Z * Z) -> A -> Prop) : Prop := {
  rn_step : forall k mp kc x mp' kc' y, mp_ok k kc mp -> k <= kc -> f (mp, kc) x = ((mp', kc'), y) -> step_ok g D k mp kc x mp' kc' y
}.
Arguments rn_step {A B f g D} _ {k mp kc x mp' kc' y}.

Lemma step_ok_stay {A B} (g : _ -> A -> B) (D : _ -> A -> Prop) k mp kc x y :
  mp_ok k kc mp -> (forall mp'', mp_extends mp mp'' -> D mp'' x /\ y = g mp'' x) -> step_ok g D k mp kc x mp kc y.
Proof. intros Hok H. split; [exact Hok|]. split; [lia|]. split; [apply mp_extends_refl | exact H]. Qed.

Lemma renames_map_acc {A B f} {g : _ -> A -> B} {D : _ -> A -> Prop} :
  renames f g D -> renames (map_acc f) (fun mp => map (g mp)) (fun mp l => forall x, In x l -> D mp x).
Proof.
  intros [Hf]. split. intros k mp kc l. revert mp kc. induction l as [|x l IH]; intros mp kc mp' kc' ys Hok Hk H; cbn [map_acc] in H.
  - injection H as <- <- <-. apply step_ok_stay; [exact Hok | intros mp'' _; split; [intros x [] | reflexivity]].
  - destruct (f (mp, kc) x) as [[mp1 kc1] y] eqn:Ef. destruct (map_acc f (mp1, kc1) l) as [[mp2 kc2] ys2] eqn:Em. injection H as <- <- <-.
    destruct (Hf _ _ _ _ _ _ _ Hok Hk Ef) as (Hok1 & Hk1 & He1 & H1).
    destruct (IH _ _ _ _ _ Hok1 ltac:(lia) Em) as (Hok2 & Hk2 & He2 & H2).
    split; [exact Hok2|]. split; [lia|]. split; [eapply mp_extends_trans; eauto|]. intros mp'' He.
    destruct (H1 mp'' (mp_extends_trans _ _ _ He2 He)) as [Hd1 ->], (H2 mp'' He) as [Hd2 ->].
    split; [intros x0 [<-|Hin]; [exact Hd1 | apply Hd2, Hin] | reflexivity].
Qed.

Lemma mp_ok_snoc k kc mp t : mp_ok k kc mp -> k <= kc -> mp_ok k (kc + 1) (mp ++ [(t, - Z.of_N kc)%Z]).
Proof.
  intros [Hr Hi] Hk.
  assert (Hinv : forall a b, al_get Z.eqb (mp ++ [(t, - Z.of_N kc)%Z]) a = Some b -> al_get Z.eqb mp a = Some b \/ a = t /\ b = (- Z.of_N kc)%Z).
  { intros a b. rewrite (al_get_app Z.eqb). destruct (al_get Z.eqb mp a); [auto|]. cbn.
    destruct (Z.eqb_spec a t); [|discriminate]. intros H. injection H as <-. auto. }
  constructor.
  - intros a b H. destruct (Hinv a b H) as [H1|[_ ->]]; [destruct (Hr a b H1)|]; lia.
  - intros a a' b H H'. destruct (Hinv a b H) as [H1|[-> ->]], (Hinv a' _ H') as [H2|[-> E]].
    + eapply Hi; eauto.
    + subst b. destruct (Hr a _ H1). lia.
    + destruct (Hr a' _ H2). lia.
    + reflexivity.
Qed.

Lemma fresh_renames : renames fresh rn_lookup mp_has.
Proof.
  split. intros k mp kc t mp' kc' t' Hok Hk. unfold fresh. cbn [fst snd]. destruct (al_get Z.eqb mp t) as [x|] eqn:E; intros H; injection H as <- <- <-.
  - apply step_ok_stay; [exact Hok | intros mp'' He; split; [exists x; apply He, E | unfold rn_lookup; rewrite (He t x E); reflexivity]].
  - assert (Et : al_get Z.eqb (mp ++ [(t, - Z.of_N kc)%Z]) t = Some (- Z.of_N kc)%Z) by (rewrite (al_get_app Z.eqb), E; cbn; rewrite Z.eqb_refl; reflexivity).
    split; [apply mp_ok_snoc; assumption|]. split; [lia|]. split.
    + intros a b Hab. rewrite (al_get_app Z.eqb), Hab. reflexivity.
    + intros mp'' He. split; [eexists; apply He, Et | unfold rn_lookup; rewrite (He _ _ Et); reflexivity].
Qed.

Lemma rename_comp_renames : renames rename_comp rn_comp (fun mp c => forall t, c = NPat t -> (t < 0)%Z -> mp_has mp t).
Proof.
  split. intros k mp kc c mp' kc' c' Hok Hk. unfold rename_comp.
  destruct c as [v|t|r]; [| destruct (Z.ltb_spec t 0) as [Hn|Hn] |].
  - intros H; injection H as <- <- <-. apply step_ok_stay; [exact Hok | intros mp'' _; split; [intros t0 E; discriminate | reflexivity]].
  - destruct (fresh (mp, kc) t) as [[mp1 kc1] t1] eqn:Ef. intros H; injection H as <- <- <-.
    destruct (rn_step fresh_renames Hok Hk Ef) as (Hok1 & Hk1 & He1 & H1). split; [exact Hok1|]. split; [exact Hk1|]. split; [exact He1|].
    intros mp'' He. destruct (H1 mp'' He) as [Hb ->]. split; [intros t0 E _; injection E as <-; exact Hb|].
    cbn. destruct (Z.ltb_spec t 0); [reflexivity | lia].
  - intros H; injection H as <- <- <-. apply step_ok_stay; [exact Hok | intros mp'' _; split; [intros t0 E Hn0; injection E as <-; lia|]].
    cbn. destruct (Z.ltb_spec t 0); [lia | reflexivity].
  - intros H; injection H as <- <- <-. apply step_ok_stay; [exact Hok | intros mp'' _; split; [intros t0 E; discriminate | reflexivity]].
Qed.

Lemma rename_cons_renames :
  renames rename_cons rn_cons (fun mp c => forall t0 l, nc_pat c = t0 :: l -> (t0 < 0)%Z -> forall x, In x (nc_pat c) -> mp_has mp x).
Proof.
  split. intros k mp kc c mp' kc' c' Hok Hk. unfold rename_cons.
  destruct (nc_pat c) as [|t0 l] eqn:Ep; [| destruct (Z.ltb_spec t0 0) as [Hn|Hn]].
  - intros H; injection H as <- <- <-. apply step_ok_stay; [exact Hok | intros mp'' _; split; [intros ? ? E; congruence|]].
    unfold rn_cons. rewrite Ep. reflexivity.
  - destruct (map_acc fresh (mp, kc) (t0 :: l)) as [[mp1 kc1] l1] eqn:Ef. intros H; injection H as <- <- <-.
    destruct (rn_step (renames_map_acc fresh_renames) Hok Hk Ef) as (Hok1 & Hk1 & He1 & H1).
    split; [exact Hok1|]. split; [exact Hk1|]. split; [exact He1|]. intros mp'' He. destruct (H1 mp'' He) as [Hb ->].
    split; [intros _ _ _ _; rewrite Ep; exact Hb|]. unfold rn_cons. rewrite Ep. destruct (Z.ltb_spec t0 0); [reflexivity | lia].
  - intros H; injection H as <- <- <-. apply step_ok_stay; [exact Hok | intros mp'' _; split; [intros ? ? E Hn0; rewrite Ep in E; injection E as <- _; lia|]].
    unfold rn_cons. rewrite Ep. destruct (Z.ltb_spec t0 0); [lia | reflexivity].
Qed.

Theorem rename_temp_tags_spec k rc k' nm cs : rename_temp_tags k rc = (k', (nm, cs)) ->
  exists mp, mp_ok k k' mp /\ k <= k' /\ nm = map (rn_comp mp) (ch_name rc) /\ cs = map (rn_cons mp) (ch_cons rc) /\
    covers_name mp (ch_name rc) /\ covers_cons mp (ch_cons rc).
Proof.
  unfold rename_temp_tags.
  destruct (map_acc rename_comp ([], k) (ch_name rc)) as [[mp1 k1] nm1] eqn:E1.
  destruct (map_acc rename_cons (mp1, k1) (ch_cons rc)) as [[mp2 k2] cs1] eqn:E2. intros H; injection H as <- <- <-.
  assert (Hok0 : mp_ok k k []) by (constructor; intros; discriminate).
  destruct (rn_step (renames_map_acc rename_comp_renames) Hok0 (N.le_refl _) E1) as (Hok1 & Hk1 & _ & H1).
  destruct (rn_step (renames_map_acc rename_cons_renames) Hok1 Hk1 E2) as (Hok2 & Hk2 & He2 & H2).
  destruct (H1 mp2 He2) as [Hall1 ->], (H2 mp2 (mp_extends_refl _)) as [Hall2 ->].
  exists mp2. cbn [snd]. split; [exact Hok2|]. split; [lia|]. split; [reflexivity|]. split; [reflexivity|]. split.
  - intros t Ht. exact (Hall1 _ Ht t eq_refl).
  - intros c t0 l Hc. exact (Hall2 c Hc t0 l).
Qed.

Lemma rename_temp_tags_le k rc k' x : rename_temp_tags k rc = (k', x) -> k <= k'.
Proof. destruct x as [nm cs]. intros H. destruct (rename_temp_tags_spec _ _ _ _ _ H) as (mp & _ & Hle & _). exact Hle. Qed.

(* rename_cons decides by the sign of the first tag alone; in what resolve_cons produces (the tags of one temporary
   identifier, or the one number of a named pattern) that is the sign of all of them *)
Definition pat_wf (c : ncons) : Prop := (forall t, In t (nc_pat c) -> (t < 0)%Z) \/ (exists t, nc_pat c = [t] /\ (0 < t)%Z).

Definition rn_tag (mp : list (Z * Z)) (t : Z) : Z := if (t <? 0)%Z then rn_lookup mp t else t.

Definition tag_ok (mp : list (Z * Z)) (t : Z) : Prop := (t < 0)%Z -> mp_has mp t.

Lemma rn_comp_pat mp t : rn_comp mp (NPat t) = NPat (rn_tag mp t).
Proof. unfold rn_tag. cbn. destruct (t <? 0)%Z; reflexivity. Qed.

Lemma rn_tag_named mp t : (0 <= t)%Z -> rn_tag mp t = t.
Proof. intros H. unfold rn_tag. destruct (Z.ltb_spec t 0); [lia | reflexivity]. Qed.

Lemma rn_cons_opts mp c : nc_opts (rn_cons mp c) = nc_opts c.
Proof. unfold rn_cons. destruct (nc_pat c) as [|t l]; [reflexivity|]. destruct (t <? 0)%Z; reflexivity. Qed.

Lemma rn_cons_pats mp c : pat_wf c -> nc_pat (rn_cons mp c) = map (rn_tag mp) (nc_pat c).
Proof.
  unfold pat_wf, rn_cons. destruct (nc_pat c) as [|t0 l] eqn:Ep; [intros _; exact Ep|]. intros Hw.
  destruct (Z.ltb_spec t0 0) as [Hn|Hn]; cbn [nc_pat].
  - apply map_ext_in. intros x Hx. unfold rn_tag. destruct (Z.ltb_spec x 0); [reflexivity|].
    destruct Hw as [Hneg|(t & E & Hp)]; [specialize (Hneg x Hx); lia | injection E as -> ->; destruct Hx as [<-|[]]; lia].
  - rewrite Ep. destruct Hw as [Hneg|(t & E & Hp)]; [specialize (Hneg t0 (or_introl eq_refl)); lia|].
    injection E as -> ->. cbn. rewrite rn_tag_named by lia. reflexivity.
Qed.

Lemma rn_tag_spec k k' mp t : mp_ok k k' mp -> tag_ok mp t ->
  ((t < 0)%Z /\ (Z.of_N k <= - rn_tag mp t)%Z /\ (- rn_tag mp t < Z.of_N k')%Z) \/ ((0 <= t)%Z /\ rn_tag mp t = t).
Proof.
  intros Hok Ht. destruct (Z.ltb_spec t 0) as [Hn|Hn]; [left | right; split; [exact Hn | apply rn_tag_named, Hn]].
  destruct (Ht Hn) as (b & Hb). unfold rn_tag, rn_lookup. rewrite (proj2 (Z.ltb_lt _ _) Hn), Hb. destruct (mo_range _ _ _ Hok _ _ Hb). auto.
Qed.

Lemma rn_tag_inj k k' mp a a' : mp_ok k k' mp -> 1 <= k -> tag_ok mp a -> tag_ok mp a' -> rn_tag mp a = rn_tag mp a' -> a = a'.
Proof.
  intros Hok Hk Ha Ha' E.
  destruct (rn_tag_spec k k' mp a Hok Ha) as [(Hn & H1 & _)|(Hp & E1)], (rn_tag_spec k k' mp a' Hok Ha') as [(Hn' & H1' & _)|(Hp' & E1')]; try lia.
  destruct (Ha Hn) as (b & Hb), (Ha' Hn') as (b' & Hb'). unfold rn_tag, rn_lookup in E.
  rewrite (proj2 (Z.ltb_lt _ _) Hn), (proj2 (Z.ltb_lt _ _) Hn'), Hb, Hb' in E. subst b'. eapply mo_inj; eauto.
Qed.

Lemma cons_tags_ok mp cons : Forall pat_wf cons -> covers_cons mp cons -> Forall (fun c => pat_wf c /\ forall x, In x (nc_pat c) -> tag_ok mp x) cons.
Proof.
  rewrite !Forall_forall. intros Hwf Hdc c Hc. split; [auto|]. intros x Hx Hn. destruct (Hwf c Hc) as [Hneg|(t & E & Hp)].
  - destruct (nc_pat c) as [|t0 l] eqn:Ep; [destruct Hx|]. apply (Hdc c t0 l Hc Ep (Hneg t0 (or_introl eq_refl))). rewrite Ep. exact Hx.
  - rewrite E in Hx. destruct Hx as [<-|[]]. lia.
Qed.

Section Copy.
  Variable named : list (ident * N).

  (* the renaming is injective on the tags in play, so it keeps which constraints mention a tag *)
  Lemma opts_for_rename k k' mp cons t : mp_ok k k' mp -> 1 <= k -> Forall pat_wf cons -> covers_cons mp cons -> tag_ok mp t ->
    opts_for (map (rn_cons mp) cons) (rn_tag mp t) = opts_for cons t.
  Proof.
    intros Hok Hk Hwf Hdc Ht. pose proof (cons_tags_ok mp cons Hwf Hdc) as Hall. clear Hwf Hdc.
    unfold opts_for. induction Hall as [|c cons [Hc Hx] _ IH]; [reflexivity|]. cbn [map filter].
    rewrite (rn_cons_pats mp c Hc), zmem_map_inj by (intros x Hin; apply (rn_tag_inj k k'); auto).
    destruct (zmem t (nc_pat c)); cbn [map]; [rewrite rn_cons_opts; f_equal|]; exact IH.
  Qed.

  Lemma rename_rep k k' mp name cons f : mp_ok k k' mp -> 1 <= k -> Forall pat_wf cons -> covers_name mp name -> covers_cons mp cons ->
    represents named (mkch name cons) f ->
    represents named (mkch (map (rn_comp mp) name) (map (rn_cons mp) cons)) f.
  Proof.
    intros Hok Hk Hwf Hdn Hdc [R1 R2]. constructor; cbn [ch_name ch_cons mkch] in *.
    - apply forall2_map_r. eapply forall2_impl_in; [|exact R1]. intros fc nc _ Hnc.
      destruct fc as [x|p|cs], nc as [y|t|r]; try exact id; rewrite rn_comp_pat; pose proof (rn_tag_spec k k' mp t Hok (Hdn t Hnc)) as Hs.
      + intros [].
      + intros [Hpos Hp]. destruct Hs as [|(_ & ->)]; [lia | split; assumption].
      + intros [Hn Hf]. split; [lia|]. rewrite cons_opts_for_mk, (opts_for_rename k k' mp cons t Hok Hk Hwf Hdc (Hdn t Hnc)). exact Hf.
    - intros p t Hp. rewrite cons_opts_for_mk, <- (rn_tag_named mp (Z.of_N t)) by lia.
      rewrite (opts_for_rename k k' mp cons _ Hok Hk Hwf Hdc) by (intros Hn; lia). exact (R2 p t Hp).
  Qed.

  Theorem rename_copy k rc k' nm cs : rename_temp_tags k rc = (k', (nm, cs)) -> 1 <= k -> Forall pat_wf (ch_cons rc) ->
    forall f, represents named rc f -> represents named (mkch nm cs) f.
  Proof.
    intros H Hk Hwf f [R1 R2]. destruct (rename_temp_tags_spec _ _ _ _ _ H) as (mp & Hok & _ & -> & -> & Hdn & Hdc).
    apply (rename_rep k k' mp _ _ f Hok Hk Hwf Hdn Hdc). constructor; assumption.
  Qed.
End Copy.

Theorem rename_fresh k rc k' nm cs : rename_temp_tags k rc = (k', (nm, cs)) -> 1 <= k -> Forall pat_wf (ch_cons rc) ->
  (forall t, In (NPat t) nm -> (t < 0)%Z -> (Z.of_N k <= - t)%Z /\ (- t < Z.of_N k')%Z) /\
  (forall c t, In c cs -> In t (nc_pat c) -> (t < 0)%Z -> (Z.of_N k <= - t)%Z /\ (- t < Z.of_N k')%Z) /\
  Forall pat_wf cs /\ map nc_opts cs = map nc_opts (ch_cons rc) /\
  (forall c, In c nm -> In c (ch_name rc) \/ exists t, c = NPat t /\ (t < 0)%Z).
Proof.
  intros H Hk Hwf. destruct (rename_temp_tags_spec _ _ _ _ _ H) as (mp & Hok & _ & -> & -> & Hdn & Hdc).
  pose proof (cons_tags_ok mp (ch_cons rc) Hwf Hdc) as Hall. rewrite Forall_forall in Hall.
  split; [|split; [|split; [|split]]].
  - intros t Hin Hn. apply in_map_iff in Hin. destruct Hin as ([v|t0|r] & Ec & Hc); try discriminate Ec.
    rewrite rn_comp_pat in Ec. injection Ec as <-. destruct (rn_tag_spec k k' mp t0 Hok (Hdn t0 Hc)) as [(_ & H1 & H2)|(Hp & E)]; [auto | lia].
  - intros c t Hin Ht Hn. apply in_map_iff in Hin. destruct Hin as (c0 & <- & Hc0). destruct (Hall c0 Hc0) as [Hw Hx].
    rewrite (rn_cons_pats mp c0 Hw) in Ht. apply in_map_iff in Ht. destruct Ht as (x & <- & Hin).
    destruct (rn_tag_spec k k' mp x Hok (Hx x Hin)) as [(_ & H1 & H2)|(Hp & E)]; [auto | lia].
  - apply Forall_forall. intros c Hin. apply in_map_iff in Hin. destruct Hin as (c0 & <- & Hc0). destruct (Hall c0 Hc0) as [Hw Hx].
    unfold pat_wf. rewrite (rn_cons_pats mp c0 Hw). destruct Hw as [Hneg|(t & E & Hp)].
    + left. intros t Ht. apply in_map_iff in Ht. destruct Ht as (x & <- & Hin).
      destruct (rn_tag_spec k k' mp x Hok (Hx x Hin)) as [(_ & H1 & _)|(Hp & _)]; [lia | specialize (Hneg x Hin); lia].
    + right. exists t. rewrite E. cbn. rewrite rn_tag_named by lia. auto.
  - rewrite map_map. apply map_ext. intros c. apply rn_cons_opts.
  - intros c Hin. apply in_map_iff in Hin. destruct Hin as ([v|t|r] & <- & Hc); [left; exact Hc | | left; exact Hc].
    rewrite rn_comp_pat. destruct (Z.ltb_spec t 0) as [Hn|Hn]; [right | left; rewrite rn_tag_named by exact Hn; exact Hc].
    destruct (rn_tag_spec k k' mp t Hok (Hdn t Hc)) as [(_ & H1 & _)|(Hp & _)]; [|lia]. eexists. split; [reflexivity | lia].
Qed.
