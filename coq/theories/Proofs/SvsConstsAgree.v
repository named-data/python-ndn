(* T1 tie for C18: the constants reflected from ndn.app_support.svs on this run are the ones the
   hand-written model (Model/Svs.v) uses, and what they imply for the timer jitter. *)
From NDN Require Import Base.Prelude Model.Svs.
From NDN Require Generated.ConstsSvs.
Module G := Generated.ConstsSvs.
Local Open Scope N_scope.

(* sample_sync_timer / sample_sup_timer of the model are the source's formulas
     I + randbits(B)/D * I - I * (num/den) *)
Definition gen_sample (interval bits_den num den r : N) : N :=
  interval + r * interval / bits_den - interval * num / den.

Theorem jitter_consts_agree :
  G.sync_jitter_den = sync_jitter_den /\ G.sup_jitter_den = sup_jitter_den /\
  G.sync_rand_bits = 16 /\ G.sup_rand_bits = 16 /\
  (G.sync_offset_num, G.sync_offset_den) = (1, 10) /\ (G.sup_offset_num, G.sup_offset_den) = (1, 2).
Proof. repeat split; reflexivity. Qed.

Theorem sample_sync_agree c r :
  sample_sync_timer c r = gen_sample (c_sync_interval c) G.sync_jitter_den G.sync_offset_num G.sync_offset_den r.
Proof. unfold sample_sync_timer, gen_sample. cbn [G.sync_offset_num G.sync_offset_den]. rewrite N.mul_1_r. reflexivity. Qed.

Theorem sample_sup_agree c r :
  sample_sup_timer c r = gen_sample (c_sup_interval c) G.sup_jitter_den G.sup_offset_num G.sup_offset_den r.
Proof. unfold sample_sup_timer, gen_sample. cbn [G.sup_offset_num G.sup_offset_den]. rewrite N.mul_1_r. reflexivity. Qed.

Theorem mode_consts_agree : G.state_steady = 0 /\ G.state_suppression = 1.
Proof. split; reflexivity. Qed.

(* the layout the harness adapter relies on: 0xc9 { 0xca { Name, 0xcc SeqNo } * } *)
Theorem tlv_consts_agree : G.tlv_state_vec = 201 /\ G.tlv_state_vec_entry = 202 /\ G.tlv_seq_no = 204.
Proof. repeat split; reflexivity. Qed.

(* With r below b and the jitter denominator b * m, the random term is at most I / m: the periodic
   timer stays within [0.9 I, 1.1 I], the suppression timer within [0.5 S, 1.5 S] *)
Lemma gen_sample_range I b m den r :
  r < b -> m <> 0 -> den <> 0 ->
  I - I / den <= gen_sample I (b * m) 1 den r <= I - I / den + I / m.
Proof.
  intros R Hm Hd. unfold gen_sample. rewrite N.mul_1_r.
  assert (U : r * I / (b * m) <= I / m).
  { rewrite <- (N.div_mul_cancel_l I m b) by lia.
    apply N.div_le_mono; [apply N.neq_mul_0; lia|]. apply N.mul_le_mono_r. lia. }
  assert (I / den <= I) by (apply N.div_le_upper_bound; [assumption|nia]).
  (* the quotients become variables, which is all lia needs of them *)
  generalize dependent (r * I / (b * m)). generalize dependent (I / den). generalize dependent (I / m). intros. lia.
Qed.

Theorem sync_timer_range c r : r < 2 ^ G.sync_rand_bits ->
  c_sync_interval c - c_sync_interval c / 10 <= sample_sync_timer c r /\
  sample_sync_timer c r <= c_sync_interval c - c_sync_interval c / 10 + c_sync_interval c / 5.
Proof. intros R. rewrite sample_sync_agree. apply (gen_sample_range _ _ 5 10 r R); discriminate. Qed.

Theorem sup_timer_range c r : r < 2 ^ G.sup_rand_bits ->
  c_sup_interval c - c_sup_interval c / 2 <= sample_sup_timer c r /\
  sample_sup_timer c r <= c_sup_interval c - c_sup_interval c / 2 + c_sup_interval c.
Proof.
  intros R. rewrite sample_sup_agree.
  pose proof (gen_sample_range (c_sup_interval c) _ 1 2 r R) as H. rewrite N.div_1_r in H. apply H; discriminate.
Qed.

Lemma sample_positive I x d : 1 < d -> d <= I -> 0 < I + x - I / d.
Proof. intros Hd HI. assert (I / d < I) by (apply N.div_lt; lia). generalize dependent (I / d). intros. lia. Qed.

Theorem timers_positive c r :
  2 <= c_sup_interval c -> 10 <= c_sync_interval c -> 0 < sample_sup_timer c r /\ 0 < sample_sync_timer c r.
Proof. intros HS HI. split; apply sample_positive; try assumption; reflexivity. Qed.
