(* C05 — T1 tie: the verdict table of the model/specification against the ValidResult enum reflected from
   ndn.types on every run (Generated/ValidResultConsts.v).  A new or renumbered member, a different default result of
   ValidationFailure, a falsy member or another legacy default Interest validator breaks this obligation. *)
From NDN Require Import Base.Prelude Spec.ExpressSpec Generated.ValidResultConsts.
Local Open Scope N_scope.

(* the model numbers the verdicts 0..4 in the order of the enum values -2..2 *)
Definition vr_index (v : Z) : N := Z.to_N (v + 2).

Definition n_FAIL : list N := [70; 65; 73; 76].
Definition n_TIMEOUT : list N := [84; 73; 77; 69; 79; 85; 84].
Definition n_SILENCE : list N := [83; 73; 76; 69; 78; 67; 69].
Definition n_PASS : list N := [80; 65; 83; 83].
Definition n_ALLOW_BYPASS : list N := [65; 76; 76; 79; 87; 95; 66; 89; 80; 65; 83; 83].

Lemma valid_result_table :
  valid_result_members = [(n_FAIL, -2); (n_TIMEOUT, -1); (n_SILENCE, 0); (n_PASS, 1); (n_ALLOW_BYPASS, 2)]%Z /\
  (* the specification's [pass V2] accepts PASS and ALLOW_BYPASS and nothing else *)
  map (fun m => pass V2 (vr_index (snd m))) valid_result_members = [false; false; false; true; true] /\
  (* a validator raising TimeoutError is reported as TIMEOUT *)
  norm_verdict V2 5 = vr_index (-1) /\
  (* the legacy ValidationFailure carries the default result, FAIL *)
  validation_failure_default_result = n_FAIL /\ norm_verdict V1 1 = vr_index (-2) /\
  (* legacy truthiness: every enum member counts as acceptance *)
  valid_result_members_all_truthy = true /\
  (* legacy default validator for signed Interests *)
  legacy_default_int_validator_is_sha256_digest_checker = true.
Proof. vm_compute. repeat split. Qed.
