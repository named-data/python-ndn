(* C10: envelopes.  An envelope is the LpPacket element around
     - the encoding of ANY assignment [vs] of legal values to the headers LpPacketValue declares
       (every subset of headers, every value), in the declared order, with
     - ANY number of unrecognised elements (critical or not) inserted at ANY position.
   [dec_lp] of an unfragmented envelope returns [vs] (C08 round trip + LpUnknown.v; a fragmented one is refused), hence
   the unwrap prologue of _receive hands exactly the fragment, the token and the Nack reason on; it raises on no input. *)
From NDN Require Import Base.Prelude Model.TlvVar Model.Tlv Model.Packet Model.Lp Spec.TlvWf
  Spec.LpSpec
  Proofs.TlvVarProofs Proofs.TlvSplit Proofs.TlvRoundtrip2 Proofs.TlvAssign
  Proofs.PacketTotal Proofs.LpUnknown.
From NDN Require Import Generated.Schemas Generated.ConstsLp.
Local Open Scope N_scope.

Definition lp_wire (els : list elem) : bytes := tlv LP_PACKET (ser_els els).
Definition lp_depth : nat := depth_of lp_fields.

Definition envelope_of (vs : list value) (els : list elem) : Prop :=
  Forall2 (fun f v => fits (snd f) v) lp_fields vs /\
  Forall el_ok els /\ N.of_nat (length (ser_els els)) < two64 /\
  exists els0, encode_model lp_depth lp_fields vs = Ok (ser_els els0) /\ with_unknown lp_fields els0 els.

Lemma wf_lp_fields : wf_fields lp_fields.
Proof. apply wf_fieldsb_spec. exact wf_ndnlp_v2_LpPacketValue. Qed.

(* T1 ties: the constants/attributes reflected on this run are the ones the spec names *)
Lemma consts_agree :
  LP_PACKET = T_LP_PACKET /\ FRAGMENT = T_FRAGMENT /\ FRAG_INDEX = T_FRAG_INDEX /\ FRAG_COUNT = T_FRAG_COUNT /\
  PIT_TOKEN = T_PIT_TOKEN /\ NACK = T_NACK /\ NACK_REASON = T_NACK_REASON /\ NACK_NONE = 0 /\
  LP_PACKET = TYPE_LP_PACKET /\ FRAG_INDEX = LP_FRAG_INDEX /\ FRAG_COUNT = LP_FRAG_COUNT.
Proof. repeat split; reflexivity. Qed.

Lemma attrs_agree :
  attr_frag_index = FRAG_INDEX /\ attr_frag_count = FRAG_COUNT /\ attr_pit_token = PIT_TOKEN /\
  attr_nack = NACK /\ attr_fragment = FRAGMENT /\ attr_nack_reason = NACK_REASON /\ attr_lp_packet = LP_PACKET.
Proof. repeat split; reflexivity. Qed.

Lemma attrs_in_descriptor :
  In (attr_frag_index, KUint None) lp_fields /\ In (attr_frag_count, KUint None) lp_fields /\
  In (attr_pit_token, KBytes false) lp_fields /\ In (attr_nack, KModel nack_fields false) lp_fields /\
  nack_fields = [(attr_nack_reason, KUint None)] /\
  last lp_fields (0, KBool) = (attr_fragment, KBytes false) /\
  lp_outer = [(attr_lp_packet, KModel lp_fields false)].
Proof. repeat split; try reflexivity; unfold lp_fields, ndnlp_v2_LpPacketValue; cbn [In]; tauto. Qed.

Lemma gen_decode_with_unknown a b :
  with_unknown lp_fields a b -> Forall el_ok b -> N.of_nat (length (ser_els b)) < two64 ->
  gen_decode parse_model LP_PACKET lp_fields true (lp_wire b) = parse_model lp_depth lp_fields true (ser_els a).
Proof.
  intros Hw Hok Hl. unfold lp_wire. rewrite gen_decode_tlv by (try exact Hl; reflexivity).
  exact (parse_model_with_unknown lp_depth lp_fields a b Hw Hok).
Qed.

Theorem gen_decode_envelope vs els :
  envelope_of vs els -> gen_decode parse_model LP_PACKET lp_fields true (lp_wire els) = Ok vs.
Proof.
  intros (HF & Hok & Hl & els0 & He & Hw).
  rewrite (gen_decode_with_unknown els0 els Hw Hok Hl).
  apply parse_encode_roundtrip; [exact wf_lp_fields|exact HF|exact He|].
  pose proof (ser_els_with_unknown_length _ _ _ Hw). lia.
Qed.

Lemma dec_lp_gen w : dec_lp w = no_fragmentation lp_fields (gen_decode parse_model LP_PACKET lp_fields true w).
Proof. reflexivity. Qed.

Theorem dec_lp_envelope vs els :
  envelope_of vs els -> dec_lp (lp_wire els) = no_fragmentation lp_fields (Ok vs).
Proof. intros He. rewrite dec_lp_gen, (gen_decode_envelope vs els He). reflexivity. Qed.

Lemma parse_lp_with_tl w :
  parse_lp_packet_v2_gen true w = do v <- parse_and_check_tl w LP_PACKET ;; parse_lp_packet_v2_gen false v.
Proof.
  unfold parse_lp_packet_v2_gen, parse_lp_packet_v2, parse_lp_value. rewrite dec_lp_gen. unfold gen_decode.
  destruct (parse_and_check_tl w LP_PACKET); reflexivity.
Qed.

Definition unfragmented (vs : list value) : Prop :=
  lp_attr vs attr_frag_index = VNone /\ lp_attr vs attr_frag_count = VNone.

Lemma no_frag_lp vs :
  no_fragmentation lp_fields (Ok vs) =
  match lp_attr vs attr_frag_index, lp_attr vs attr_frag_count with VNone, VNone => Ok vs | _, _ => Err EDecode end.
Proof. reflexivity. Qed.

Lemma no_frag_ok vs : unfragmented vs -> no_fragmentation lp_fields (Ok vs) = Ok vs.
Proof. intros [H1 H2]. rewrite no_frag_lp, H1, H2. reflexivity. Qed.

Definition catches_documented (caught : list err) : Prop :=
  forall e, documented e = true -> caught_by caught e = true.

Lemma caught_documented_v2 : catches_documented lp_caught_v2.
Proof. intros e. destruct e; try discriminate; reflexivity. Qed.
Lemma caught_documented_v1 : catches_documented lp_caught_v1.
Proof. intros e. destruct e; try discriminate; reflexivity. Qed.

Section Unwrap.
Variable caught : list err.
Variable keep : bool.
Hypothesis caught_doc : catches_documented caught.

Definition tok_if (vs : list value) : option bytes := if keep then lp_token vs else None.

Definition unwrap_vals (vs : list value) : unwrapped :=
  match lp_fragment vs with
  | None | Some [] => UDrop 2
  | Some frag =>
      match tl_dec frag with
      | Err _ => UDrop 3
      | Ok (t, _) => match nack_reason_of (lp_nack vs) with
                     | Some r => UNack r frag
                     | None => UPacket t (tok_if vs) frag
                     end
      end
  end.

Lemma unwrap_lp data :
  unwrap_with caught keep LP_PACKET data = match dec_lp data with Ok vs => unwrap_vals vs | Err _ => UDrop 1 end.
Proof.
  unfold unwrap_with, parse_lp_packet_v2. rewrite N.eqb_refl. pose proof (dec_lp_doc data) as D.
  destruct (dec_lp data) as [vs|e].
  - unfold unwrap_vals. destruct (lp_fragment vs) as [[|b frag]|]; try reflexivity.
    destruct (tl_dec (b :: frag)) as [[t n]|e] eqn:Et; [reflexivity|].
    destruct (tl_dec_err _ _ Et) as [-> | ->]; reflexivity.
  - rewrite (caught_doc e D). reflexivity.
Qed.

Lemma unwrap_bare typ data : typ <> LP_PACKET -> unwrap_with caught keep typ data = UPacket typ None data.
Proof. intros H. unfold unwrap_with. apply N.eqb_neq in H. rewrite H. reflexivity. Qed.

Theorem unwrap_envelope vs els :
  envelope_of vs els -> unfragmented vs -> unwrap_with caught keep LP_PACKET (lp_wire els) = unwrap_vals vs.
Proof.
  intros He Hu. rewrite unwrap_lp, (dec_lp_envelope vs els He), (no_frag_ok vs Hu). reflexivity.
Qed.

Theorem unwrap_fragmented vs els :
  envelope_of vs els -> ~ unfragmented vs -> unwrap_with caught keep LP_PACKET (lp_wire els) = UDrop 1.
Proof.
  intros He Hu. rewrite unwrap_lp, (dec_lp_envelope vs els He), no_frag_lp.
  destruct (lp_attr vs attr_frag_index) eqn:E1; try reflexivity.
  destruct (lp_attr vs attr_frag_count) eqn:E2; try reflexivity.
  destruct Hu. split; assumption.
Qed.

Theorem unwrap_with_unknown a b :
  with_unknown lp_fields a b -> Forall el_ok b -> N.of_nat (length (ser_els b)) < two64 ->
  unwrap_with caught keep LP_PACKET (lp_wire b) = unwrap_with caught keep LP_PACKET (lp_wire a).
Proof.
  intros Hw Hok Hl. rewrite !unwrap_lp, !dec_lp_gen, (gen_decode_with_unknown a b Hw Hok Hl).
  rewrite (gen_decode_with_unknown a a (with_unknown_refl _ a)).
  - reflexivity.
  - exact (with_unknown_el_ok _ _ _ Hw Hok).
  - pose proof (ser_els_with_unknown_length _ _ _ Hw). lia.
Qed.

Lemma unwrap_envelope_fragment vs els frag t n :
  envelope_of vs els -> unfragmented vs -> lp_attr vs attr_fragment = VBytes frag -> tl_dec frag = Ok (t, n) ->
  unwrap_with caught keep LP_PACKET (lp_wire els) =
  match nack_reason_of (lp_nack vs) with
  | Some r => UNack r frag
  | None => UPacket t (tok_if vs) frag
  end.
Proof.
  intros He Hu Hf Ht. rewrite (unwrap_envelope vs els He Hu). unfold unwrap_vals, lp_fragment. rewrite Hf.
  destruct frag as [|b frag]; [discriminate Ht|]. rewrite Ht. reflexivity.
Qed.

Theorem unwrap_never_raises typ data e : unwrap_with caught keep typ data <> URaise e.
Proof.
  destruct (N.eq_dec typ LP_PACKET) as [->|Hne]; [|rewrite (unwrap_bare typ data Hne); discriminate].
  rewrite unwrap_lp. destruct (dec_lp data) as [vs|e']; [|discriminate].
  unfold unwrap_vals. destruct (lp_fragment vs) as [[|b frag]|]; try discriminate.
  destruct (tl_dec (b :: frag)) as [[t n]|e']; [|discriminate].
  destruct (nack_reason_of (lp_nack vs)); discriminate.
Qed.
End Unwrap.

Section Transparent.
Variables St Out : Type.
Variable dispatch : St -> N -> option bytes -> bytes -> St * Out.
Variable on_nack : St -> N -> bytes -> St * Out.
Variable nothing : Out.
Notation receive2 := (receive_v2 St Out dispatch on_nack nothing).
Notation receive1 := (receive_v1 St Out dispatch on_nack nothing).

Lemma receive_both s typ data u :
  (forall caught keep, catches_documented caught -> unwrap_with caught keep typ data = u) ->
  receive2 s typ data = receive_of St Out dispatch on_nack nothing u s /\
  receive1 s typ data = receive_of St Out dispatch on_nack nothing u s.
Proof.
  intros H. unfold receive_v2, receive_v1, unwrap_v2, unwrap_v1.
  rewrite (H _ true caught_documented_v2), (H _ false caught_documented_v1). split; reflexivity.
Qed.

(* C10: a packet inside an envelope without Nack / fragmentation headers is processed exactly as the same
   packet received bare (appv2: plus the recorded token) — for all header combinations incl. unknown ones *)
Theorem wrap_transparent_v2 s vs els pkt t n :
  envelope_of vs els -> unfragmented vs -> lp_attr vs attr_nack = VNone ->
  lp_attr vs attr_fragment = VBytes pkt -> tl_dec pkt = Ok (t, n) ->
  receive2 s LP_PACKET (lp_wire els) = Ok (dispatch s t (lp_token vs) pkt) /\
  (t <> LP_PACKET -> receive2 s t pkt = Ok (dispatch s t None pkt)).
Proof.
  intros He Hu Hn Hf Ht. unfold receive_v2, unwrap_v2. split.
  - rewrite (unwrap_envelope_fragment _ true caught_documented_v2 vs els pkt t n He Hu Hf Ht).
    unfold lp_nack. rewrite Hn. reflexivity.
  - intros Hne. rewrite unwrap_bare by exact Hne. reflexivity.
Qed.

Theorem wrap_transparent_v1 s vs els pkt t n :
  envelope_of vs els -> unfragmented vs -> lp_attr vs attr_nack = VNone ->
  lp_attr vs attr_fragment = VBytes pkt -> tl_dec pkt = Ok (t, n) -> t <> LP_PACKET ->
  receive1 s LP_PACKET (lp_wire els) = receive1 s t pkt.
Proof.
  intros He Hu Hn Hf Ht Hne. unfold receive_v1, unwrap_v1.
  rewrite (unwrap_envelope_fragment _ false caught_documented_v1 vs els pkt t n He Hu Hf Ht).
  rewrite unwrap_bare by exact Hne. unfold lp_nack. rewrite Hn. reflexivity.
Qed.

(* C10: an envelope with a Nack header hands exactly its reason code (0 when the header has none) and the
   fragment to the Nack path, whatever other headers are present *)
Theorem nack_exact_reason s vs els ns frag t n :
  envelope_of vs els -> unfragmented vs -> lp_attr vs attr_nack = VModel ns ->
  lp_attr vs attr_fragment = VBytes frag -> tl_dec frag = Ok (t, n) ->
  let r := match field_value nack_fields ns attr_nack_reason with VUint r => r | _ => 0 end in
  receive2 s LP_PACKET (lp_wire els) = Ok (on_nack s r frag) /\
  receive1 s LP_PACKET (lp_wire els) = Ok (on_nack s r frag).
Proof.
  intros He Hu Hn Hf Ht r. apply (receive_both s _ _ (UNack r frag)). intros caught keep Hc.
  rewrite (unwrap_envelope_fragment caught keep Hc vs els frag t n He Hu Hf Ht).
  unfold lp_nack. rewrite Hn. subst r. destruct (field_value nack_fields ns attr_nack_reason); reflexivity.
Qed.

(* C10: fragmented envelopes are rejected: nothing is delivered, the state is unchanged *)
Theorem fragmented_rejected s vs els :
  envelope_of vs els -> ~ unfragmented vs ->
  receive2 s LP_PACKET (lp_wire els) = Ok (s, nothing) /\ receive1 s LP_PACKET (lp_wire els) = Ok (s, nothing).
Proof.
  intros He Hu. apply (receive_both s _ _ (UDrop 1)). intros caught keep Hc.
  exact (unwrap_fragmented caught keep Hc vs els He Hu).
Qed.

(* C10: an envelope without a network packet inside (IDLE packet, empty fragment) changes nothing, whatever its
   headers (a Nack header included) *)
Theorem idle_dropped s vs els :
  envelope_of vs els -> unfragmented vs ->
  lp_attr vs attr_fragment = VNone \/ lp_attr vs attr_fragment = VBytes [] ->
  receive2 s LP_PACKET (lp_wire els) = Ok (s, nothing) /\ receive1 s LP_PACKET (lp_wire els) = Ok (s, nothing).
Proof.
  intros He Hu Hf. apply (receive_both s _ _ (UDrop 2)). intros caught keep Hc.
  rewrite (unwrap_envelope caught keep Hc vs els He Hu). unfold unwrap_vals, lp_fragment.
  destruct Hf as [-> | ->]; reflexivity.
Qed.

(* C10: unknown headers are ignored: any element list, any number of unrecognised elements *)
Theorem unknown_headers_ignored s els :
  Forall el_ok els -> N.of_nat (length (ser_els els)) < two64 ->
  receive2 s LP_PACKET (lp_wire els) = receive2 s LP_PACKET (lp_wire (filter (known lp_fields) els)) /\
  receive1 s LP_PACKET (lp_wire els) = receive1 s LP_PACKET (lp_wire (filter (known lp_fields) els)).
Proof.
  intros Hok Hl.
  pose proof (fun c k Hc => unwrap_with_unknown c k Hc _ els (with_unknown_of_filter lp_fields els) Hok Hl) as U.
  unfold receive_v2, receive_v1, unwrap_v2, unwrap_v1.
  rewrite (U _ true caught_documented_v2), (U _ false caught_documented_v1). split; reflexivity.
Qed.

Lemma receive_of_ok u s :
  (forall e, u <> URaise e) -> is_ok (receive_of St Out dispatch on_nack nothing u s) = true.
Proof. intros H. destruct u as [w|e|r frag|t tok d]; try reflexivity. destruct (H e eq_refl). Qed.

Theorem receive_never_raises s typ data :
  is_ok (receive2 s typ data) = true /\ is_ok (receive1 s typ data) = true.
Proof.
  split; apply receive_of_ok.
  - exact (unwrap_never_raises _ true caught_documented_v2 typ data).
  - exact (unwrap_never_raises _ false caught_documented_v1 typ data).
Qed.
End Transparent.
