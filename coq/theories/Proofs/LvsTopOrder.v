(* compiler.top_order (Model/LvsChecker.top_order): Kahn's algorithm over Python dicts, modelled with association
   lists.  The node list is assumed duplicate-free, the key list of the graph, and sortable: the model's EKey and EType
   (Python's KeyError and TypeError) are possible otherwise.  An edge a -> b means b comes before a in the answer. *)
From NDN Require Import Base.Prelude Model.LvsAst Model.LvsChecker Proofs.ListLemmas Proofs.LvsTraverse.
From Coq Require Import Permutation.
Local Open Scope Z_scope.

(* the position of the first occurrence: what turns an order into a ranking *)
Section Pos.
  Context {K : Type} (eqb : K -> K -> bool) (eqb_spec : forall a b, eqb a b = true <-> a = b).

  Fixpoint pos (x : K) (l : list K) : nat :=
    match l with [] => O | y :: l' => if eqb y x then O else Datatypes.S (pos x l') end.

  Lemma pos_le x l : (pos x l <= length l)%nat.
  Proof. induction l as [|y l IH]; cbn; [apply le_n|]. destruct (eqb y x); [apply Nat.le_0_l | apply le_n_S, IH]. Qed.

  Lemma pos_app_notin x q r : ~ In x q -> pos x (q ++ r) = (length q + pos x r)%nat.
  Proof.
    induction q as [|y q IH]; intros Hn; cbn; [reflexivity|].
    destruct (eqb y x) eqn:E; [apply eqb_spec in E; subst; exfalso; apply Hn; left; reflexivity|].
    rewrite IH; [reflexivity|]. intros H; apply Hn; right; exact H.
  Qed.

  Lemma pos_mid q y r : ~ In y q -> pos y (q ++ y :: r) = length q.
  Proof. intros H. rewrite (pos_app_notin _ _ _ H). cbn [pos]. rewrite (eqb_refl' eqb eqb_spec). lia. Qed.

  Lemma pos_lt l q1 y q2 x : NoDup l -> l = q1 ++ y :: q2 -> In x q2 -> (pos y l < pos x l)%nat.
  Proof.
    intros Hnd -> Hx. rewrite (pos_mid _ _ _ (NoDup_app_l _ _ _ Hnd (or_introl eq_refl))).
    rewrite (pos_app_notin _ _ _ (NoDup_app_l _ _ _ Hnd (or_intror Hx))). cbn [pos].
    destruct (eqb y x) eqn:E; [|lia]. apply eqb_spec in E. subst x. apply NoDup_remove_2 in Hnd. destruct Hnd. apply in_or_app. auto.
  Qed.

  Lemma pos_before l q1 y q2 x : NoDup l -> l = q1 ++ y :: q2 -> (pos x l < pos y l)%nat -> In x q1.
  Proof.
    intros Hnd -> Hlt. destruct (in_dec (eqb_dec' eqb eqb_spec) x q1) as [H|H]; [exact H|]. exfalso.
    rewrite (pos_mid _ _ _ (NoDup_app_l _ _ _ Hnd (or_introl eq_refl))), (pos_app_notin _ _ _ H) in Hlt. lia.
  Qed.
End Pos.

Section Kahn.
  Context {K : Type} (keqb : K -> K -> bool) (kleb : K -> K -> bool) (sortable : list K -> bool).
  Hypothesis Heq : forall a b, keqb a b = true <-> a = b.

  Lemma keqb_refl x : keqb x x = true.
  Proof. exact (eqb_refl' keqb Heq x). Qed.
  Lemma keqb_neq x y : x <> y -> keqb x y = false.
  Proof. exact (eqb_neq' keqb Heq x y). Qed.
  Lemma keqb_sym x y : keqb x y = keqb y x.
  Proof. exact (eqb_sym' keqb Heq x y). Qed.
  Lemma keq_dec (x y : K) : {x = y} + {x <> y}.
  Proof. exact (eqb_dec' keqb Heq x y). Qed.

  Lemma al_set_keys {V} (l : list (K * V)) k v : In k (map fst l) -> map fst (al_set keqb l k v) = map fst l.
  Proof. exact (al_set_keys_same keqb Heq l k v). Qed.
  Lemma al_get_set_eq {V} (l : list (K * V)) k v : In k (map fst l) -> al_get keqb (al_set keqb l k v) k = Some v.
  Proof. intros _. exact (ListLemmas.al_get_set_eq keqb Heq l k v). Qed.
  Lemma al_get_set_neq {V} (l : list (K * V)) k v x : x <> k -> al_get keqb (al_set keqb l k v) x = al_get keqb l x.
  Proof. exact (ListLemmas.al_get_set_neq keqb Heq l k v x). Qed.
  Lemma al_get_in {V} (l : list (K * V)) k : In k (map fst l) <-> exists v, al_get keqb l k = Some v.
  Proof. exact (ListLemmas.al_get_in keqb Heq l k). Qed.
  Lemma nodup_map_fst_filter {V} (l : list (K * V)) p : NoDup (map fst l) -> NoDup (map fst (filter p l)).
  Proof. exact (NoDup_map_filter fst p l). Qed.

  Definition kmem (x : K) (l : list K) : bool := existsb (keqb x) l.
  Lemma kmem_in x l : kmem x l = true <-> In x l.
  Proof. apply (existsb_eqb_in keqb Heq). Qed.

  Definition dget (deg : list (K * Z)) (x : K) : Z := match al_get keqb deg x with Some v => v | None => 0 end.

  Lemma deg_add_keys deg k d : map fst (deg_add keqb deg k d) = map fst deg.
  Proof.
    unfold deg_add. destruct (al_get keqb deg k) as [v|] eqn:E; [|reflexivity].
    apply al_set_keys, al_get_in. eauto.
  Qed.
  Lemma deg_add_get deg k d x : In k (map fst deg) ->
    dget (deg_add keqb deg k d) x = if keqb x k then dget deg x + d else dget deg x.
  Proof.
    intros Hk. unfold deg_add, dget. destruct (proj1 (al_get_in deg k) Hk) as (v & Ev). rewrite Ev.
    destruct (keqb x k) eqn:E.
    - apply Heq in E. subst x. rewrite (al_get_set_eq deg k _ Hk), Ev. reflexivity.
    - rewrite al_get_set_neq; [reflexivity|]. intros ->. rewrite keqb_refl in E. discriminate.
  Qed.

  Definition occ (x : K) (l : list K) : nat := length (filter (keqb x) l).

  Lemma filter_map_length {A B} (f : B -> bool) (g : A -> B) l : length (filter f (map g l)) = length (filter (fun y => f (g y)) l).
  Proof. induction l as [|x l IH]; cbn; [reflexivity|]. destruct (f (g x)); cbn; rewrite IH; reflexivity. Qed.
  Lemma filter_false {A} (l : list A) : filter (fun _ => false) l = [].
  Proof. induction l; cbn; auto. Qed.

  Lemma occ_notin y l : ~ In y l -> occ y l = O.
  Proof.
    intros H. apply length_zero_iff_nil, filter_nil_iff. intros z Hz. apply keqb_neq. intros ->. exact (H Hz).
  Qed.

  Lemma fold_deg_add deg outs d : (forall o, In o outs -> In o (map fst deg)) ->
    map fst (fold_left (fun dg n2 => deg_add keqb dg n2 d) outs deg) = map fst deg /\
    forall x, dget (fold_left (fun dg n2 => deg_add keqb dg n2 d) outs deg) x = dget deg x + Z.of_nat (occ x outs) * d.
  Proof.
    revert deg; induction outs as [|o outs IH]; intros deg Hin; cbn [fold_left].
    - split; [reflexivity|]. intros x. cbn. lia.
    - destruct (IH (deg_add keqb deg o d)) as [Hk Hg].
      { intros o' Ho'. rewrite deg_add_keys. apply Hin. right; exact Ho'. }
      split; [rewrite Hk; apply deg_add_keys|]. intros x. rewrite Hg, deg_add_get by (apply Hin; left; reflexivity).
      unfold occ. cbn [filter]. destruct (keqb x o); cbn [length]; lia.
  Qed.

  Lemma process_node_spec g deg acc x outs :
    al_get keqb g x = Some outs -> In x (map fst deg) -> (forall o, In o outs -> In o (map fst deg)) ->
    exists deg', process_node keqb g (deg, acc) x = Ok (deg', x :: acc) /\ map fst deg' = map fst deg /\
                 dget deg' x = -1 /\ forall y, y <> x -> dget deg' y = dget deg y - Z.of_nat (occ y outs).
  Proof.
    intros Hg Hx Ho. unfold process_node. rewrite Hg. cbn [fst snd]. destruct (fold_deg_add deg outs (-1) Ho) as [Hk Hd].
    eexists. split; [reflexivity|]. unfold dget in *. split; [|split].
    - rewrite al_set_keys by (rewrite Hk; exact Hx). exact Hk.
    - rewrite al_get_set_eq by (rewrite Hk; exact Hx). reflexivity.
    - intros y Hy. rewrite al_get_set_neq, Hd by exact Hy. lia.
  Qed.

  Variable nodes : list K.
  Variable graph : list (K * list K).
  Hypothesis Hnd : NoDup nodes.
  Hypothesis Hkeys : map fst graph = nodes.
  (* sorting a round cannot fail: only lists of nodes are sorted *)
  Hypothesis Hsort : forall l, (forall x, In x l -> In x nodes) -> sortable l = true.

  Definition edges : list (K * K) := flat_map (fun e => map (pair (fst e)) (snd e)) graph.

  Lemma edges_adj : edges = adj_edges graph.
  Proof. reflexivity. Qed.

  Lemma edges_in a b : In (a, b) edges <-> exists outs, In (a, outs) graph /\ In b outs.
  Proof. exact (adj_edges_in graph a b). Qed.

  Lemma graph_get n : In n nodes -> exists outs, al_get keqb graph n = Some outs /\ In (n, outs) graph.
  Proof.
    rewrite <- Hkeys. intros H. apply al_get_in in H. destruct H as (outs & H).
    exists outs. split; [exact H | apply (al_get_some_in keqb Heq), H].
  Qed.

  Definition into (acc : list K) (b : K) : nat :=
    length (filter (fun e => keqb (snd e) b && negb (kmem (fst e) acc)) edges).

  Lemma filter_length_le {A} (p q : A -> bool) l : (forall x, p x = true -> q x = true) -> (length (filter p l) <= length (filter q l))%nat.
  Proof.
    intros H. induction l as [|x l IH]; cbn; [lia|]. destruct (p x) eqn:E.
    - rewrite (H x E). cbn. lia.
    - destruct (q x); cbn; lia.
  Qed.

  Lemma into_antitone acc x b : (into (x :: acc) b <= into acc b)%nat.
  Proof.
    unfold into. apply filter_length_le. intros e. rewrite !andb_true_iff, !negb_true_iff. intros [H1 H2]. split; [exact H1|].
    cbn in H2. apply orb_false_iff in H2. tauto.
  Qed.

  Lemma into_zero_iff acc b : into acc b = O <-> forall a, In (a, b) edges -> In a acc.
  Proof.
    unfold into. rewrite length_zero_iff_nil, filter_nil_iff. split.
    - intros H a Ha. specialize (H (a, b) Ha). cbn [fst snd] in H. rewrite keqb_refl in H.
      apply negb_false_iff, kmem_in in H. exact H.
    - intros H [a b'] Hin. cbn [fst snd]. destruct (keqb b' b) eqn:E; [|reflexivity]. apply Heq in E. subst b'.
      apply negb_false_iff, kmem_in, (H a Hin).
  Qed.

  Lemma into_cons acc x b outs : ~ In x acc -> al_get keqb graph x = Some outs -> In x nodes ->
    into acc b = (into (x :: acc) b + occ b outs)%nat.
  Proof.
    intros Hx Hg _. apply (al_get_some_in keqb Heq), in_split in Hg. destruct Hg as (g1 & g2 & Eg).
    assert (Hnd' : NoDup (map fst graph)) by (rewrite Hkeys; exact Hnd).
    unfold into, edges. rewrite Eg, map_app in *. cbn [map fst] in Hnd'.
    assert (Hsame : forall g, ~ In x (map fst g) ->
              filter (fun e => keqb (snd e) b && negb (kmem (fst e) acc)) (flat_map (fun e => map (pair (fst e)) (snd e)) g) =
              filter (fun e => keqb (snd e) b && negb (kmem (fst e) (x :: acc))) (flat_map (fun e => map (pair (fst e)) (snd e)) g)).
    { intros g Hn. apply filter_ext_in. intros [a o] Ha. apply in_flat_map in Ha. destruct Ha as ([k os] & Hk & Ha).
      apply in_map_iff in Ha. destruct Ha as (o' & E & _). injection E as <- _. unfold kmem. cbn [existsb fst].
      rewrite (keqb_neq k x); [reflexivity|]. intros ->. apply Hn, in_map_iff. exists (x, os). auto. }
    rewrite flat_map_app. cbn [flat_map fst snd]. rewrite !filter_app, !app_length.
    rewrite (Hsame g1), (Hsame g2), !filter_map_length.
    - cbn [fst snd]. replace (kmem x acc) with false by (symmetry; apply not_true_is_false; rewrite kmem_in; exact Hx).
      replace (kmem x (x :: acc)) with true by (symmetry; apply kmem_in; left; reflexivity). cbn [negb].
      rewrite (filter_ext (fun y => keqb y b && false) (fun _ => false)) by (intros; apply andb_false_r).
      rewrite filter_false. unfold occ.
      rewrite (filter_ext (fun y => keqb y b && true) (keqb b)) by (intros; rewrite andb_true_r; apply keqb_sym).
      cbn [length]. lia.
    - apply NoDup_remove_2 in Hnd'. intros H. apply Hnd', in_or_app. auto.
    - apply NoDup_remove_2 in Hnd'. intros H. apply Hnd', in_or_app. auto.
  Qed.

  Definition before_in (acc : list K) : Prop :=
    forall a b l1 l2, In (a, b) edges -> acc = l1 ++ b :: l2 -> In a l2.

  (* [acc] is Python's [ret] reversed: the processed nodes, last first.  The table holds -1 for a processed node and,
     for any other, the number of edges into it whose source is not processed yet ([into]); a node is processed when
     that is 0, so the target of an edge stands before its source in [acc]. *)
  Record KInv (deg : list (K * Z)) (acc : list K) : Prop := {
    ki_keys : map fst deg = nodes;
    ki_nodup : NoDup acc;
    ki_sub : forall x, In x acc -> In x nodes;
    ki_done : forall x, In x acc -> dget deg x = -1;
    ki_todo : forall x, In x nodes -> ~ In x acc -> dget deg x = Z.of_nat (into acc x);
    ki_order : before_in acc
  }.

  Hypothesis Hclosed : forall a b, In (a, b) edges -> In a nodes /\ In b nodes.

  Lemma process_ok deg acc x : KInv deg acc -> In x nodes -> ~ In x acc -> into acc x = O ->
    exists deg', process_node keqb graph (deg, acc) x = Ok (deg', x :: acc) /\ KInv deg' (x :: acc).
  Proof.
    intros HI Hx Hnx Hz. destruct (graph_get x Hx) as (outs & Hg & Hgi).
    destruct (process_node_spec graph deg acc x outs Hg) as (deg' & Hp & Hk & Hdx & Hdy).
    { rewrite (ki_keys _ _ HI). exact Hx. }
    { intros o Ho. rewrite (ki_keys _ _ HI). apply (Hclosed x o), edges_in. eauto. }
    exists deg'. split; [exact Hp|]. constructor.
    - rewrite Hk. apply (ki_keys _ _ HI).
    - constructor; [exact Hnx | apply (ki_nodup _ _ HI)].
    - intros y [<-|Hy]; [exact Hx | apply (ki_sub _ _ HI), Hy].
    - intros y [<-|Hy]; [exact Hdx|]. rewrite Hdy by (intros ->; contradiction). rewrite (ki_done _ _ HI y Hy), occ_notin; [lia|].
      (* no edge from x to a processed node: x would have been processed before it *)
      intros Ho. apply in_split in Hy. destruct Hy as (l1 & l2 & Eacc). apply Hnx. rewrite Eacc. apply in_or_app. right. right.
      apply (ki_order _ _ HI x y l1 l2); [apply edges_in; eauto | exact Eacc].
    - intros y Hy Hny. rewrite Hdy by (intros ->; apply Hny; left; reflexivity).
      rewrite (ki_todo _ _ HI y Hy), (into_cons acc x y outs Hnx Hg Hx); [lia|]. intros Hc. apply Hny. right. exact Hc.
    - intros a b l1 l2 Hab Eacc. destruct l1 as [|h l1]; cbn in Eacc; inversion Eacc; subst.
      + (* b = x: all its sources are processed *)
        apply (proj1 (into_zero_iff l2 b) Hz a Hab).
      + apply (ki_order _ _ HI a b l1 l2 Hab eq_refl).
  Qed.

  Lemma round_ok : forall xs deg acc, KInv deg acc -> NoDup xs ->
    (forall x, In x xs -> In x nodes /\ ~ In x acc /\ into acc x = O) ->
    exists deg', rfold (process_node keqb graph) xs (deg, acc) = Ok (deg', rev xs ++ acc) /\ KInv deg' (rev xs ++ acc).
  Proof.
    induction xs as [|x xs IH]; intros deg acc HI Hnd' Hall.
    - exists deg. split; [reflexivity | exact HI].
    - destruct (Hall x (or_introl eq_refl)) as (Hx & Hnx & Hz). inversion Hnd' as [|? ? Hnxs Hnd'']; subst.
      destruct (process_ok deg acc x HI Hx Hnx Hz) as (deg1 & Hp & HI1).
      destruct (IH deg1 (x :: acc) HI1 Hnd'') as (deg' & Hr & HI').
      { intros y Hy. destruct (Hall y (or_intror Hy)) as (H1 & H2 & H3). split; [exact H1|]. split.
        - intros [<-|Hc]; [contradiction | contradiction].
        - pose proof (into_antitone acc x y). lia. }
      exists deg'. cbn [rfold]. rewrite Hp. cbn [bind]. cbn [rev]. rewrite <- app_assoc. cbn [app]. auto.
  Qed.

  Lemma filter_zero_spec deg acc x : KInv deg acc ->
    In x (map fst (filter (fun nd => (snd nd =? 0)) deg)) <-> In x nodes /\ ~ In x acc /\ into acc x = O.
  Proof.
    intros HI. rewrite in_map_iff. split.
    - intros ([k v] & <- & Hf). apply filter_In in Hf. destruct Hf as [Hin Hz]. cbn in *. apply Z.eqb_eq in Hz. subst v.
      assert (Hk : In k nodes) by (rewrite <- (ki_keys _ _ HI); apply in_map_iff; exists (k, 0); auto).
      assert (Hd : dget deg k = 0).
      { unfold dget. rewrite (al_get_of_in keqb Heq deg k 0); [reflexivity | rewrite (ki_keys _ _ HI); exact Hnd | exact Hin]. }
      split; [exact Hk|]. destruct (in_dec keq_dec k acc) as [Hi|Hn].
      + rewrite (ki_done _ _ HI k Hi) in Hd. lia.
      + split; [exact Hn|]. rewrite (ki_todo _ _ HI k Hk Hn) in Hd. lia.
    - intros (Hx & Hnx & Hz). pose proof (ki_todo _ _ HI x Hx Hnx) as Hd. rewrite Hz in Hd.
      rewrite <- (ki_keys _ _ HI) in Hx. apply al_get_in in Hx. destruct Hx as (v & Ev).
      unfold dget in Hd. rewrite Ev in Hd. cbn in Hd. subst v. exists (x, 0). split; [reflexivity|]. apply filter_In.
      split; [apply (al_get_some_in keqb Heq), Ev | reflexivity].
  Qed.

  Lemma isort_perm l : Permutation (isort kleb l) l.
  Proof.
    induction l as [|x l IH]; cbn; [constructor|].
    assert (G : forall s, Permutation (insert_sorted kleb x s) (x :: s)).
    { induction s as [|y s IHs]; cbn; [apply Permutation_refl|]. destruct (kleb x y); [apply Permutation_refl|].
      eapply Permutation_trans; [apply perm_skip, IHs | apply perm_swap]. }
    eapply Permutation_trans; [apply G | apply perm_skip, IH].
  Qed.

  Definition topo (o : list K) : Prop :=
    NoDup o /\ (forall x, In x o <-> In x nodes) /\ before_in o.

  Lemma finished deg acc : KInv deg acc -> (length nodes <= length acc)%nat -> topo acc.
  Proof.
    intros HI Hl. split; [apply (ki_nodup _ _ HI)|]. split; [|apply (ki_order _ _ HI)].
    intros x. split; [apply (ki_sub _ _ HI)|].
    apply (NoDup_length_incl (ki_nodup _ _ HI) Hl). intros y. apply (ki_sub _ _ HI).
  Qed.

  Lemma round_step deg acc cur : KInv deg acc -> map fst (filter (fun nd => snd nd =? 0) deg) = cur -> cur <> [] ->
    sortable cur = true /\
    exists deg' acc', rfold (process_node keqb graph) (isort kleb cur) (deg, acc) = Ok (deg', acc') /\
                      KInv deg' acc' /\ (length acc < length acc')%nat.
  Proof.
    intros HI Er Hne. split.
    - apply Hsort. intros x Hx. rewrite <- Er in Hx. apply (filter_zero_spec deg acc x HI), Hx.
    - assert (Hnd' : NoDup (isort kleb cur)).
      { eapply Permutation_NoDup; [apply Permutation_sym, isort_perm|]. rewrite <- Er. apply nodup_map_fst_filter.
        rewrite (ki_keys _ _ HI). exact Hnd. }
      assert (Hall : forall x, In x (isort kleb cur) -> In x nodes /\ ~ In x acc /\ into acc x = O).
      { intros x Hx. apply (filter_zero_spec deg acc x HI). rewrite Er. eapply Permutation_in; [apply isort_perm | exact Hx]. }
      destruct (round_ok _ deg acc HI Hnd' Hall) as (deg' & Hr & HI'). exists deg', (rev (isort kleb cur) ++ acc).
      split; [exact Hr|]. split; [exact HI'|]. rewrite app_length, rev_length, (Permutation_length (isort_perm cur)).
      destruct cur; [contradiction | cbn [length]; lia].
  Qed.

  Lemma rounds_sound : forall fuel deg acc, KInv deg acc -> (length nodes < length acc + fuel)%nat ->
    match top_rounds keqb kleb sortable fuel (length nodes) graph deg acc with
    | Ok o => topo o
    | Err e => e = ESemantic
    end.
  Proof.
    induction fuel as [|f IH]; intros deg acc HI Hf; cbn [top_rounds].
    - destruct (Nat.leb_spec (length nodes) (length acc)); [eapply finished; eauto | lia].
    - destruct (Nat.leb_spec (length nodes) (length acc)); [eapply finished; eauto|].
      destruct (map fst (filter (fun nd => snd nd =? 0) deg)) as [|r0 rs] eqn:Er; [reflexivity|].
      destruct (round_step deg acc _ HI Er) as (Hs & deg' & acc' & Hr & HI' & Hlen); [discriminate|].
      rewrite Hs, Hr. cbn [negb bind fst snd]. apply IH; [exact HI' | lia].
  Qed.

  Lemma unproc_dec (acc l : list K) : (exists z, In z l /\ ~ In z acc) \/ (forall z, In z l -> In z acc).
  Proof.
    induction l as [|x l IH]; [right; intros z []|].
    destruct (in_dec keq_dec x acc) as [Hx|Hx].
    - destruct IH as [(z & Hz & Hn)|Hall]; [left; exists z; split; [right; exact Hz | exact Hn]|].
      right. intros z [<-|Hz]; auto.
    - left. exists x. split; [left; reflexivity | exact Hx].
  Qed.

  Lemma max_rank_unprocessed (rank : K -> nat) acc l : (exists z, In z l /\ ~ In z acc) ->
    exists x, In x l /\ ~ In x acc /\ forall y, In y l -> ~ In y acc -> (rank y <= rank x)%nat.
  Proof.
    induction l as [|z l IHl]; intros (w & Hw & Hnw); [destruct Hw|].
    destruct (in_dec keq_dec z acc) as [Hz|Hz].
    - destruct Hw as [->|Hw]; [contradiction|]. destruct (IHl (ex_intro _ w (conj Hw Hnw))) as (x & H1 & H2 & H3).
      exists x. split; [right; exact H1|]. split; [exact H2|]. intros y [<-|Hy] Hny; [contradiction | auto].
    - destruct (unproc_dec acc l) as [Hsome|Hnone].
      + destruct (IHl Hsome) as (x & H1 & H2 & H3). destruct (Nat.le_gt_cases (rank z) (rank x)).
        * exists x. split; [right; exact H1|]. split; [exact H2|]. intros y [<-|Hy] Hny; auto.
        * exists z. split; [left; reflexivity|]. split; [exact Hz|]. intros y [<-|Hy] Hny; [lia|]. specialize (H3 y Hy Hny). lia.
      + exists z. split; [left; reflexivity|]. split; [exact Hz|]. intros y [<-|Hy] Hny; [lia|]. specialize (Hnone y Hy). contradiction.
  Qed.

  (* with a ranking no round is empty: an unprocessed node of maximal rank has no unprocessed source *)
  Lemma rounds_complete (rank : K -> nat) :
    (forall a b, In (a, b) edges -> (rank b < rank a)%nat) ->
    forall fuel deg acc, KInv deg acc -> (length nodes < length acc + fuel)%nat ->
    exists o, top_rounds keqb kleb sortable fuel (length nodes) graph deg acc = Ok o.
  Proof.
    intros Hrank. induction fuel as [|f IH]; intros deg acc HI Hf; cbn [top_rounds].
    - destruct (Nat.leb_spec (length nodes) (length acc)); [eauto | lia].
    - destruct (Nat.leb_spec (length nodes) (length acc)); [eauto|].
      destruct (max_rank_unprocessed rank acc nodes) as (x & Hx & Hnx & Hmax).
      { destruct (unproc_dec acc nodes) as [H1|Hnone]; [exact H1|]. pose proof (NoDup_incl_length Hnd (l' := acc) Hnone). lia. }
      assert (Hz : into acc x = O).
      { apply into_zero_iff. intros a Ha. destruct (in_dec keq_dec a acc) as [Hi|Hn]; [exact Hi|]. exfalso.
        destruct (Hclosed a x Ha) as [Han _]. specialize (Hmax a Han Hn). specialize (Hrank a x Ha). lia. }
      assert (Hxin : In x (map fst (filter (fun nd => snd nd =? 0) deg))) by (apply (filter_zero_spec deg acc x HI); auto).
      destruct (round_step deg acc _ HI eq_refl) as (Hs & deg' & acc' & Hr & HI' & Hlen); [intros E; rewrite E in Hxin; destruct Hxin|].
      destruct (map fst (filter (fun nd => snd nd =? 0) deg)) as [|r0 rs]; [destruct Hxin|].
      rewrite Hs, Hr. cbn [negb bind fst snd]. apply IH; [exact HI' | lia].
  Qed.
End Kahn.

Section TopOrder.
  Context {K : Type} (keqb : K -> K -> bool) (kleb : K -> K -> bool) (sortable : list K -> bool).
  Hypothesis Heq : forall a b, keqb a b = true <-> a = b.
  Variable nodes : list K.
  Variable graph : list (K * list K).
  Hypothesis Hnd : NoDup nodes.
  Hypothesis Hkeys : map fst graph = nodes.
  Hypothesis Hsort : forall l, (forall x, In x l -> In x nodes) -> sortable l = true.

  Definition gedges (g : list (K * list K)) : list (K * K) := flat_map (fun e => map (pair (fst e)) (snd e)) g.
  Lemma gedges_adj g : gedges g = adj_edges g.
  Proof. reflexivity. Qed.
  Definition closed_in (g : list (K * list K)) : Prop := forall a b, In (a, b) (gedges g) -> In a nodes /\ In b nodes.
  Definition inc (g : list (K * list K)) (x : K) : nat := length (filter (fun e => keqb (snd e) x) (gedges g)).

  Lemma count_src_spec deg src outs : map fst deg = nodes ->
    match count_src keqb nodes deg (src, outs) with
    | Ok deg' => (outs <> [] -> In src nodes) /\ (forall o, In o outs -> In o nodes) /\ map fst deg' = nodes /\
                 forall x, dget keqb deg' x = dget keqb deg x + Z.of_nat (occ keqb x outs)
    | Err e => e = ESemantic /\ ~ (In src nodes /\ forall o, In o outs -> In o nodes)
    end.
  Proof.
    intros Hk. unfold count_src. cbn [fst snd].
    rewrite (rfold_guard (fun dst => existsb (keqb src) nodes && existsb (keqb dst) nodes) (fun dg dst => deg_add keqb dg dst 1)).
    destruct (forallb _ outs) eqn:E.
    - assert (Hin : forall o, In o outs -> In src nodes /\ In o nodes).
      { intros o Ho. apply (proj1 (forallb_forall _ _) E), andb_true_iff in Ho. rewrite !(existsb_eqb_in keqb Heq) in Ho. exact Ho. }
      destruct (fold_deg_add keqb kleb sortable Heq deg outs 1) as [Hk' Hg]; [intros o Ho; rewrite Hk; apply Hin, Ho|].
      split; [destruct outs as [|o outs]; [intros []; reflexivity | intros _; apply (Hin o); left; reflexivity]|].
      split; [intros o Ho; apply Hin, Ho|]. split; [rewrite Hk'; exact Hk|]. intros x. rewrite Hg. lia.
    - split; [reflexivity|]. intros [Hs Ha]. rewrite (proj2 (forallb_forall _ _)) in E; [discriminate|].
      intros o Ho. apply andb_true_iff. rewrite !(existsb_eqb_in keqb Heq). auto.
  Qed.

  Lemma count_spec : forall g deg, map fst deg = nodes ->
    match rfold (count_src keqb nodes) g deg with
    | Ok deg' => closed_in g /\ map fst deg' = nodes /\ forall x, dget keqb deg' x = dget keqb deg x + Z.of_nat (inc g x)
    | Err e => e = ESemantic /\ ~ closed_in g
    end.
  Proof.
    induction g as [|[src outs] g IH]; intros deg Hk; cbn [rfold].
    - split; [intros a b []|]. split; [exact Hk|]. intros x. unfold inc. cbn. lia.
    - pose proof (count_src_spec deg src outs Hk) as Hc.
      destruct (count_src keqb nodes deg (src, outs)) as [deg1|e] eqn:Ec; cbn [bind].
      + destruct Hc as (H1 & H2 & H3 & H4). specialize (IH deg1 H3).
        destruct (rfold (count_src keqb nodes) g deg1) as [deg'|e].
        * destruct IH as (Hc1 & Hk1 & Hg1). split; [|split; [exact Hk1|]].
          -- intros a b Hab. unfold gedges in Hab. cbn [flat_map fst snd] in Hab. apply in_app_or in Hab. destruct Hab as [Hab|Hab].
             ++ apply in_map_iff in Hab. destruct Hab as (o & Eo & Ho). inversion Eo; subst. split; [apply H1; intros ->; destruct Ho | apply H2, Ho].
             ++ apply Hc1, Hab.
          -- intros x. rewrite Hg1, H4. unfold inc, gedges. cbn [flat_map fst snd]. rewrite filter_app, app_length.
             rewrite filter_map_length. cbn [snd]. unfold occ.
             rewrite (filter_ext (fun y => keqb y x) (keqb x)) by (intros; apply (keqb_sym keqb Heq)). lia.
        * destruct IH as [He Hn]. split; [exact He|]. intros Hcl. apply Hn. intros a b Hab. apply Hcl.
          unfold gedges. cbn [flat_map]. apply in_or_app. right. exact Hab.
      + destruct Hc as [He Hn]. split; [exact He|]. intros Hcl. destruct outs as [|o outs].
        * unfold count_src in Ec. cbn in Ec. discriminate.
        * apply Hn. split.
          -- apply (Hcl src o). unfold gedges. cbn. left. reflexivity.
          -- intros o' Ho'. apply (Hcl src o'). unfold gedges. cbn [flat_map fst snd]. apply in_or_app. left. apply in_map, Ho'.
  Qed.

  Definition zeros : list (K * Z) := map (fun n => (n, 0)) nodes.
  Lemma zeros_keys : map fst zeros = nodes.
  Proof. unfold zeros. rewrite map_map. cbn. apply map_id. Qed.
  Lemma zeros_get x : dget keqb zeros x = 0.
  Proof.
    unfold dget, zeros. clear Hnd Hkeys Hsort. induction nodes as [|n l IH]; cbn; [reflexivity|]. destruct (keqb x n); [reflexivity | exact IH].
  Qed.

  Lemma kinv0 deg : closed_in graph -> map fst deg = nodes -> (forall x, dget keqb deg x = Z.of_nat (inc graph x)) ->
    KInv keqb nodes graph deg [].
  Proof.
    intros Hc Hk Hg. constructor; auto.
    - constructor.
    - intros x [].
    - intros x [].
    - intros x _ _. rewrite Hg. f_equal. unfold inc, into. rewrite edges_adj, gedges_adj. f_equal. apply filter_ext. intros e. cbn. rewrite andb_true_r. reflexivity.
    - intros a b l1 l2 _ E. destruct l1; discriminate.
  Qed.

  Lemma count_start :
    match rfold (count_src keqb nodes) graph zeros with
    | Ok deg => closed_in graph /\ KInv keqb nodes graph deg []
    | Err e => e = ESemantic /\ ~ closed_in graph
    end.
  Proof.
    pose proof (count_spec graph zeros zeros_keys) as Hc. destruct (rfold (count_src keqb nodes) graph zeros) as [deg|e]; [|exact Hc].
    destruct Hc as (Hcl & Hk & Hg). split; [exact Hcl|]. apply kinv0; auto. intros x. rewrite Hg, zeros_get. lia.
  Qed.

  Theorem top_order_spec :
    match top_order keqb kleb sortable nodes graph with
    | Ok o => closed_in graph /\ topo nodes graph o
    | Err e => e = ESemantic
    end.
  Proof.
    unfold top_order. fold zeros. pose proof count_start as Hc.
    destruct (rfold (count_src keqb nodes) graph zeros) as [deg|e]; cbn [bind]; [|apply Hc]. destruct Hc as (Hcl & HI).
    pose proof (rounds_sound keqb kleb sortable Heq nodes graph Hnd Hkeys Hsort Hcl (S (length nodes)) deg [] HI (Nat.lt_succ_diag_r _)) as Hr.
    destruct (top_rounds keqb kleb sortable (S (length nodes)) (length nodes) graph deg []); auto.
  Qed.

  Theorem top_order_complete (rank : K -> nat) :
    closed_in graph -> (forall a b, In (a, b) (gedges graph) -> (rank b < rank a)%nat) ->
    exists o, top_order keqb kleb sortable nodes graph = Ok o.
  Proof.
    intros Hcl Hrank. unfold top_order. fold zeros. pose proof count_start as Hc.
    destruct (rfold (count_src keqb nodes) graph zeros) as [deg|e]; cbn [bind]; [|destruct Hc as [_ Hn]; contradiction].
    apply (rounds_complete keqb kleb sortable Heq nodes graph Hnd Hkeys Hsort Hcl rank Hrank (S (length nodes)) deg [] (proj2 Hc)).
    apply Nat.lt_succ_diag_r.
  Qed.
End TopOrder.

Section TopOrderCases.
  Context {K : Type} (keqb : K -> K -> bool) (kleb : K -> K -> bool) (sortable : list K -> bool).
  Hypothesis Heq : forall a b, keqb a b = true <-> a = b.
  Variable nodes : list K.
  Variable graph : list (K * list K).
  Hypothesis Hnd : NoDup nodes.
  Hypothesis Hkeys : map fst graph = nodes.
  Hypothesis Hsort : forall l, (forall x, In x l -> In x nodes) -> sortable l = true.

  Definition ranked : Prop := exists rank : K -> nat, forall a b, In (a, b) (gedges graph) -> (rank b < rank a)%nat.

  Lemma topo_pos o : closed_in nodes graph -> topo nodes graph o ->
    forall a b, In (a, b) (gedges graph) -> (pos keqb b o < pos keqb a o)%nat.
  Proof.
    intros Hcl (Hndo & Hin & Hbefore) a b Hab. destruct (Hcl a b Hab) as [_ Hb]. apply Hin, in_split in Hb.
    destruct Hb as (l1 & l2 & Eo). exact (pos_lt keqb Heq o l1 b l2 a Hndo Eo (Hbefore a b l1 l2 Hab Eo)).
  Qed.

  Theorem top_order_cases :
    verdict ESemantic (top_order keqb kleb sortable nodes graph) (closed_in nodes graph /\ ranked)
      (fun o => topo nodes graph o /\ forall a b, In (a, b) (gedges graph) -> (pos keqb b o < pos keqb a o)%nat).
  Proof.
    pose proof (top_order_spec keqb kleb sortable Heq nodes graph Hnd Hkeys Hsort) as Hs. unfold verdict.
    destruct (top_order keqb kleb sortable nodes graph) as [o|e] eqn:E.
    - destruct Hs as [Hcl Ht]. pose proof (topo_pos o Hcl Ht) as Hp.
      split; [split; [exact Hcl | exists (fun x => pos keqb x o); exact Hp] | split; assumption].
    - split; [exact Hs|]. intros [Hcl (rank & Hr)].
      destruct (top_order_complete keqb kleb sortable Heq nodes graph Hnd Hkeys Hsort rank Hcl Hr) as (o & Ho). congruence.
  Qed.

  Corollary top_order_ranked : closed_in nodes graph ->
    verdict ESemantic (top_order keqb kleb sortable nodes graph) ranked any.
  Proof. intros Hcl. eapply verdict_imp; [| |exact top_order_cases]; [tauto | exact (fun _ _ => I)]. Qed.
End TopOrderCases.
