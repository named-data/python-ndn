(* C08, remaining clauses: announced size = produced size; unknown non-critical elements are ignored
   wherever inserted; unknown / repeated / out-of-order critical ones are rejected; integers take the smallest legal
   width unless one is declared. *)
From NDN Require Import Base.Prelude Model.TlvVar Model.Name Model.Tlv Proofs.BytesLemmas Proofs.TlvVarProofs
  Proofs.NameWire Proofs.TlvAssign Proofs.TlvRoundtrip2.
Local Open Scope N_scope.

Lemma rconcat_rsum {A} (f : A -> res bytes) (g : A -> res N) :
  (forall x w, f x = Ok w -> g x = Ok (N.of_nat (length w))) ->
  forall l w, rconcat f l = Ok w -> rsum g l = Ok (N.of_nat (length w)).
Proof.
  intros H. induction l as [|x l IH]; intros w Hw; [injection Hw as <-; reflexivity|].
  cbn [rconcat rsum] in *. apply bind_ok in Hw as (a & Ea & Hw). apply bind_ok in Hw as (r & Er & Hw).
  injection Hw as <-. rewrite (H x a Ea), (IH r Er), app_length. cbn [bind]. f_equal. lia.
Qed.

Lemma enc_fields_elen ev el :
  (forall t k v w, ev t k v = Ok w -> el t k v = Ok (N.of_nat (length w))) ->
  forall fs vs w, enc_fields_with ev fs vs = Ok w -> elen_fields_with el fs vs = Ok (N.of_nat (length w)).
Proof.
  intros H. induction fs as [|[t k] fs IH]; intros [|v vs] w Hw; try discriminate; [injection Hw as <-; reflexivity|].
  cbn [enc_fields_with elen_fields_with] in *. apply bind_ok in Hw as (a & Ea & Hw). apply bind_ok in Hw as (r & Er & Hw).
  injection Hw as <-. rewrite (H t k v a Ea), (IH vs r Er), app_length. cbn [bind]. f_equal. lia.
Qed.

Theorem elen_enc : forall d t k v w, enc_val d t k v = Ok w -> elen_val d t k v = Ok (N.of_nat (length w)).
Proof.
  induction d as [|d IH]; intros t k v w H; [discriminate|].
  destruct v as [|n| |b|n|vs|l|l]; [destruct k; injection H as <-; reflexivity|..];
    destruct k; try discriminate; cbn [enc_val elen_val] in *.
  - destruct (fixed_width fixed n) as [wd|]; [|discriminate]. cbn [bind] in *.
    destruct (256 ^ N.of_nat wd <=? n); [discriminate|].
    apply bind_ok in H as (th & Et & H). injection H as <-.
    rewrite app_length. cbn [app length]. rewrite N_to_be_length, (tl_enc_r_length _ _ Et). f_equal. lia.
  - apply bind_ok in H as (th & Et & H). injection H as <-.
    rewrite app_length, (tl_enc_r_length _ _ Et). cbn [length]. f_equal. lia.
  - apply bind_ok in H as (th & Et & H). injection H as <-.
    rewrite !app_length, tl_enc_length, (tl_enc_r_length _ _ Et). f_equal. lia.
  - injection H as <-. unfold name_encode. rewrite !app_length, !tl_enc_length, <- name_value_length_concat.
    change (tl_size TYPE_NAME) with 1%nat. f_equal. lia.
  - apply bind_ok in H as (inner & Ei & H). rewrite (enc_fields_elen _ _ IH _ _ _ Ei). cbn [bind].
    apply bind_ok in H as (th & Et & H). injection H as <-.
    rewrite !app_length, tl_enc_length, (tl_enc_r_length _ _ Et). f_equal. lia.
  - exact (rconcat_rsum _ _ (IH t k) l w H).
  - apply (rconcat_rsum _ _) with (2 := H). intros [kx vx] w' Hx. cbn [fst snd] in *.
    apply bind_ok in Hx as (a & Ea & Hx). apply bind_ok in Hx as (b & Eb & Hx). injection Hx as <-.
    rewrite (IH _ _ _ _ Ea), (IH _ _ _ _ Eb), app_length. cbn [bind]. f_equal. lia.
Qed.

Theorem encoded_length_exact d fs vs w :
  encode_model d fs vs = Ok w -> encoded_length_model d fs vs = Ok (N.of_nat (length w)).
Proof. exact (enc_fields_elen _ _ (elen_enc d) fs vs w). Qed.

(* the Types the scan of one level recognises; an element of any other Type is what the theorems below call
   unrecognised *)
Definition level_types (fs : list field) : list N :=
  flat_map (fun f => fst f :: match snd f with KMap _ vt _ => [vt] | _ => [] end) fs.

Lemma level_types_field fs t k : In (t, k) fs -> In t (level_types fs).
Proof.
  intros H. unfold level_types. apply in_flat_map. exists (t, k). split; [exact H|]. left. reflexivity.
Qed.

Lemma level_types_vt fs t kk vt vk : In (t, KMap kk vt vk) fs -> In vt (level_types fs).
Proof.
  intros H. unfold level_types. apply in_flat_map. exists (t, KMap kk vt vk). split; [exact H|]. right. left. reflexivity.
Qed.

Definition st_ok (fs : list field) (st : pstate) : Prop :=
  match st with PNormal => True | PAwait _ _ vt _ => In vt (level_types fs) end.

(* the only way into the state that awaits a map value is a key element of a map field of the level: what one
   step establishes.  It gives [st_ok], which the theorems assume, and also the kind of the awaited value. *)
Definition st_from (fs : list field) (st : pstate) : Prop :=
  match st with PNormal => True | PAwait _ _ vt vk => exists t kk, In (t, KMap kk vt vk) fs end.

Lemma step_req_next fs ic st pos acc e k c x :
  step_req fs ic st pos acc e = RAsk k c -> st_from fs (fst (fst (c x))).
Proof.
  destruct st as [|i key vt vk]; cbn [step_req].
  - destruct (find_from fs 0 pos (e_type e)) as [[i k0]|] eqn:Ef; [|destruct (_ && _); discriminate].
    apply find_from_some_in in Ef. destruct k0 as [| | | | | |kk vt vk]; intros H; injection H as <- <-; try exact I.
    exists (e_type e), kk. exact Ef.
  - destruct (_ =? _); [intros H; injection H as <- <-; exact I|destruct (_ && _); discriminate].
Qed.

Lemma st_from_ok fs st : st_from fs st -> st_ok fs st.
Proof. destruct st as [|i key vt vk]; [trivial|]. intros (t & kk & Hin). exact (level_types_vt _ _ _ _ _ Hin). Qed.

Lemma step_req_unknown fs ic st pos acc e : ~ In (e_type e) (level_types fs) -> st_ok fs st ->
  step_req fs ic st pos acc e = if N.odd (e_type e) && negb ic then RFail else RSkip.
Proof.
  intros Hun Hst. destruct st as [|i key vt vk]; cbn [step_req].
  - rewrite find_from_none; [reflexivity|].
    intros Hin. apply Hun. apply in_map_iff in Hin. destruct Hin as ([t k] & <- & Hin).
    exact (level_types_field _ _ _ Hin).
  - replace (e_type e =? vt) with false; [reflexivity|].
    symmetry. apply N.eqb_neq. intros E. apply Hun. rewrite E. exact Hst.
Qed.

(* Two element lists with a common prefix [a]: scanning them either fails in [a], with the same error, or reaches the
   two tails in one and the same state of the level.  So what holds of the results on the tails, from every such
   state, holds of the results on the whole lists. *)
Lemma assign_prefix pv fs ic (P : res (list value) -> res (list value) -> Prop) l l' :
  (forall e, P (Err e) (Err e)) ->
  (forall st pos acc, st_ok fs st -> P (assign_with pv fs ic st pos l acc) (assign_with pv fs ic st pos l' acc)) ->
  forall a st pos acc, st_ok fs st ->
  P (assign_with pv fs ic st pos (a ++ l) acc) (assign_with pv fs ic st pos (a ++ l') acc).
Proof.
  intros Herr Htail. induction a as [|e a IH]; intros st pos acc Hst; [exact (Htail _ _ _ Hst)|].
  cbn [app]. rewrite !assign_with_cons. destruct (step_req fs ic st pos acc e) as [| |k c] eqn:Es;
    [exact (IH _ _ _ Hst)|apply Herr|].
  destruct (pv k e) as [x|]; [|apply Herr]. cbn [bind].
  pose proof (st_from_ok _ _ (step_req_next _ _ _ _ _ _ _ _ x Es)) as Hn.
  destruct (c x) as [[st' pos'] acc']. exact (IH _ _ _ Hn).
Qed.

(* C08: an unrecognised non-critical element is ignored wherever it is inserted *)
Theorem assign_ignores_noncritical pv fs ic e0 :
  ~ In (e_type e0) (level_types fs) -> N.odd (e_type e0) = false ->
  forall a b st pos acc, st_ok fs st ->
  assign_with pv fs ic st pos (a ++ e0 :: b) acc = assign_with pv fs ic st pos (a ++ b) acc.
Proof.
  intros Hun Hev a b. apply (assign_prefix pv fs ic eq); [reflexivity|]. intros st pos acc Hst.
  rewrite assign_with_cons, (step_req_unknown _ _ _ _ _ _ Hun Hst), Hev. reflexivity.
Qed.

(* C08: an unrecognised critical element makes the level fail (unless ignore_critical) *)
Theorem assign_rejects_critical pv fs e0 :
  ~ In (e_type e0) (level_types fs) -> N.odd (e_type e0) = true ->
  forall a b st pos acc, st_ok fs st ->
  is_ok (assign_with pv fs false st pos (a ++ e0 :: b) acc) = false.
Proof.
  intros Hun Hodd a b. apply (assign_prefix pv fs false (fun r _ => is_ok r = false) _ b); [reflexivity|].
  intros st pos acc Hst. rewrite assign_with_cons, (step_req_unknown _ _ _ _ _ _ Hun Hst), Hodd. reflexivity.
Qed.

(* a recognised critical field that comes again / out of order: once the scan position has passed
   every field of that Type, an element of that (odd) Type is rejected *)
Theorem assign_rejects_out_of_order pv fs pos e r acc :
  N.odd (e_type e) = true ->
  (forall j k, nth_error fs j = Some (e_type e, k) -> (j < pos)%nat) ->
  assign_with pv fs false PNormal pos (e :: r) acc = Err EDecode.
Proof.
  intros Hodd Hpassed. cbn [assign_with]. rewrite find_from_passed by (intros j k Hj; cbn; eauto).
  rewrite Hodd. reflexivity.
Qed.

Theorem enc_uint_minimal d t n w :
  t < two64 -> enc_val (S d) t (KUint None) (VUint n) = Ok w ->
  w = tlv t (nni_enc n) /\
  forall k, (k = 1 \/ k = 2 \/ k = 4 \/ k = 8)%nat -> n < 256 ^ N.of_nat k -> (nni_width n <= k)%nat.
Proof.
  intros Ht H. split; [|intros k Hk Hn; apply nni_width_minimal; assumption].
  destruct (enc_val_uint_inv _ _ _ _ _ H) as (wd & Ew & Hn). injection Ew as <-.
  rewrite (enc_val_uint d t None n _ Ht eq_refl Hn) in H. injection H as <-. reflexivity.
Qed.
