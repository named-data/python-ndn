(* [gen_tree] merges rule chains into a pattern tree.  It cannot fail within its fuel ([gen_tree_ok]), every chain
   without rule references ends at a node of the tree and only chains of the list end anywhere ([gen_tree_covers],
   [gen_tree_ended_sub]).  A name follows a path of that tree to a node where chain [rc] ends iff the name satisfies
   [rc] read on its own ([chain_sem], [gen_tree_sem]): literal components equal, a named pattern constrained at its
   first occurrence and equal to its binding afterwards, a temporary pattern constrained at every occurrence and
   binding nothing. *)
From NDN Require Import Base.Prelude Base.Text Model.Name Model.LvsAst Model.LvsCompiler Spec.LvsTree
  Proofs.ListLemmas Proofs.LvsTraverse Proofs.TextProofs Proofs.LvsFlatten.
Local Open Scope N_scope.

Definition cons_for (rc : chain) (t : Z) : list pcons :=
  map (fun c => fst (enc_cons c)) (filter (fun c => zmem t (nc_pat c)) (ch_cons rc)).

Definition tags_before (depth : nat) (rc : chain) : list Z :=
  flat_map (fun c => match c with NPat t => [t] | _ => [] end) (firstn depth (ch_name rc)).

Definition pat_pos (rc : chain) (i : nat) (t : Z) : Prop := nth_error (ch_name rc) i = Some (NPat t).

Lemma tags_before_S depth rc :
  tags_before (S depth) rc =
  tags_before depth rc ++ match nth_error (ch_name rc) depth with Some (NPat t) => [t] | _ => [] end.
Proof.
  unfold tags_before. destruct (nth_error (ch_name rc) depth) as [k|] eqn:E.
  - rewrite (firstn_S_nth _ _ _ E), flat_map_app. cbn [flat_map]. rewrite app_nil_r. reflexivity.
  - apply nth_error_None in E. rewrite !firstn_all2 by lia. rewrite app_nil_r. reflexivity.
Qed.

Section ChainSem.
  Variable ufn : ident -> option (bytes -> list (option bytes) -> res bool).

  (* [cf t]: the constraints the chain puts on tag t; [seen]: the tags of the components already crossed.  A named tag
     seen before is only compared with its binding, its constraints are not evaluated again: the test
     RuleChain.pattern_movement makes on prev_tags ([pm_cons]). *)
  Fixpoint chain_sem (cf : Z -> list pcons) (seen : list Z) (comps : list ncomp) (name : list bytes) (c c' : tctx) : Prop :=
    match comps, name with
    | [], [] => c' = c
    | NLit x :: comps', v :: name' => v = x /\ chain_sem cf seen comps' name' c c'
    | NPat t :: comps', v :: name' =>
        exists c1, tstep ufn t (if (0 <=? t)%Z && zmem t seen then [] else cf t) v c c1 /\ chain_sem cf (t :: seen) comps' name' c1 c'
    | _, _ => False
    end.

  Lemma chain_sem_ext cf s1 s2 comps : (forall t, zmem t s1 = zmem t s2) ->
    forall name c c', chain_sem cf s1 comps name c c' <-> chain_sem cf s2 comps name c c'.
  Proof.
    revert s1 s2; induction comps as [|k comps IH]; intros s1 s2 Hs name c c'; destruct name as [|v name]; cbn; try reflexivity.
    destruct k as [x|t|r]; [| |reflexivity].
    - rewrite (IH s1 s2 Hs). reflexivity.
    - assert (Hs' : forall t0, zmem t0 (t :: s1) = zmem t0 (t :: s2)).
      { intros t0. unfold zmem. cbn [existsb]. f_equal. apply Hs. }
      rewrite (Hs t). split; intros (c1 & H1 & H2); exists c1; (split; [exact H1|]); apply (IH _ _ Hs'); exact H2.
  Qed.

  Definition chain_sem_from (depth : nat) (rc : chain) (suffix : list bytes) (c c' : tctx) : Prop :=
    chain_sem (cons_for rc) (tags_before depth rc) (skipn depth (ch_name rc)) suffix c c'.

  Lemma chain_sem_from_nil depth rc c c' :
    chain_sem_from depth rc [] c c' <-> (length (ch_name rc) <= depth)%nat /\ c' = c.
  Proof.
    unfold chain_sem_from. destruct (skipn depth (ch_name rc)) as [|k l] eqn:E.
    - apply skipn_nil_length in E. cbn. tauto.
    - apply skipn_cons_length in E. destruct k; cbn; split; try contradiction; lia.
  Qed.

  Lemma chain_sem_from_cons depth rc v rest c c' :
    chain_sem_from depth rc (v :: rest) c c' <->
    match nth_error (ch_name rc) depth with
    | Some (NLit x) => v = x /\ chain_sem_from (S depth) rc rest c c'
    | Some (NPat t) =>
        exists c1, tstep ufn t (if (0 <=? t)%Z && zmem t (tags_before depth rc) then [] else cons_for rc t) v c c1 /\
                   chain_sem_from (S depth) rc rest c1 c'
    | _ => False
    end.
  Proof.
    unfold chain_sem_from. rewrite tags_before_S. destruct (nth_error (ch_name rc) depth) as [k|] eqn:E.
    - rewrite (proj2 skipn_cons_nth (conj E eq_refl)). destruct k as [x|t|r]; cbn [chain_sem].
      + rewrite app_nil_r. reflexivity.
      + split; intros (c1 & H1 & H2); exists c1; (split; [exact H1|]); revert H2; apply chain_sem_ext; intros t0;
          rewrite zmem_snoc; reflexivity.
      + reflexivity.
    - apply nth_error_None in E. rewrite skipn_all2 by exact E. reflexivity.
  Qed.
End ChainSem.

(* the merging key determines the edge: equal keys mean equal constraints and, for named patterns, equal tags *)
Definition keys_faithful (chains : list chain) : Prop :=
  forall rc rc' t t' prev, In rc chains -> In rc' chains ->
    snd (pattern_movement rc t prev) = snd (pattern_movement rc' t' prev) ->
    snd (fst (pattern_movement rc t prev)) = snd (fst (pattern_movement rc' t' prev)) /\
    (((0 <= t)%Z \/ (0 <= t')%Z) -> t = t').

Lemma pm_tag rc t prev : fst (fst (pattern_movement rc t prev)) = t.
Proof. unfold pattern_movement. destruct ((0 <=? t)%Z && zmem t prev); reflexivity. Qed.
Lemma pm_cons rc t prev : snd (fst (pattern_movement rc t prev)) = if (0 <=? t)%Z && zmem t prev then [] else cons_for rc t.
Proof.
  unfold pattern_movement, cons_for. destruct ((0 <=? t)%Z && zmem t prev); [reflexivity|]. cbn. rewrite map_map. reflexivity.
Qed.

Lemma lit_at_nth rc depth v : lit_at rc depth = Some v <-> nth_error (ch_name rc) depth = Some (NLit v).
Proof.
  unfold lit_at. destruct (nth_error (ch_name rc) depth) as [[x|t0|r]|]; split; intros H; inversion H; reflexivity.
Qed.
Lemma pat_at_pos rc depth t : pat_at rc depth = Some t <-> pat_pos rc depth t.
Proof.
  unfold pat_at, pat_pos. destruct (nth_error (ch_name rc) depth) as [[x|t0|r]|]; split; intros H; inversion H; reflexivity.
Qed.

Lemma lit_at_some rc depth v : lit_at rc depth = Some v -> In (NLit v) (ch_name rc) /\ (depth < length (ch_name rc))%nat.
Proof. intros H. apply nth_error_in_lt, lit_at_nth, H. Qed.
Lemma pat_at_some rc depth t : pat_at rc depth = Some t -> In (NPat t) (ch_name rc) /\ (depth < length (ch_name rc))%nat.
Proof. intros H. apply nth_error_in_lt, pat_at_pos, H. Qed.

Lemma in_tags_before t depth rc : In t (tags_before depth rc) <-> exists i, (i < depth)%nat /\ pat_pos rc i t.
Proof.
  induction depth as [|d IH].
  - split; [intros [] | intros (i & Hi & _); lia].
  - rewrite tags_before_S, in_app_iff, IH. unfold pat_pos. split.
    + intros [(i & Hi & Hp)|H]; [exists i; split; [lia | exact Hp]|].
      destruct (nth_error (ch_name rc) d) as [[x|t0|r]|] eqn:E; cbn in H; try contradiction.
      destruct H as [<-|[]]. exists d. split; [lia | exact E].
    + intros (i & Hi & Hp). destruct (Nat.eq_dec i d) as [->|Hne].
      * right. rewrite Hp. left; reflexivity.
      * left. exists i. split; [lia | exact Hp].
Qed.

Lemma going_on_in depth ctx rc : In rc (going_on depth ctx) <-> In rc ctx /\ depth <> length (ch_name rc).
Proof.
  unfold going_on. rewrite filter_In. destruct (Nat.eqb_spec depth (length (ch_name rc))); cbn; intuition congruence.
Qed.
Lemma going_on_nth depth ctx rc k : In rc ctx -> nth_error (ch_name rc) depth = Some k -> In rc (going_on depth ctx).
Proof.
  intros Hin E. apply going_on_in. split; [exact Hin|].
  assert (depth < length (ch_name rc))%nat by (apply nth_error_Some; congruence). lia.
Qed.
Lemma ended_at_in depth ctx rc : In rc (ended_at depth ctx) <-> In rc ctx /\ depth = length (ch_name rc).
Proof.
  unfold ended_at. rewrite filter_In. destruct (Nat.eqb_spec depth (length (ch_name rc))); cbn; intuition congruence.
Qed.
Lemma v_group_in depth ctx1 v rc : In rc (v_group depth ctx1 v) <-> In rc ctx1 /\ lit_at rc depth = Some v.
Proof.
  unfold v_group. rewrite filter_In. destruct (lit_at rc depth) as [w|]; [rewrite bytes_eqb_spec|]; intuition congruence.
Qed.
Lemma v_moves_in depth ctx1 v : In v (v_moves depth ctx1) <-> exists rc, In rc ctx1 /\ lit_at rc depth = Some v.
Proof.
  unfold v_moves. rewrite in_isort, (in_dedup _ bytes_eqb_spec), in_flat_map. split.
  - intros (rc & Hrc & Hv). exists rc. split; [exact Hrc|]. destruct (lit_at rc depth); [destruct Hv as [->|[]]; reflexivity | destruct Hv].
  - intros (rc & Hrc & E). exists rc. split; [exact Hrc|]. rewrite E. left; reflexivity.
Qed.
Lemma p_moves_in depth prev ctx1 pm :
  In pm (p_moves depth prev ctx1) <-> exists rc t, In rc ctx1 /\ pat_at rc depth = Some t /\ pm = (pattern_movement rc t prev, rc).
Proof.
  unfold p_moves. rewrite in_flat_map. split.
  - intros (rc & Hrc & Hp). destruct (pat_at rc depth) as [t|] eqn:E; [|destruct Hp].
    destruct Hp as [<-|[]]. exists rc, t. auto.
  - intros (rc & t & Hrc & E & ->). exists rc. split; [exact Hrc|]. rewrite E. left; reflexivity.
Qed.
Lemma p_keys_in pms key : In key (p_keys pms) <-> exists pm, In pm pms /\ snd (fst pm) = key.
Proof.
  unfold p_keys. rewrite in_isort, (in_dedup _ str_eqb_spec), in_map_iff.
  split; intros (pm & H1 & H2); exists pm; auto.
Qed.
Lemma p_group_in pms key pm : In pm (p_group pms key) <-> In pm pms /\ snd (fst pm) = key.
Proof. unfold p_group. rewrite filter_In, str_eqb_spec. reflexivity. Qed.

(* a pattern child is built from the chains whose movement has its key, and tagged like the first of them *)
Lemma gen_tree_S_inv f depth ctx prev t : gen_tree (S f) depth ctx prev = Ok t ->
  exists vs ps, t = PNode (ended_at depth ctx) (vlist_of vs) (plist_of ps) /\
    Forall2 (fun v vt => fst vt = v /\ gen_tree f (S depth) (v_group depth (going_on depth ctx) v) prev = Ok (snd vt))
            (v_moves depth (going_on depth ctx)) vs /\
    Forall2 (fun key pt => exists rc0 t0 grest,
               p_group (p_moves depth prev (going_on depth ctx)) key = (pattern_movement rc0 t0 prev, rc0) :: grest /\
               In rc0 ctx /\ pat_at rc0 depth = Some t0 /\ fst pt = (t0, snd (fst (pattern_movement rc0 t0 prev))) /\
               gen_tree f (S depth) (rc0 :: map snd grest) (t0 :: prev) = Ok (snd pt))
            (p_keys (p_moves depth prev (going_on depth ctx))) ps.
Proof.
  intros Hgen. cbn [gen_tree] in Hgen.
  destruct (rmap _ (v_moves _ _)) as [vs|] eqn:Ev; [|discriminate]. cbn [bind] in Hgen.
  destruct (rmap _ (p_keys _)) as [ps|] eqn:Ep; [|discriminate]. cbn [bind] in Hgen.
  injection Hgen as <-. exists vs, ps. split; [reflexivity|]. split.
  - eapply forall2_impl; [|apply BytesLemmas.rmap_ok_iff, Ev]. cbn beta. intros v vt H.
    destruct (gen_tree f (S depth) _ prev) as [ch|]; [|discriminate]. injection H as <-. split; reflexivity.
  - eapply forall2_impl; [|apply BytesLemmas.rmap_ok_iff, Ep]. cbn beta. intros key pt H.
    destruct (p_group _ key) as [|pm0 grest] eqn:Egrp; [discriminate|].
    assert (Hpm0 := in_eq pm0 grest). rewrite <- Egrp in Hpm0.
    apply p_group_in, proj1, p_moves_in in Hpm0. destruct Hpm0 as (rc0 & t0 & Hr0 & Hpa0 & ->).
    apply going_on_in in Hr0. cbn [map snd fst] in H. rewrite pm_tag in H.
    destruct (gen_tree f (S depth) _ (t0 :: prev)) as [ch|] eqn:Eg; [|discriminate]. injection H as <-.
    exists rc0, t0, grest. repeat split; tauto.
Qed.

Lemma vfind_forall2 {R : bytes -> bytes * ptree -> Prop} {l vs} v :
  Forall2 (fun v e => fst e = v /\ R v e) l vs ->
  match vfind v (vlist_of vs) with Some child => R v (v, child) | None => ~ In v l end.
Proof.
  induction 1 as [|v0 [x t] l vs [Ex HR] _ IH]; cbn; [tauto|]. cbn in Ex. subst x.
  destruct (bytes_eqb v v0) eqn:E.
  - apply bytes_eqb_spec in E. subst. exact HR.
  - destruct (vfind v (vlist_of vs)); [exact IH|]. intros [->|H]; [rewrite bytes_eqb_refl in E; discriminate | exact (IH H)].
Qed.

Lemma v_group_going depth ctx v rc :
  In rc (v_group depth (going_on depth ctx) v) <-> In rc ctx /\ lit_at rc depth = Some v.
Proof.
  rewrite v_group_in, going_on_in. split; [tauto|]. intros [Hin Hl]. split; [|exact Hl].
  apply going_on_in. apply lit_at_nth in Hl. eapply going_on_nth; eauto.
Qed.

Lemma p_group_moves_in depth prev ctx key pm :
  In pm (p_group (p_moves depth prev (going_on depth ctx)) key) <->
  exists rc t, pm = (pattern_movement rc t prev, rc) /\ In rc ctx /\ pat_pos rc depth t /\
               snd (pattern_movement rc t prev) = key.
Proof.
  rewrite p_group_in, p_moves_in. split.
  - intros [(rc & t & Hrc & Hpa & ->) Hk]. exists rc, t. apply going_on_in in Hrc. apply pat_at_pos in Hpa. tauto.
  - intros (rc & t & -> & Hrc & Hp & Hk). split; [|exact Hk]. exists rc, t.
    split; [eapply going_on_nth; eauto|]. split; [apply pat_at_pos; exact Hp | reflexivity].
Qed.

Lemma v_child_sub depth ctx v rc : In rc (v_group depth (going_on depth ctx) v) -> In rc ctx.
Proof. intros H. apply v_group_going in H. apply H. Qed.

Lemma p_child_sub depth prev ctx key rc : In rc (map snd (p_group (p_moves depth prev (going_on depth ctx)) key)) -> In rc ctx.
Proof.
  intros H. apply in_map_iff in H. destruct H as (pm & <- & Hpm).
  apply p_group_moves_in in Hpm. destruct Hpm as (rc & t & -> & Hr & _). exact Hr.
Qed.

Lemma p_group_key pms key pm : In pm (p_group pms key) -> In key (p_keys pms).
Proof. intros H. apply p_group_in in H. apply p_keys_in. exists pm. exact H. Qed.

Definition no_refs (rc : chain) : Prop := forall r, ~ In (NRef r) (ch_name rc).

Lemma max_chain_len_ge l rc : In rc l -> (length (ch_name rc) <= max_chain_len l)%nat.
Proof.
  unfold max_chain_len.
  assert (G : forall l a, (a <= fold_left (fun a c => Nat.max a (length (ch_name c))) l a)%nat /\
                          forall rc, In rc l -> (length (ch_name rc) <= fold_left (fun a c => Nat.max a (length (ch_name c))) l a)%nat).
  { induction l0 as [|c l0 IH]; intros a; cbn [fold_left]; [split; [lia | intros rc0 []]|].
    destruct (IH (Nat.max a (length (ch_name c)))) as [H1 H2]. split; [lia|].
    intros rc0 [<-|Hin]; [lia | apply H2, Hin]. }
  apply (G l O).
Qed.

Lemma gen_tree_ok : forall fuel depth ctx prev,
  (1 <= fuel)%nat -> (forall rc, In rc ctx -> (length (ch_name rc) < depth + fuel)%nat) ->
  exists t, gen_tree fuel depth ctx prev = Ok t.
Proof.
  induction fuel as [|f IH]; intros depth ctx prev Hf Hlen; [lia|]. cbn [gen_tree].
  (* a child exists because some chain goes on below it, and that chain is longer than depth *)
  assert (Hchild : forall rc ctx' prev', In rc ctx -> (depth < length (ch_name rc))%nat -> (forall rc0, In rc0 ctx' -> In rc0 ctx) ->
            exists t, gen_tree f (S depth) ctx' prev' = Ok t).
  { intros rc ctx' prev' Hrc Hlt Hsub. apply IH; [specialize (Hlen rc Hrc); lia|].
    intros rc0 H0. specialize (Hlen rc0 (Hsub rc0 H0)). lia. }
  destruct (rmap _ (v_moves depth (going_on depth ctx))) as [vs|e] eqn:Ev; cbn [bind].
  2:{ exfalso. apply rmap_err in Ev. destruct Ev as (v & Hv & He). cbn beta in He.
      apply v_moves_in in Hv. destruct Hv as (rc & Hrc & Hl). apply going_on_in in Hrc.
      destruct (Hchild rc (v_group depth (going_on depth ctx) v) prev (proj1 Hrc) (proj2 (lit_at_some _ _ _ Hl))) as (t & Et);
        [intros rc0; apply v_child_sub|]. rewrite Et in He. discriminate. }
  destruct (rmap _ (p_keys (p_moves depth prev (going_on depth ctx)))) as [ps|e] eqn:Ep; cbn [bind]; [eauto|].
  exfalso. apply rmap_err in Ep. destruct Ep as (key & Hk & He). cbn beta in He.
  apply p_keys_in in Hk. destruct Hk as (pm & Hpm & Hkey).
  destruct (p_group (p_moves depth prev (going_on depth ctx)) key) as [|pm0 rest] eqn:Eg.
  { assert (In pm (p_group (p_moves depth prev (going_on depth ctx)) key)) by (apply p_group_in; auto). rewrite Eg in H. destruct H. }
  cbv zeta in He. apply p_moves_in in Hpm. destruct Hpm as (rc & t0 & Hrc & Hp & _). apply going_on_in in Hrc.
  destruct (Hchild rc (map snd (pm0 :: rest)) (fst (fst (fst pm0)) :: prev) (proj1 Hrc) (proj2 (pat_at_some _ _ _ Hp))) as (t & Et);
    [intros rc0; rewrite <- Eg; apply p_child_sub|]. rewrite Et in He. discriminate.
Qed.

Lemma gen_tree_root_ok chains : exists t, gen_tree (Datatypes.S (max_chain_len chains)) 0 chains [] = Ok t.
Proof. apply gen_tree_ok; [lia|]. intros rc Hrc. pose proof (max_chain_len_ge _ _ Hrc). lia. Qed.

Lemma gen_tree_covers : forall fuel depth ctx prev t,
  gen_tree fuel depth ctx prev = Ok t ->
  forall rc, In rc ctx -> (depth <= length (ch_name rc))%nat -> no_refs rc ->
  exists t', subtree t' t /\ In rc (t_ended t').
Proof.
  induction fuel as [|f IH]; intros depth ctx prev t Hgen rc Hin Hlen Hnr; [discriminate|].
  destruct (gen_tree_S_inv _ _ _ _ _ Hgen) as (vs & ps & -> & Ev & Ep).
  destruct (nth_error (ch_name rc) depth) as [[v|t0|r]|] eqn:En.
  - assert (Hg : In rc (v_group depth (going_on depth ctx) v)) by (apply v_group_going, conj, lit_at_nth; assumption).
    assert (Hvm : In v (v_moves depth (going_on depth ctx))) by (apply v_moves_in; exists rc; apply v_group_in, Hg).
    destruct (forall2_in_l _ _ _ _ Ev Hvm) as ([v' child] & Hvs & Ev' & Eg). cbn [fst snd] in Ev', Eg. subst v'.
    assert (Hlt : (depth < length (ch_name rc))%nat) by (apply nth_error_Some; congruence).
    destruct (IH _ _ _ _ Eg rc Hg Hlt Hnr) as (t' & Hst & Hend).
    exists t'. split; [eapply st_v; [apply vin_of; exact Hvs | exact Hst] | exact Hend].
  - assert (Hpm : In (pattern_movement rc t0 prev, rc)
                     (p_group (p_moves depth prev (going_on depth ctx)) (snd (pattern_movement rc t0 prev)))).
    { apply p_group_moves_in. exists rc, t0. auto. }
    destruct (forall2_in_l _ _ _ _ Ep (p_group_key _ _ _ Hpm)) as ([[tag cs] child] & Hps & rc0 & t1 & grest & Egrp & _ & _ & _ & Eg).
    cbn [snd] in Eg. rewrite Egrp in Hpm. apply (in_map snd) in Hpm.
    assert (Hlt : (depth < length (ch_name rc))%nat) by (apply nth_error_Some; congruence).
    destruct (IH _ _ _ _ Eg rc Hpm Hlt Hnr) as (t' & Hst & Hend).
    exists t'. split; [eapply st_p; [apply pin_of; exact Hps | exact Hst] | exact Hend].
  - destruct (Hnr r). eapply nth_error_In; eauto.
  - apply nth_error_None in En. eexists. split; [apply st_refl|]. cbn [t_ended]. apply ended_at_in. split; [exact Hin | lia].
Qed.

Lemma gen_tree_ended_sub : forall fuel depth ctx prev t, gen_tree fuel depth ctx prev = Ok t ->
  forall t', subtree t' t -> forall rc, In rc (t_ended t') -> In rc ctx.
Proof.
  induction fuel as [|f IH]; intros depth ctx prev t Hgen t' Hst rc Hrc; [discriminate|].
  destruct (gen_tree_S_inv _ _ _ _ _ Hgen) as (vs & ps & -> & Ev & Ep).
  inversion Hst as [|ended vs0 ps0 v child Hv Hst'|ended vs0 ps0 tag cs child Hp Hst']; subst.
  - cbn [t_ended] in Hrc. apply ended_at_in in Hrc. tauto.
  - apply vin_of in Hv. destruct (forall2_in_r _ _ _ _ Ev Hv) as (v' & _ & _ & Eg). cbn [snd] in Eg.
    eapply v_child_sub, (IH _ _ _ _ Eg t' Hst' rc Hrc).
  - apply pin_of in Hp. destruct (forall2_in_r _ _ _ _ Ep Hp) as (key & _ & rc0 & t1 & grest & Egrp & _ & _ & _ & Eg). cbn [snd] in Eg.
    apply (p_child_sub depth prev ctx key). rewrite Egrp. exact (IH _ _ _ _ Eg t' Hst' rc Hrc).
Qed.

(* [prev], the tags of the edges walked so far, holds exactly the named tags each chain in play has before [depth] *)
Record Inv (ctx : list chain) (depth : nat) (prev : list Z) : Prop := {
  inv_a : forall rc i t, In rc ctx -> (i < depth)%nat -> pat_pos rc i t -> (0 <= t)%Z -> In t prev;
  inv_b : forall rc t, In rc ctx -> In t prev -> (0 <= t)%Z -> exists i, (i < depth)%nat /\ pat_pos rc i t
}.

Lemma inv0 chains : Inv chains 0 [].
Proof.
  constructor.
  - intros rc i t _ Hi. lia.
  - intros rc t _ [].
Qed.

Lemma inv_zmem {ctx depth prev rc t} :
  Inv ctx depth prev -> In rc ctx -> pat_pos rc depth t ->
  ((0 <=? t)%Z && zmem t prev) = ((0 <=? t)%Z && zmem t (tags_before depth rc)).
Proof.
  intros HI Hin Hp. destruct (Z.leb_spec 0 t) as [Hpos|Hneg]; [|reflexivity]. cbn [andb].
  apply eq_true_iff_eq. rewrite !zmem_in, in_tags_before. split.
  - intros H. apply (inv_b _ _ _ HI rc t Hin H Hpos).
  - intros (i & Hi & Hpi). apply (inv_a _ _ _ HI rc i t Hin Hi Hpi Hpos).
Qed.

Lemma inv_value {ctx depth prev} v :
  Inv ctx depth prev -> Inv (v_group depth (going_on depth ctx) v) (S depth) prev.
Proof.
  intros HI. constructor.
  - intros rc i t Hin Hi Hp Hpos. apply v_group_going in Hin. destruct Hin as [Hin Hl].
    destruct (Nat.eq_dec i depth) as [->|Hne]; [apply lit_at_nth in Hl; unfold pat_pos in Hp; congruence|].
    apply (inv_a _ _ _ HI rc i t); auto. lia.
  - intros rc t Hin Ht Hpos. apply v_group_going in Hin. destruct Hin as [Hin _].
    destruct (inv_b _ _ _ HI rc t Hin Ht Hpos) as (i & Hi & Hp). exists i. split; [lia | exact Hp].
Qed.

Section Gen.
  Variable ufn : ident -> option (bytes -> list (option bytes) -> res bool).
  Variable chains : list chain.
  Hypothesis Hkeys : keys_faithful chains.

  Lemma v_group_sub {ctx depth v} :
    (forall rc, In rc ctx -> In rc chains) -> forall rc, In rc (v_group depth (going_on depth ctx) v) -> In rc chains.
  Proof. intros Hsub rc H. exact (Hsub rc (v_child_sub _ _ _ _ H)). Qed.

  (* tstep only looks at the sign of a temporary tag *)
  Lemma tstep_tag_irrel t t' cs v c c' : ((0 <= t)%Z \/ (0 <= t')%Z -> t = t') -> tstep ufn t cs v c c' <-> tstep ufn t' cs v c c'.
  Proof.
    intros H. unfold tstep. destruct (Z.leb_spec 0 t) as [Ht|Ht], (Z.leb_spec 0 t') as [Ht'|Ht'].
    - rewrite (H (or_introl Ht)). reflexivity.
    - pose proof (H (or_introl Ht)). lia.
    - pose proof (H (or_intror Ht')). lia.
    - reflexivity.
  Qed.

  (* one merging key of a node, the chains behind its pattern edge, the first of them *)
  Section Group.
    Context {ctx : list chain} {depth : nat} {prev : list Z} {key : str}.
    Context {rc0 : chain} {t0 : Z} {rest : list (Z * list pcons * str * chain)}.
    Hypothesis Hsub : forall rc, In rc ctx -> In rc chains.
    Hypothesis HI : Inv ctx depth prev.
    Hypothesis Hg : p_group (p_moves depth prev (going_on depth ctx)) key = (pattern_movement rc0 t0 prev, rc0) :: rest.

    Lemma p_group_child rc : In rc (rc0 :: map snd rest) -> In rc ctx.
    Proof. intros H. apply (p_child_sub depth prev ctx key). rewrite Hg. exact H. Qed.

    Lemma p_group_sub rc : In rc (rc0 :: map snd rest) -> In rc chains.
    Proof. intros H. exact (Hsub rc (p_group_child rc H)). Qed.

    Lemma p_group_coherent rc : In rc (rc0 :: map snd rest) ->
      exists t, In rc ctx /\ pat_pos rc depth t /\
        snd (fst (pattern_movement rc t prev)) = snd (fst (pattern_movement rc0 t0 prev)) /\
        ((0 <= t)%Z \/ (0 <= t0)%Z -> t = t0).
    Proof.
      intros Hin.
      assert (Hk0 := in_eq (pattern_movement rc0 t0 prev, rc0) rest). rewrite <- Hg in Hk0.
      apply p_group_in, proj2 in Hk0. cbn [fst snd] in Hk0.
      change (In rc (map snd ((pattern_movement rc0 t0 prev, rc0) :: rest))) in Hin.
      rewrite <- Hg in Hin. apply in_map_iff in Hin. destruct Hin as (pm & <- & Hpm).
      apply p_group_moves_in in Hpm. destruct Hpm as (rc & t & -> & Hc & Hp & Hk). cbn [snd].
      exists t. split; [exact Hc|]. split; [exact Hp|]. apply (Hkeys rc rc0 t t0 prev); [exact (Hsub rc Hc) | exact (p_group_sub rc0 (or_introl eq_refl)) | congruence].
    Qed.

    Lemma inv_pattern : Inv (rc0 :: map snd rest) (S depth) (t0 :: prev).
    Proof.
      constructor.
      - intros rc i t Hin Hi Hp Hpos. destruct (p_group_coherent rc Hin) as (t1 & Hc & Hp1 & _ & He).
        apply (proj1 (Nat.lt_succ_r _ _)), Nat.lt_eq_cases in Hi. destruct Hi as [Hi| ->].
        + right. exact (inv_a _ _ _ HI rc i t Hc Hi Hp Hpos).
        + left. unfold pat_pos in *. rewrite Hp1 in Hp. injection Hp as ->. symmetry. apply He. left; exact Hpos.
      - intros rc t Hin Ht Hpos. destruct (p_group_coherent rc Hin) as (t1 & Hc & Hp1 & _ & He).
        destruct Ht as [<-|Ht].
        + exists depth. split; [apply Nat.lt_succ_diag_r|]. rewrite <- He; [exact Hp1 | right; exact Hpos].
        + destruct (inv_b _ _ _ HI rc t Hc Ht Hpos) as (i & Hi & Hp). exists i. split; [apply Nat.lt_lt_succ_r, Hi | exact Hp].
    Qed.

    Lemma p_group_tstep rc : In rc (rc0 :: map snd rest) ->
      exists t, In rc ctx /\ nth_error (ch_name rc) depth = Some (NPat t) /\ forall v c c1,
        tstep ufn t0 (snd (fst (pattern_movement rc0 t0 prev))) v c c1 <->
        tstep ufn t (if (0 <=? t)%Z && zmem t (tags_before depth rc) then [] else cons_for rc t) v c c1.
    Proof.
      intros Hin. destruct (p_group_coherent rc Hin) as (t & Hc & Hp & Hcs & He).
      exists t. split; [exact Hc|]. split; [exact Hp|]. intros v c c1.
      rewrite <- (inv_zmem HI Hc Hp), <- pm_cons, Hcs. symmetry. apply tstep_tag_irrel, He.
    Qed.
  End Group.

  (* One level of the tree groups the chains in play by their next component.  Under [Inv] and [keys_faithful] all chains
     behind one edge prescribe the same step ([p_group_tstep]), so following the edge is a step of each of them. *)
  Theorem gen_tree_sem : forall fuel depth ctx prev t,
    gen_tree fuel depth ctx prev = Ok t ->
    (forall rc, In rc ctx -> In rc chains) -> Inv ctx depth prev ->
    forall suffix c c',
      (forall t' rc, tpath ufn t suffix c t' c' -> In rc (t_ended t') -> In rc ctx /\ chain_sem_from ufn depth rc suffix c c') /\
      (forall rc, In rc ctx -> (depth <= length (ch_name rc))%nat -> chain_sem_from ufn depth rc suffix c c' ->
                  exists t', tpath ufn t suffix c t' c' /\ In rc (t_ended t')).
  Proof.
    induction fuel as [|f IH]; intros depth ctx prev t Hgen Hsub HI suffix c c'; [discriminate|].
    apply gen_tree_S_inv in Hgen. destruct Hgen as (vs & ps & -> & Hvs & Hps).
    split.
    - intros t' rc Hp Hin.
      inversion Hp as [ | ended vs0 ps0 v rest ? child ? ? Hvf Hrest | ended vs0 ps0 v rest ? tag cs child c1 ? ? Hpin Hstep Hrest ]; subst.
      + apply ended_at_in in Hin. destruct Hin as [Hin Hd]. split; [exact Hin|].
        apply chain_sem_from_nil. split; [lia | reflexivity].
      + pose proof (vfind_forall2 v Hvs) as Eg. rewrite Hvf in Eg. cbn [snd] in Eg.
        destruct (IH _ _ _ _ Eg (v_group_sub Hsub) (inv_value v HI) rest c c') as [Hs _].
        destruct (Hs t' rc Hrest Hin) as [Hing Hsem]. apply v_group_going in Hing. destruct Hing as [Hing Hl].
        split; [exact Hing|]. apply chain_sem_from_cons. apply lit_at_nth in Hl. rewrite Hl. auto.
      + apply pin_of in Hpin.
        destruct (forall2_in_r _ _ _ _ Hps Hpin) as (key & _ & rc0 & t0 & grest & Egrp & _ & _ & Etc & Eg).
        cbn [fst snd] in Etc, Eg. injection Etc as -> ->.
        destruct (IH _ _ _ _ Eg (p_group_sub Hsub Egrp) (inv_pattern Hsub HI Egrp) rest c1 c') as [Hs _].
        destruct (Hs t' rc Hrest Hin) as [Hing Hsem].
        destruct (p_group_tstep Hsub HI Egrp _ Hing) as (t & Hc & Hnth & Hiff).
        split; [exact Hc|]. apply chain_sem_from_cons. rewrite Hnth.
        exists c1. split; [apply Hiff; exact Hstep | exact Hsem].
    - intros rc Hin Hlen Hsem. destruct suffix as [|v rest].
      + apply chain_sem_from_nil in Hsem. destruct Hsem as [Hl ->]. eexists. split; [constructor|].
        apply ended_at_in. split; [exact Hin | lia].
      + apply chain_sem_from_cons in Hsem.
        destruct (nth_error (ch_name rc) depth) as [k|] eqn:Hnth; [|contradiction].
        assert (Hlt : (depth < length (ch_name rc))%nat) by (apply nth_error_Some; congruence).
        destruct k as [x|t1|r]; [| |contradiction].
        * destruct Hsem as [-> Hsem].
          assert (Hg : In rc (v_group depth (going_on depth ctx) x)) by (apply v_group_going, conj, lit_at_nth; assumption).
          assert (Hvm : In x (v_moves depth (going_on depth ctx))).
          { apply v_moves_in. exists rc. apply v_group_in, Hg. }
          pose proof (vfind_forall2 x Hvs) as Eg.
          destruct (vfind x (vlist_of vs)) as [child|] eqn:Hfind; [cbn [snd] in Eg | elim Eg; exact Hvm].
          destruct (IH _ _ _ _ Eg (v_group_sub Hsub) (inv_value x HI) rest c c') as [_ Hc].
          destruct (Hc rc Hg Hlt Hsem) as (t' & Htp & Hend).
          exists t'. split; [eapply tp_value; eauto | exact Hend].
        * destruct Hsem as (c1 & Hstep & Hsem).
          assert (Hpm : In (pattern_movement rc t1 prev, rc)
                           (p_group (p_moves depth prev (going_on depth ctx)) (snd (pattern_movement rc t1 prev)))).
          { apply p_group_moves_in. exists rc, t1. auto. }
          destruct (forall2_in_l _ _ _ _ Hps (p_group_key _ _ _ Hpm))
            as ([[tag cs] child] & Hin_ps & rc0 & t0 & grest & Egrp & _ & _ & Etc & Eg).
          cbn [fst snd] in Etc, Eg. injection Etc as -> ->.
          rewrite Egrp in Hpm. apply (in_map snd) in Hpm.
          destruct (p_group_tstep Hsub HI Egrp _ Hpm) as (t & _ & Hnth' & Hiff).
          cbn [snd] in Hnth', Hiff. rewrite Hnth in Hnth'. injection Hnth' as <-.
          destruct (IH _ _ _ _ Eg (p_group_sub Hsub Egrp) (inv_pattern Hsub HI Egrp) rest c1 c') as [_ Hc].
          destruct (Hc _ Hpm Hlt Hsem) as (t' & Htp & Hend).
          exists t'. split; [|exact Hend].
          eapply tp_pattern; [apply pin_of; exact Hin_ps | apply Hiff; exact Hstep | exact Htp].
  Qed.
End Gen.
