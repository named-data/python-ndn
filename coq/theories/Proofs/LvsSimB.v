(* One rule of _replicate_rules against Spec/LvsSem.expand: when the table has an entry for every rule referred to,
   the rule cannot fail, and the chains produced for it represent exactly the flat chains of the source rule (one per
   choice of constraint set and of an expansion of every reference), provided the chains stored for the referenced
   rules do; their components and constraints are those of the numbered rules ([chain_from]). *)
From NDN Require Import Base.Prelude Model.Name Model.LvsAst Model.LvsChecker Model.LvsCompiler Spec.LvsSem
  Proofs.ListLemmas Proofs.LvsTraverse Proofs.LvsNumbering Proofs.LvsReplicate Proofs.LvsRepresents Proofs.LvsRename
  Proofs.LvsExpand Proofs.LvsSimA.
Local Open Scope N_scope.

Lemma map_acc_link {St A B} (f : St -> A -> St * B) (P : St -> Prop) : forall l s s' ys,
  (forall s x s' y, P s -> In x l -> f s x = (s', y) -> P s') ->
  P s -> map_acc f s l = (s', ys) -> P s' /\ Forall2 (fun x y => exists s1 s2, P s1 /\ f s1 x = (s2, y)) l ys.
Proof.
  intros l s s' ys Hf Hs. revert s' ys.
  apply (map_acc_ind f (fun done s1 ys1 => P s1 /\ Forall2 (fun x y => exists s1 s2, P s1 /\ f s1 x = (s2, y)) done ys1)).
  - split; [exact Hs | constructor].
  - intros done x todo s1 ys1 s2 y El [H1 H2] Ef. split; [apply (Hf s1 x s2 y H1); [rewrite El; apply in_elt | exact Ef]|].
    apply Forall2_app; [exact H2|]. constructor; [exists s1, s2; auto | constructor].
Qed.

Lemma mkflat_snoc cs parts p : mkflat cs (parts ++ [p]) = fapp (mkflat cs parts) p.
Proof.
  unfold mkflat, fapp. cbn. rewrite !map_app, !concat_app. cbn. rewrite !app_nil_r, app_assoc. reflexivity.
Qed.

Record rchain_ok (k : N) (rc : chain) : Prop := {
  ro_wf : Forall pat_wf (ch_cons rc);
  ro_name : forall t, In (NPat t) (ch_name rc) -> (t < 0)%Z -> (- t < Z.of_N k)%Z;
  ro_cons : forall c t, In c (ch_cons rc) -> In t (nc_pat c) -> (t < 0)%Z -> (- t < Z.of_N k)%Z;
  ro_norefs : forall x, ~ In (NRef x) (ch_name rc)
}.

Lemma rchain_ok_mono k k' rc : rchain_ok k rc -> k <= k' -> rchain_ok k' rc.
Proof.
  intros [A B C D] Hle. constructor; auto.
  - intros t Ht Hn. specialize (B t Ht Hn). lia.
  - intros c t Hc Ht Hn. specialize (C c t Hc Ht Hn). lia.
Qed.

(* The counters.  _gen_pattern_numbers gave the temporaries of this rule's name the tags -k0 .. -(k1 - 1), and no tag at or
   below -kfinal (LvsSimD puts its final counter there).  _replicate_rules goes on counting from there: [kstart] is where its
   counter stands when the rule is entered, and every renamed copy of a referenced chain takes a range [kc, kc') above it,
   so that a copy shares no temporary with the chain it is appended to ([rchain_ok k]: all temporaries above -k). *)
Section Rule.
  Variable S : lvsfile.
  Variable named : list (ident * N).
  Variable kfinal : N.
  Variable K' : nat.
  Hypothesis Hinj : forall p q t, al_get ident_eqb named p = Some t -> al_get ident_eqb named q = Some t -> p = q.
  Hypothesis Hnt : forall p n, al_get ident_eqb named p = Some n -> is_temp_pat p = false /\ 1 <= n.
  Hypothesis Hkf : 1 <= kfinal.

  Variable nrules : list nrule.
  Variable r : rule.
  Variable nr : nrule.
  Hypothesis Hnrin : In nr nrules.
  Variable tp : temp_pats.
  Variable k0 k1 : N.
  Hypothesis Hk1 : k1 <= kfinal.
  Hypothesis Htp : tp_inv k0 k1 (r_name r) (nr_name nr) tp.
  Hypothesis Hnum : Forall2 (comp_num named) (r_name r) (nr_name nr).

  Lemma tp_range q l t : al_get ident_eqb tp q = Some l -> In t l -> (t < 0)%Z /\ (- t < Z.of_N k1)%Z.
  Proof.
    intros Hl Ht. destruct (ti_bwd _ _ _ _ _ Htp _ _ _ Hl Ht) as (j & Hj1 & Hj2 & Hj3).
    pose proof (forall2_nth _ _ _ Hnum j _ _ Hj1 Hj2) as Hc. cbn in Hc. rewrite Hj3 in Hc.
    destruct (ti_fresh _ _ _ _ _ Htp j t Hj2 Hc). auto.
  Qed.

  Lemma own_rel cs cons0 p t : resolved named tp cs cons0 ->
    (forall tc nc, In tc cs -> resolve_cons named tp tc = Ok nc -> zmem t (nc_pat nc) = ident_eqb (tc_pat tc) p) ->
    Forall2 (optlist_rel named) (cons_on p cs) (opts_for cons0 t).
  Proof.
    intros F. induction F as [|tc nc cs cons0 Hr _ IH]; intros H; [constructor|].
    unfold cons_on, opts_for in *. cbn [filter map]. rewrite (H tc nc (or_introl eq_refl) Hr).
    pose proof (IH (fun tc0 nc0 Hin => H tc0 nc0 (or_intror Hin))) as IH'.
    destruct (ident_eqb (tc_pat tc) p); [|exact IH']. cbn [map]. constructor; [exact (proj1 (resolve_cons_ok _ _ _ _ Hr)) | exact IH'].
  Qed.

  Lemma own_named_rel cs cons0 p n : resolved named tp cs cons0 ->
    al_get ident_eqb named p = Some n -> Forall2 (optlist_rel named) (cons_on p cs) (opts_for cons0 (Z.of_N n)).
  Proof.
    intros F Hp. destruct (Hnt p n Hp) as [Hpt _]. apply (own_rel cs cons0 p _ F). intros tc nc _ Hr.
    destruct (resolve_cons_ok _ _ _ _ Hr) as [_ Hpat]. destruct (is_temp_pat (tc_pat tc)) eqn:Et.
    - rewrite (eqb_neq' ident_eqb ident_eqb_eq) by congruence.
      destruct (zmem (Z.of_N n) (nc_pat nc)) eqn:E; [|reflexivity]. apply zmem_in in E. destruct (tp_range _ _ _ Hpat E). lia.
    - destruct Hpat as (m & Hm & Hpm). rewrite Hpm, zmem_single. destruct (ident_eqb (tc_pat tc) p) eqn:E1.
      + apply ident_eqb_eq in E1. rewrite E1, Hp in Hm. injection Hm as <-. apply Z.eqb_refl.
      + apply Z.eqb_neq. intros E. apply N2Z.inj in E. subst m.
        rewrite (Hinj _ _ _ Hm Hp), (eqb_refl' ident_eqb ident_eqb_eq) in E1. discriminate.
  Qed.

  Lemma own_temp_rel cs cons0 i p t : resolved named tp cs cons0 ->
    nth_error (r_name r) i = Some (CPat p) -> is_temp_pat p = true -> nth_error (nr_name nr) i = Some (NPat t) -> (t < 0)%Z ->
    Forall2 (optlist_rel named) (cons_on p cs) (opts_for cons0 t).
  Proof.
    intros F Hsrc Hpt Hni Hneg. apply (own_rel cs cons0 p t F). intros tc nc _ Hr.
    destruct (resolve_cons_ok _ _ _ _ Hr) as [_ Hpat]. destruct (is_temp_pat (tc_pat tc)) eqn:Et.
    - destruct (ident_eqb (tc_pat tc) p) eqn:E1.
      + apply ident_eqb_eq in E1. destruct (ti_fwd _ _ _ _ _ Htp i p t Hsrc Hpt Hni) as (l & Hl & Hin).
        rewrite E1, Hl in Hpat. injection Hpat as <-. apply zmem_in, Hin.
      + destruct (zmem t (nc_pat nc)) eqn:E; [|reflexivity]. apply zmem_in in E.
        destruct (ti_bwd _ _ _ _ _ Htp _ _ _ Hpat E) as (j & Hj1 & Hj2 & _).
        pose proof (ti_nodup _ _ _ _ _ Htp i j t Hni Hj2 Hneg). subst j. rewrite Hsrc in Hj1. injection Hj1 as Eq.
        rewrite Eq, (eqb_refl' ident_eqb ident_eqb_eq) in E1. discriminate.
    - destruct Hpat as (m & Hm & Hpm). destruct (Hnt _ _ Hm) as [_ Hm1].
      rewrite (eqb_neq' ident_eqb ident_eqb_eq) by congruence. rewrite Hpm, zmem_single. apply Z.eqb_neq. lia.
  Qed.

  Lemma own_cons_wf cs cons0 : resolved named tp cs cons0 ->
    Forall pat_wf cons0 /\ forall c t, In c cons0 -> In t (nc_pat c) -> (t < 0)%Z -> (- t < Z.of_N kfinal)%Z.
  Proof.
    intros F.
    assert (G : forall c, In c cons0 -> pat_wf c /\ forall t, In t (nc_pat c) -> (t < 0)%Z -> (- t < Z.of_N kfinal)%Z).
    { intros c Hc. destruct (forall2_in_r _ _ _ _ F Hc) as (tc & _ & Hr). destruct (resolve_cons_ok _ _ _ _ Hr) as [_ Hpat].
      destruct (is_temp_pat (tc_pat tc)).
      - split; [left|]; intros t Ht; destruct (tp_range _ _ _ Hpat Ht); [assumption | lia].
      - destruct Hpat as (m & Hm & Hpm). destruct (Hnt _ _ Hm).
        split; [right; exists (Z.of_N m); split; [exact Hpm | lia] | rewrite Hpm; intros t [<-|[]]; lia]. }
    split; [apply Forall_forall; intros c Hc; apply G, Hc | intros c t Hc; apply G, Hc].
  Qed.

  Definition own_part (cs : list tagcons) (c : comp) : flat :=
    match c with
    | CLit v => {| f_comps := [FLit v]; f_ncons := [] |}
    | CPat p => if is_temp_pat p then {| f_comps := [FTemp (cons_on p cs)]; f_ncons := [] |} else {| f_comps := [FNamed p]; f_ncons := [] |}
    | CRef _ => {| f_comps := []; f_ncons := [] |}
    end.

  Lemma alts_own cs c : (forall x, c <> CRef x) -> alts K' S cs c = [own_part cs c].
  Proof. intros H. destruct c as [v|p|x]; [reflexivity | cbn; destruct (is_temp_pat p); reflexivity | destruct (H x eq_refl)]. Qed.

  Lemma own_part_ncons cs c : f_ncons (own_part cs c) = [].
  Proof. destruct c as [v|p|x]; cbn; [reflexivity | destruct (is_temp_pat p); reflexivity | reflexivity]. Qed.

  (* chain ch, built from the components [done] of the rule with the constraint set cs, represents the
     flat chain made of [parts]; the constraints it got with references do not mention the rule's own temporary tags *)
  Record chain_inv (done : list comp) (k : N) (cs : list tagcons) (parts : list flat) (ch : chain) : Prop := {
    ci_parts : Forall2 (fun c part => In part (alts K' S cs c)) done parts;
    ci_cons : exists cons0, resolved named tp cs cons0 /\
                forall t, (t < 0)%Z -> (- t < Z.of_N kfinal)%Z -> opts_for (ch_cons ch) t = opts_for cons0 t;
    ci_ok : rchain_ok k ch;
    ci_from : partial_for nrules nr ch;
    ci_rep : represents named ch (mkflat cs parts)
  }.

  Lemma step_own done k cs parts ch c nc :
    kfinal <= k -> chain_inv done k cs parts ch ->
    nth_error (r_name r) (length done) = Some c -> nth_error (nr_name nr) (length done) = Some nc -> comp_num named c nc ->
    (forall x, c <> CRef x) ->
    chain_inv (done ++ [c]) k cs (parts ++ [own_part cs c]) (app_comp ch nc).
  Proof.
    intros Hk [A (cons0 & Hres & B) [W1 W2 W3 W4] I E] Hc Hnc Hcn Hnoref.
    constructor.
    - apply Forall2_app; [exact A|]. constructor; [|constructor]. rewrite alts_own by exact Hnoref. left; reflexivity.
    - exists cons0. auto.
    - constructor; cbn [ch_name ch_cons app_comp]; [exact W1 | | exact W3 |].
      + intros t Ht Hn. apply in_app_or in Ht. destruct Ht as [Ht|[Ht|[]]]; [apply W2; auto|]. subst nc.
        destruct (ti_fresh _ _ _ _ _ Htp _ _ Hnc Hn). lia.
      + intros x Hx. apply in_app_or in Hx. destruct Hx as [Hx|[Hx|[]]]; [eapply W4; eauto|]. subst nc.
        destruct c; cbn in Hcn; try contradiction. subst. eapply Hnoref. reflexivity.
    - destruct I as (I1 & I2 & I3). split; [|auto]. cbn [app_comp ch_name]. apply Forall_app. split; [exact I1|]. constructor; [|constructor].
      pose proof (nth_error_In _ _ Hnc) as Hin. destruct nc as [v|t|x]; cbn; eauto. destruct c; cbn in Hcn; try contradiction. subst. eapply Hnoref. reflexivity.
    - rewrite mkflat_snoc. destruct E as [R1 R2]. constructor; cbn [ch_name ch_cons app_comp fapp f_comps f_ncons].
      + (* comp_rep looks at the constraints of the chain only, and those have not changed *)
        apply Forall2_app; [exact R1|].
        destruct c as [v|p|x]; destruct nc as [w|t|x']; cbn in Hcn; try contradiction.
        * subst. cbn. constructor; [reflexivity | constructor].
        * cbn [own_part]. destruct (is_temp_pat p) eqn:Ept; cbn; (constructor; [|constructor]); cbn; [|exact Hcn].
          split; [exact Hcn|].
          change (Forall2 (optlist_rel named) (cons_on p cs) (opts_for (ch_cons ch) t)).
          rewrite B; [eapply own_temp_rel; eauto | exact Hcn | destruct (ti_fresh _ _ _ _ _ Htp _ _ Hnc Hcn); lia].
        * exfalso. eapply Hnoref. reflexivity.
      + intros p t Hp. rewrite own_part_ncons, app_nil_r. apply (R2 p t Hp).
  Qed.

  Lemma step_ref done k kc kc' k2 cs parts ch x rcx fx y :
    kfinal <= k -> k <= kc -> kc' <= k2 -> chain_inv done k cs parts ch ->
    In fx (alts K' S cs (CRef x)) -> represents named rcx fx -> rchain_ok k rcx -> chain_from nrules rcx ->
    inline1 (nr_id nr) rcx kc ch = (kc', y) ->
    chain_inv (done ++ [CRef x]) k2 cs (parts ++ [fx]) y.
  Proof.
    intros Hk Hkc Hk2 [A (cons0 & Hres & B) V I E] Hfx Hrep [W1 W2 W3 W4] (F1 & F2 & _) Hi.
    destruct (inline1_inv _ _ _ _ _ _ Hi) as (Hle & rn & rcs & Hrn & ->).
    destruct (rchain_ok_mono k kc' ch V (N.le_trans _ _ _ Hkc Hle)) as [U1 U2 U3 U4]. destruct V as [_ V2 V3 _].
    assert (Hk1' : 1 <= kc) by lia.
    pose proof (rename_copy named kc rcx kc' rn rcs Hrn Hk1' W1) as Hrep'.
    destruct (rename_fresh kc rcx kc' rn rcs Hrn Hk1' W1) as (Rn & Rc & Rw & _ & Rs).
    constructor; cbn [app_ref ch_id ch_name ch_cons ch_sign].
    - apply Forall2_app; [exact A|]. constructor; [exact Hfx | constructor].
    - exists cons0. split; [exact Hres|]. intros t Hn Hlt. rewrite opts_for_app, (B t Hn Hlt), (not_mentions_opts rcs t); [apply app_nil_r|].
      intros (c & Hc & Ht). destruct (Rc c t Hc Ht Hn). lia.
    - (* the copy lives in [kc, kc'), above everything the chain had *)
      apply (rchain_ok_mono kc'); [|exact Hk2]. constructor; cbn [app_ref ch_name ch_cons].
      + apply Forall_app; auto.
      + intros t Ht Hn. apply in_app_or in Ht. destruct Ht as [Ht|Ht]; [exact (U2 t Ht Hn) | exact (proj2 (Rn t Ht Hn))].
      + intros c t Hc Ht Hn. apply in_app_or in Hc. destruct Hc as [Hc|Hc]; [exact (U3 c t Hc Ht Hn) | exact (proj2 (Rc c t Hc Ht Hn))].
      + intros z Hz. apply in_app_or in Hz. destruct Hz as [Hz|Hz]; [eapply U4; eauto|].
        destruct (Rs _ Hz) as [Hz0|(t & Ez & _)]; [eapply W4; eauto | discriminate Ez].
    - destruct I as (I1 & I2 & _ & I4).
      destruct (rename_temp_tags_from nrules _ _ _ _ _ Hk1' W1 F1 F2 Hrn) as (B1 & B2). repeat split; cbn [app_ref ch_name ch_cons ch_id ch_sign]; auto; apply Forall_app; auto.
    - rewrite mkflat_snoc. apply represents_mk. cbn [ch_name ch_cons app_ref].
      apply rep_app; [apply (proj1 (represents_mk named ch _)), E | exact (Hrep' fx Hrep) | |].
      + intros t Ht Hn (c0 & Hc0 & Ht0). specialize (V2 t Ht Hn). destruct (Rc c0 t Hc0 Ht0 Hn). lia.
      + intros t Ht Hn (c0 & Hc0 & Ht0). destruct (Rn t Ht Hn). specialize (V3 c0 t Hc0 Ht0 Hn). lia.
  Qed.

  Variable rep : list (ident * list chain).
  Variable kstart : N.
  Hypothesis Hks : kfinal <= kstart.
  Hypothesis Hcons : Forall2 (resolved named tp) (r_cons r) (nr_cons nr).
  Hypothesis Hrep_sound : forall x chs rcx, al_get ident_eqb rep x = Some chs -> In rcx chs ->
    exists fx, In fx (flat_map (expand K' S) (defs_of S x)) /\ represents named rcx fx /\ rchain_ok kstart rcx /\ chain_from nrules rcx.
  Hypothesis Hrep_complete : forall x, In (CRef x) (r_name r) -> forall fx, In fx (flat_map (expand K' S) (defs_of S x)) ->
    exists chs rcx, al_get ident_eqb rep x = Some chs /\ In rcx chs /\ represents named rcx fx.

  Lemma choices_res : Forall2 (resolved named tp) (choices r) (cons_choices nr).
  Proof. unfold choices, cons_choices. destruct Hcons; repeat constructor; assumption. Qed.

  (* the current chains are exactly one for every choice of a constraint set and of an alternative for each component so far *)
  Definition cur_inv (done : list comp) (k : N) (cur : list chain) : Prop :=
    (forall ch, In ch cur -> exists cs parts, In cs (choices r) /\ chain_inv done k cs parts ch) /\
    (forall cs parts, In cs (choices r) -> Forall2 (fun c part => In part (alts K' S cs c)) done parts ->
        exists ch, In ch cur /\ chain_inv done k cs parts ch).

  Lemma cons_on_filter_named p cs : is_temp_pat p = false ->
    cons_on p (filter (fun tc => negb (is_temp_pat (tc_pat tc))) cs) = cons_on p cs.
  Proof.
    intros Hp. unfold cons_on. induction cs as [|tc cs IH]; [reflexivity|]. cbn [filter].
    destruct (is_temp_pat (tc_pat tc)) eqn:Et; cbn [negb filter].
    - destruct (ident_eqb (tc_pat tc) p) eqn:E; [apply ident_eqb_eq in E; congruence | exact IH].
    - destruct (ident_eqb (tc_pat tc) p); cbn [map]; [f_equal|]; exact IH.
  Qed.

  Lemma init_cur_inv : cur_inv [] kstart (init_chains nr).
  Proof.
    assert (G : forall cs cons0, In cons0 (cons_choices nr) -> resolved named tp cs cons0 -> chain_inv [] kstart cs [] (chain0 nr cons0)).
    { intros cs cons0 Hc0 Hres. destruct (own_cons_wf cs cons0 Hres) as [Hwf0 Htag0]. constructor.
      - constructor.
      - exists cons0. auto.
      - constructor; cbn [ch_name ch_cons chain0]; [exact Hwf0 | intros t [] | | intros x []].
        intros c t Hc Ht Hn. specialize (Htag0 c t Hc Ht Hn). lia.
      - repeat split; [constructor|]. apply Forall_forall. intros c Hc. exists nr, cons0, c. repeat split; auto.
        unfold cons_choices in Hc0. destruct (nr_cons nr); [destruct Hc0 as [<-|[]]; destruct Hc | exact Hc0].
      - constructor; cbn [ch_name chain0 mkflat f_comps map concat].
        + constructor.
        + intros p t Hp. cbn [mkflat f_ncons map concat]. rewrite app_nil_r. destruct (Hnt p t Hp) as [Hpt _].
          rewrite (cons_on_filter_named p cs Hpt).
          apply (own_named_rel cs cons0 p t Hres Hp). }
    split.
    - intros ch Hch. rewrite init_chains_map in Hch. apply in_map_iff in Hch. destruct Hch as (cons0 & <- & Hc0).
      destruct (forall2_in_r _ _ _ _ choices_res Hc0) as (cs & Hcs & Hres). exists cs, []. auto.
    - intros cs parts Hcs Hp. inversion Hp; subst. destruct (forall2_in_l _ _ _ _ choices_res Hcs) as (cons0 & Hc0 & Hres).
      exists (chain0 nr cons0). split; [rewrite init_chains_map; apply in_map, Hc0 | apply G; assumption].
  Qed.

  Lemma comp_sim done c todo ndone nc ntodo cur k cur1 kn :
    r_name r = done ++ c :: todo -> nr_name nr = ndone ++ nc :: ntodo -> length ndone = length done -> comp_num named c nc ->
    kstart <= k -> cur_inv done k cur -> replicate_comp rep (nr_id nr) (cur, k) nc = Ok (cur1, kn) ->
    cur_inv (done ++ [c]) kn cur1 /\ kstart <= kn.
  Proof.
    intros Es En Hl Hcn Hk [Hs Hcm] Ec.
    assert (Hc : nth_error (r_name r) (length done) = Some c) by (rewrite Es, nth_error_app2, Nat.sub_diag by lia; reflexivity).
    assert (Hnc : nth_error (nr_name nr) (length done) = Some nc) by (rewrite En, <- Hl, nth_error_app2, Nat.sub_diag by lia; reflexivity).
    assert (Hown : (forall y, c <> CRef y) -> (forall x, nc <> NRef x) -> cur_inv (done ++ [c]) kn cur1 /\ kstart <= kn).
    { intros Hnr Hnnr. rewrite (replicate_comp_own _ _ _ _ Hnnr) in Ec. injection Ec as <- <-. split; [|exact Hk]. split.
      - intros ch' Hch'. apply in_map_iff in Hch'. destruct Hch' as (ch & <- & Hch). destruct (Hs ch Hch) as (cs & parts & Hin & Hci).
        exists cs, (parts ++ [own_part cs c]). split; [exact Hin|].
        apply (step_own done k cs parts ch c nc); auto; lia.
      - intros cs parts' Hin Hp'. destruct (forall2_snoc_inv _ _ _ _ Hp') as (parts & part & -> & Hp & Hpart).
        destruct (Hcm cs parts Hin Hp) as (ch & Hch & Hci).
        rewrite (alts_own cs c Hnr) in Hpart. destruct Hpart as [<-|[]]. eexists. split; [apply in_map; exact Hch|].
        apply (step_own done k cs parts ch c nc); auto; lia. }
    destruct c as [w|p|x], nc as [v|t|x']; cbn in Hcn; try contradiction; [apply Hown; discriminate | apply Hown; discriminate |].
    subst x'. clear Hown.
    destruct (al_get ident_eqb rep x) as [refs|] eqn:Er; [|cbn [replicate_comp] in Ec; rewrite Er in Ec; discriminate].
    destruct (replicate_comp_ref rep (nr_id nr) cur k x refs Er) as (cur2 & k2 & E2 & Hle & Hsnd & Hcmp).
    rewrite E2 in Ec. injection Ec as <- <-. split; [|lia].
    assert (Hkf' : kfinal <= k) by lia.
    split.
    - intros y Hy. destruct (Hsnd y Hy) as (rcx & ch & kc & kd & Hrcx & Hch & Hkc & Hkd & Hi).
      destruct (Hs ch Hch) as (cs & parts & Hin & Hci). destruct (Hrep_sound x refs rcx Er Hrcx) as (fx & Hfx & Hrepx & Hokx & Hfrx).
      exists cs, (parts ++ [fx]). split; [exact Hin|].
      eapply step_ref; eauto. eapply rchain_ok_mono; eauto.
    - intros cs parts' Hin Hp'. destruct (forall2_snoc_inv _ _ _ _ Hp') as (parts & fx & -> & Hp & Hfx).
      destruct (Hcm cs parts Hin Hp) as (ch & Hch & Hci).
      assert (Hcin : In (CRef x) (r_name r)) by (rewrite Es; apply in_elt).
      destruct (Hrep_complete x Hcin fx Hfx) as (chs & rcx & Hchs & Hrcx & Hrepx). rewrite Er in Hchs. injection Hchs as <-.
      destruct (Hcmp rcx ch Hrcx Hch) as (y & kc & kd & Hy & Hkc & Hkd & Hi). destruct (Hrep_sound x refs rcx Er Hrcx) as (_ & _ & _ & Hokx & Hfrx).
      exists y. split; [exact Hy|].
      eapply step_ref; eauto. eapply rchain_ok_mono; eauto.
  Qed.

  Hypothesis Hrep_has : forall x, In (NRef x) (nr_name nr) -> In x (map fst rep).

  (* the chains produced stand for expansions one level of references above those the table stands for *)
  Theorem rule_sim : exists cur' k', rfold (replicate_comp rep (nr_id nr)) (nr_name nr) (init_chains nr, kstart) = Ok (cur', k') /\
    kstart <= k' /\
    (forall rc, In rc cur' -> exists f, In f (expand (Datatypes.S K') S r) /\ represents named rc f /\ rchain_ok k' rc /\ chain_from nrules rc /\
                                        ch_id rc = nr_id nr /\ ch_sign rc = isort str_leb (nr_sign nr)) /\
    (forall f, In f (expand (Datatypes.S K') S r) ->
               exists rc, In rc cur' /\ represents named rc f /\ ch_sign rc = isort str_leb (nr_sign nr)).
  Proof.
    destruct (rfold_total2 (comp_num named) (replicate_comp rep (nr_id nr)) (fun done s => cur_inv done (snd s) (fst s) /\ kstart <= snd s)
                _ _ (init_chains nr, kstart) Hnum) as ([cur' k'] & E & [HPs HPc] & Hk).
    - split; [exact init_cur_inv | apply N.le_refl].
    - intros done c todo ndone nc ntodo [cur k] Es En Hl Hcn [HPI Hk].
      destruct (replicate_comp_total rep (nr_id nr) (cur, k) nc) as ([cur1 kn] & Ec); [intros x ->; apply Hrep_has; rewrite En; apply in_elt|].
      exists (cur1, kn). split; [exact Ec | eapply comp_sim; eauto].
    - exists cur', k'. split; [exact E|]. split; [exact Hk|]. split.
      + intros rc Hrc. destruct (HPs rc Hrc) as (cs & parts & Hin & [A _ C F D]). exists (mkflat cs parts).
        split; [apply in_expand_S; exists cs, parts; auto|]. split; [exact D|]. split; [exact C|].
        split; [exact (partial_for_from nrules nr rc Hnrin F) | destruct F as (_ & _ & I1 & I2); auto].
      + intros f Hf. apply in_expand_S in Hf. destruct Hf as (cs & parts & Hcs & Hp & ->).
        destruct (HPc cs parts Hcs Hp) as (ch & Hch & [_ _ _ (_ & _ & _ & I2) D]). exists ch. auto.
  Qed.
End Rule.
