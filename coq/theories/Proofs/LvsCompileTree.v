(* From numbered rule chains to the answers of the compiled model:
   gen_tree + flatten + _fix_signing_references produce a model that passes the loader ([sane]) and
   on which tree matching (Spec/LvsTree.v) is chain matching (Proofs/LvsGenTree.chain_sem), both for
   rule names and for signer lists.  On the way, what decides whether compile succeeds once the chains exist: every
   chain without rule references ends at a node of the pool and every node of the pool holds chains of the list only
   ([chain_node], [pool_node_chains]), and the signer fix-up fails exactly on a signer name that no node carries as a
   rule name ([fix_all_verdict], [rids_of_in]). *)
From NDN Require Import Base.Prelude Model.LvsAst Model.LvsChecker Model.LvsCompiler Spec.LvsSem
  Spec.LvsTree Proofs.ListLemmas Proofs.LvsTraverse Proofs.LvsSanity Proofs.LvsFlatten Proofs.LvsGenTree.
Local Open Scope N_scope.

Definition sign_lookup (rids : list (ident * list N)) (names : list ident) : res (list N) :=
  rfold (fun acc rid => match al_get ident_eqb rids rid with
                        | Some l => Ok (acc ++ l)
                        | None => Err ESemantic
                        end) names [].

Definition listed (rids : list (ident * list N)) (k : ident) : Prop := exists l, al_get ident_eqb rids k = Some l.

Lemma sign_lookup_verdict rids names :
  verdict ESemantic (sign_lookup rids names) (forall k, In k names -> listed rids k)
    (fun sc => exists ls, Forall2 (fun k l => al_get ident_eqb rids k = Some l) names ls /\ sc = concat ls).
Proof.
  apply (verdict_rfold ESemantic _ (listed rids)
           (fun done acc => exists ls, Forall2 (fun k l => al_get ident_eqb rids k = Some l) done ls /\ acc = concat ls)).
  - exists []. split; [constructor | reflexivity].
  - intros done k todo acc _ (ls & Hls & ->). destruct (al_get ident_eqb rids k) as [l|] eqn:E.
    + split; [exists l; exact E|]. exists (ls ++ [l]). split; [apply Forall2_app; [exact Hls | constructor; [exact E | constructor]]|].
      rewrite concat_app. cbn. rewrite app_nil_r. reflexivity.
    + split; [reflexivity|]. intros (l & Hl). congruence.
Qed.

Lemma sign_lookup_in rids names sc : sign_lookup rids names = Ok sc ->
  forall k, In k sc <-> exists rid l, In rid names /\ al_get ident_eqb rids rid = Some l /\ In k l.
Proof.
  intros H k. destruct (verdict_ok _ _ _ _ _ (sign_lookup_verdict rids names) H) as (_ & ls & Hls & ->).
  rewrite in_concat. split.
  - intros (l & Hl & Hk). destruct (forall2_in_r _ _ _ _ Hls Hl) as (rid & Hrid & E). eauto.
  - intros (rid & l & Hrid & E & Hk). destruct (forall2_in_l _ _ _ _ Hls Hrid) as (l' & Hl' & E'). exists l. split; [congruence | exact Hk].
Qed.

(* what _fix_signing_references makes of a node *)
Definition fixed_node (rids : list (ident * list N)) (i : nat) (g : gnode) (nd : node) : Prop :=
  exists sc, sign_lookup rids (g_sign g) = Ok sc /\
    n_id nd = Some (N.of_nat i) /\ n_parent nd = g_parent g /\ n_rule nd = g_rule g /\
    n_vedges nd = g_vedges g /\ n_pedges nd = g_pedges g /\ n_sign nd = isort N.leb sc.

Definition fixed (rids : list (ident * list N)) (i : nat) (pool : list gnode) (nodes : list node) : Prop :=
  length nodes = length pool /\
  forall k g, nth_error pool k = Some g -> exists nd, nth_error nodes k = Some nd /\ fixed_node rids (i + k) g nd.

Lemma fixed_cons rids i g pool nd nodes :
  fixed_node rids i g nd -> fixed rids (S i) pool nodes -> fixed rids i (g :: pool) (nd :: nodes).
Proof.
  intros Hn [Hl Hall]. split; [cbn; lia|]. intros [|k] g0 Hk; cbn in Hk.
  - injection Hk as <-. exists nd. rewrite Nat.add_0_r. split; [reflexivity | exact Hn].
  - destruct (Hall k g0 Hk) as (nd0 & Hnd0 & H0). exists nd0. rewrite Nat.add_succ_r. split; [exact Hnd0 | exact H0].
Qed.

Lemma fix_signing_verdict rids i g :
  verdict ESemantic (fix_signing rids i g) (forall k, In k (g_sign g) -> listed rids k) (fixed_node rids i g).
Proof.
  unfold fix_signing. fold (sign_lookup rids (g_sign g)).
  apply (verdict_then _ _ _ _ _ _ (verdict_eq _ _ _ _ (sign_lookup_verdict rids (g_sign g)))).
  intros sc Hsc. exists sc. cbn. repeat split. exact Hsc.
Qed.

Lemma fix_all_verdict rids : forall pool i,
  verdict ESemantic (fix_all rids i pool) (forall g k, In g pool -> In k (g_sign g) -> listed rids k) (fixed rids i pool).
Proof.
  induction pool as [|g pool IH]; intros i; cbn [fix_all].
  - split; [intros g k []|]. split; [reflexivity|]. intros [|k] g Hk; discriminate.
  - apply (verdict_imp _ _ ((forall k, In k (g_sign g) -> listed rids k) /\
                            (forall g' k, In g' pool -> In k (g_sign g') -> listed rids k)) _ (fixed rids i (g :: pool))); [|auto|].
    + split; [intros [Hg Hp] g' k [<-|Hin]; [apply Hg | apply Hp, Hin]|].
      intros H. split; [intros k; apply H; left; reflexivity | intros g' k Hin; apply H; right; exact Hin].
    + eapply verdict_bind; [apply fix_signing_verdict | intros nd Hnd].
      apply (verdict_then _ _ _ _ _ _ (IH (S i))). intros ns Hns. exact (fixed_cons _ _ _ _ _ _ Hnd Hns).
Qed.

Lemma fix_all_spec rids pool i nodes : fix_all rids i pool = Ok nodes -> fixed rids i pool nodes.
Proof. intros H. exact (proj2 (verdict_ok _ _ _ _ _ (fix_all_verdict rids pool i) H)). Qed.

(* rule_node_ids.setdefault(rid, []).append(v), node after node: [entry_ext o l] is the entry o of the table after
   the numbers l have been appended to it; there is no entry for nothing *)
Definition entry_ext (o : option (list N)) (l : list N) : option (list N) :=
  match o, l with None, [] => None | _, _ => Some (match o with Some l0 => l0 | None => [] end ++ l) end.

Lemma entry_ext_app o a b : entry_ext (entry_ext o a) b = entry_ext o (a ++ b).
Proof. destruct o as [l0|], a as [|x a], b as [|y b]; cbn; rewrite ?app_nil_r, <- ?app_assoc; reflexivity. Qed.

Lemma entry_ext_nil o : entry_ext o [] = o.
Proof. destruct o; cbn; rewrite ?app_nil_r; reflexivity. Qed.

Lemma rids_add_get r rid v rid' :
  al_get ident_eqb (rids_add r rid v) rid' = entry_ext (al_get ident_eqb r rid') (if ident_eqb rid' rid then [v] else []).
Proof.
  (* [rids_add] is [al_push] of a one-element bucket *)
  change (rids_add r rid v) with (al_push ident_eqb r rid [v]). rewrite (al_get_push ident_eqb ident_eqb_eq). unfold bucket.
  destruct (ident_eqb rid' rid) eqn:E; [|symmetry; apply entry_ext_nil].
  apply ident_eqb_eq in E. subst rid'. destruct (al_get ident_eqb r rid); reflexivity.
Qed.

Fixpoint positions (rid : ident) (pool : list gnode) (n : N) : list N :=
  match pool with
  | [] => []
  | g :: r => flat_map (fun x => if ident_eqb rid x then [n] else []) (g_rule g) ++ positions rid r (n + 1)
  end.

Lemma rids_of_get pool rid : al_get ident_eqb (rids_of pool) rid = entry_ext None (positions rid pool 0).
Proof.
  unfold rids_of.
  (* stated for any state (next id, table) of the fold, which the induction on the pool needs *)
  change (entry_ext None (positions rid pool 0))
    with (entry_ext (al_get ident_eqb (snd (0, @nil (ident * list N))) rid) (positions rid pool (fst (0, @nil (ident * list N))))).
  generalize (0, @nil (ident * list N)) as s. induction pool as [|g pool IH]; intros s; cbn [fold_left positions].
  - symmetry. apply entry_ext_nil.
  - rewrite IH. cbn [fst snd]. rewrite <- entry_ext_app. f_equal.
    generalize (snd s) as r. induction (g_rule g) as [|x rules IHr]; intros r; cbn [fold_left flat_map].
    + symmetry. apply entry_ext_nil.
    + rewrite IHr, rids_add_get, entry_ext_app. reflexivity.
Qed.

Lemma positions_in rid pool : forall n k,
  In k (positions rid pool n) <-> exists i g, k = n + N.of_nat i /\ nth_error pool i = Some g /\ In rid (g_rule g).
Proof.
  induction pool as [|g pool IH]; intros n k; cbn [positions].
  - split; [intros [] | intros (i & g & _ & H & _); destruct i; discriminate].
  - rewrite in_app_iff, IH, in_flat_map. split.
    + intros [(x & Hx & Hk)|(i & g0 & -> & Hi & Hr)].
      * destruct (ident_eqb rid x) eqn:E; [|destruct Hk]. apply ident_eqb_eq in E. subst x. destruct Hk as [<-|[]].
        exists O, g. repeat split; [lia | exact Hx].
      * exists (S i), g0. repeat split; [lia | exact Hi | exact Hr].
    + intros (i & g0 & -> & Hi & Hr). destruct i as [|i]; cbn in Hi.
      * injection Hi as <-. left. exists rid. rewrite (eqb_refl' ident_eqb ident_eqb_eq). split; [exact Hr | left; lia].
      * right. exists i, g0. repeat split; [lia | exact Hi | exact Hr].
Qed.

Lemma rids_of_in pool rid k :
  (exists l, al_get ident_eqb (rids_of pool) rid = Some l /\ In k l) <->
  exists i g, k = N.of_nat i /\ nth_error pool i = Some g /\ In rid (g_rule g).
Proof.
  rewrite rids_of_get, <- (positions_in rid pool 0 k). destruct (positions rid pool 0) as [|x l]; cbn.
  - split; [intros (l & H & _); discriminate | intros []].
  - split; [intros (l0 & H & Hk); injection H as <-; exact Hk | eauto].
Qed.

Lemma rids_of_nonempty pool rid l : al_get ident_eqb (rids_of pool) rid = Some l -> l <> [].
Proof. rewrite rids_of_get. destruct (positions rid pool 0); cbn; [discriminate | intros H; injection H as <-; discriminate]. Qed.

(* well-formed trees: what the loader insists on *)
Fixpoint twf (t : ptree) : Prop :=
  match t with PNode _ vs ps => vwf vs /\ pwf ps end
with vwf (l : vlist) : Prop :=
  match l with VNil => True | VCons v t r => v <> [] /\ twf t /\ vwf r end
with pwf (l : plist) : Prop :=
  match l with PNil => True | PCons _ cs t r => forallb (forallb option_ok) cs = true /\ twf t /\ pwf r end.

Lemma vfind_wf v vs child : vwf vs -> vfind v vs = Some child -> twf child.
Proof.
  induction vs as [|x t r IH]; cbn; [discriminate|]. intros (_ & Ht & Hr). destruct (bytes_eqb v x).
  - intros E; inversion E; subst; exact Ht.
  - apply IH, Hr.
Qed.
Lemma pin_wf tag cs child ps : pwf ps -> pin tag cs child ps -> forallb (forallb option_ok) cs = true /\ twf child.
Proof. intros H Hp. induction Hp; cbn in H; destruct H as (H1 & H2 & H3); auto. Qed.

Section Sane.
  Variable m : lvsmodel.
  Variable pool : list gnode.
  Variable npc : N.
  Variable t0 : ptree.
  Variable root : nat.
  Hypothesis Hmir : mirrors m pool.
  Hypothesis Hroot : realizes npc pool t0 root None.
  Hypothesis Hwf : twf t0.
  Hypothesis Hstart : m_start m = Some (N.of_nat root).
  Hypothesis Hver : m_version m = Some LVS_VERSION.
  Hypothesis Hsign : forall t k p nd j, realizes npc pool t k p -> get_node m (N.of_nat k) = Some nd -> In j (n_sign nd) ->
    exists ndj, get_node m j = Some ndj.

  (* the induction follows the tree, [subtree_ok_iff] reads one node *)
  Lemma realizes_subtree_ok :
    (forall t k p, realizes npc pool t k p -> twf t -> subtree_ok m (N.of_nat k) p) /\
    (forall vs src es, realizes_vs npc pool vs src es -> vwf vs -> forall ve, In ve es ->
        exists d, ve_dest ve = Some d /\ nonempty (ve_value ve) = true /\ subtree_ok m d (Some (N.of_nat src))) /\
    (forall ps src es, realizes_ps npc pool ps src es -> pwf ps -> forall pe, In pe es ->
        exists d, pe_dest pe = Some d /\ exists t, pe_tag pe = Some t /\ subtree_ok m d (Some (N.of_nat src)) /\
          forall cons, In cons (pe_cons pe) -> forall op, In op cons -> option_ok op = true).
  Proof.
    apply ptree_mutind.
    - intros ended vs IHv ps IHp k p Hrz [Hvw Hpw].
      destruct (realizes_node Hmir Hrz) as (nd & Hg & Hid & Hp & _ & Hvs & Hps).
      apply subtree_ok_iff. exists nd. split; [exact Hg|]. split; [exact Hid|]. split; [exact Hp|].
      split; [exact (IHv _ _ Hvs Hvw)|]. split; [exact (IHp _ _ Hps Hpw)|].
      intros j Hj. destruct (Hsign _ _ _ nd j Hrz Hg Hj) as (ndj & Hgj). exact (get_node_lt _ _ _ Hgj).
    - intros src es Hrz _ ve Hin. inversion Hrz; subst. destruct Hin.
    - intros v t IHt r IHr src es Hrz (Hne & Ht & Hr) ve Hin. inversion Hrz; subst. destruct Hin as [<-|Hin]; [|eauto].
      eexists. cbn. split; [reflexivity|]. split; [destruct v; [contradiction | reflexivity] | eauto].
    - intros src es Hrz _ pe Hin. inversion Hrz; subst. destruct Hin.
    - intros tag cs t IHt r IHr src es Hrz (Hcs & Ht & Hr) pe Hin. inversion Hrz; subst. destruct Hin as [<-|Hin]; [|eauto].
      eexists. cbn. split; [reflexivity|]. eexists. split; [reflexivity|]. split; [eauto|].
      intros cons Hc op Ho. rewrite forallb_forall in Hcs. specialize (Hcs _ Hc). rewrite forallb_forall in Hcs. auto.
  Qed.

  Theorem flattened_sane : sane m.
  Proof.
    apply sane_iff. rewrite Hver. split; [reflexivity|].
    exists (N.of_nat root). split; [exact Hstart | exact (proj1 realizes_subtree_ok _ _ _ Hroot Hwf)].
  Qed.
End Sane.

Record chains_ok (npc : N) (chains : list chain) : Prop := {
  ck_keys : keys_faithful chains;
  ck_lits : forall rc v, In rc chains -> In (NLit v) (ch_name rc) -> v <> [];
  ck_fns : forall rc c f args, In rc chains -> In c (ch_cons rc) -> In (NOFn f args) (nc_opts c) -> f <> [];
  ck_tags : forall rc t, In rc chains -> In (NPat t) (ch_name rc) -> (0 <= t)%Z -> Z.to_N t <= npc
}.

Lemma vlist_of_ok npc vs : (forall v t, In (v, t) vs -> v <> [] /\ twf t /\ ttags_ok npc t) ->
  vwf (vlist_of vs) /\ vtags_ok npc (vlist_of vs).
Proof.
  induction vs as [|[v t] r IH]; intros H; cbn; [auto|].
  destruct (H v t (or_introl eq_refl)) as (Hv & Ht & Hg). destruct IH as [H1 H2]; [intros; apply H; right; assumption | tauto].
Qed.

Lemma plist_of_ok npc ps :
  (forall tag cs t, In (tag, cs, t) ps ->
     forallb (forallb option_ok) cs = true /\ ((0 <= tag)%Z -> Z.to_N tag <= npc) /\ twf t /\ ttags_ok npc t) ->
  pwf (plist_of ps) /\ ptags_ok npc (plist_of ps).
Proof.
  induction ps as [|[[tag cs] t] r IH]; intros H; cbn; [auto|].
  destruct (H tag cs t (or_introl eq_refl)) as (Hc & Hr & Ht & Hg). destruct IH as [H1 H2]; [intros; eapply H; right; eassumption | tauto].
Qed.

Lemma enc_opt_ok o : (forall f args, o = NOFn f args -> f <> []) -> option_ok (fst (enc_opt o)) = true.
Proof.
  destruct o as [c|t|f args]; cbn; intros H; try reflexivity.
  specialize (H f args eq_refl). destruct f; [contradiction | reflexivity].
Qed.

Lemma cons_for_ok chains npc rc t : chains_ok npc chains -> In rc chains -> forallb (forallb option_ok) (cons_for rc t) = true.
Proof.
  intros Hok Hin. unfold cons_for. apply forallb_forall. intros pc Hpc. apply in_map_iff in Hpc.
  destruct Hpc as (c & <- & Hc). apply filter_In in Hc. destruct Hc as [Hc _].
  unfold enc_cons. cbn [fst]. apply forallb_forall. intros op Hop. apply in_map_iff in Hop.
  destruct Hop as (eo & <- & Heo). apply in_map_iff in Heo. destruct Heo as (o & <- & Ho).
  apply enc_opt_ok. intros f args ->. eapply (ck_fns _ _ Hok); eauto.
Qed.

Lemma chain_node npc pool fuel chains t rc : gen_tree fuel 0 chains [] = Ok t -> realizes npc pool t O None ->
  In rc chains -> no_refs rc -> exists ended k g, In rc ended /\ nth_error pool k = Some g /\ node_of g ended.
Proof.
  intros Et Hroot Hrc Hnr. destruct (gen_tree_covers _ _ _ _ _ Et rc Hrc (Nat.le_0_l _) Hnr) as (t' & Hst & Hend).
  destruct (realizes_subtree_rel npc pool (fun _ _ => True) (fun _ => I) (fun _ _ _ _ _ _ _ => I) _ _ Hst _ _ Hroot) as (k & p' & Hrz & _).
  destruct Hrz as [ended vs ps k p' g Hg _ Hru Hsi _ _]. exists ended, k, g. unfold node_of. auto.
Qed.

Lemma pool_node_chains fuel chains t npc g : gen_tree fuel 0 chains [] = Ok t -> In g (fst (flatten t None O npc)) ->
  exists ended, (forall rc, In rc ended -> In rc chains) /\ node_of g ended.
Proof.
  intros Et Hg. destruct (pool_node_holds npc t g Hg) as (t' & Hst & Hn).
  exists (t_ended t'). split; [exact (gen_tree_ended_sub _ _ _ _ _ Et t' Hst) | exact Hn].
Qed.

Lemma gen_tree_wf chains npc : chains_ok npc chains ->
  forall fuel depth ctx prev t, gen_tree fuel depth ctx prev = Ok t -> (forall rc, In rc ctx -> In rc chains) ->
  twf t /\ ttags_ok npc t.
Proof.
  intros Hok. induction fuel as [|f IH]; intros depth ctx prev t Hgen Hsub; [discriminate|].
  destruct (gen_tree_S_inv _ _ _ _ _ Hgen) as (vs & ps & -> & Ev & Ep).
  destruct (vlist_of_ok npc vs) as [Hv1 Hv2].
  { intros v t Hin. destruct (forall2_in_r _ _ _ _ Ev Hin) as (v' & Hv' & <- & Eg). cbn [fst snd] in Eg |- *.
    apply v_moves_in in Hv'. destruct Hv' as (rc & Hrc & Hl). apply going_on_in in Hrc. destruct Hrc as [Hrc _].
    split; [eapply (ck_lits _ _ Hok); [apply Hsub; exact Hrc | apply (lit_at_some _ _ _ Hl)]|].
    eapply IH; [exact Eg|]. intros rc0 H0. eapply Hsub, v_child_sub, H0. }
  destruct (plist_of_ok npc ps) as [Hp1 Hp2]; [|cbn [twf ttags_ok]; tauto].
  intros tag cs t Hin. destruct (forall2_in_r _ _ _ _ Ep Hin) as (key & Hkey & rc0 & t0 & grest & Egrp & Hr0 & Hpa0 & Etc & Eg).
  cbn [fst snd] in Etc, Eg. rewrite pm_cons in Etc. injection Etc as -> ->. split; [|split].
  - destruct ((0 <=? t0)%Z && zmem t0 prev); [reflexivity | eapply cons_for_ok; eauto].
  - intros Hpos. eapply (ck_tags _ _ Hok); [apply Hsub; exact Hr0 | apply (pat_at_some _ _ _ Hpa0) | exact Hpos].
  - eapply IH; [exact Eg|]. intros rc1 H1. apply Hsub. apply (p_child_sub depth prev ctx key). rewrite Egrp. exact H1.
Qed.

(* [pool] is any node list in which the tree is laid out from index 0 on; compile takes the one [flatten] produces *)
Section Compiled.
  Variable chains : list chain.
  Variable st : numst.
  Variable m : lvsmodel.
  Let npc := N.of_nat (length (ns_named st)).
  Variable t0 : ptree.
  Variable pool : list gnode.
  Hypothesis Hok : chains_ok npc chains.
  Hypothesis Htree : gen_tree (S (max_chain_len chains)) 0 chains [] = Ok t0.
  Hypothesis Hroot : realizes npc pool t0 O None.
  Hypothesis Hmodel : model_of st pool (rids_of pool) 0 = Ok m.

  Lemma compiled_fields :
    fix_all (rids_of pool) 0 pool = Ok (m_nodes m) /\ m_start m = Some 0 /\ m_npc m = Some npc /\ m_version m = Some LVS_VERSION /\
    m_symbols m = map (fun p => {| ts_tag := Some (snd p); ts_ident := Some (fst p) |}) (ns_named st).
  Proof.
    unfold model_of in Hmodel. destruct (fix_all (rids_of pool) 0 pool) as [nodes|] eqn:E; [|discriminate].
    cbn [bind] in Hmodel. injection Hmodel as <-. repeat split; reflexivity.
  Qed.

  Lemma compiled_fixed : fixed (rids_of pool) 0 pool (m_nodes m).
  Proof. exact (fix_all_spec _ _ _ _ (proj1 compiled_fields)). Qed.

  Lemma compiled_mirrors : mirrors m pool.
  Proof.
    destruct compiled_fixed as [Hl Hall]. split; [exact Hl|].
    intros i g Hg. destruct (Hall i g Hg) as (nd & H1 & sc & _ & H2 & H3 & H4 & H5 & H6 & _). exists nd. repeat split; assumption.
  Qed.

  Lemma compiled_tree_wf : twf t0 /\ ttags_ok npc t0.
  Proof. eapply gen_tree_wf; eauto. Qed.

  Lemma compiled_node t' k p' : realizes npc pool t' k p' ->
    exists nd, get_node m (N.of_nat k) = Some nd /\ n_rule nd = map ch_id (t_ended t').
  Proof.
    destruct t' as [ended vs ps]. intros Hrz.
    destruct (realizes_node compiled_mirrors Hrz) as (nd & Hg & _ & _ & Hr & _). exists nd. split; [exact Hg | exact Hr].
  Qed.

  Lemma compiled_sign_iff t' k p' nd j : realizes npc pool t' k p' -> get_node m (N.of_nat k) = Some nd ->
    (In j (n_sign nd) <->
     exists rc sk ndj, In rc (t_ended t') /\ In sk (ch_sign rc) /\ get_node m j = Some ndj /\ In sk (n_rule ndj)).
  Proof.
    intros Hrz Hg. destruct Hrz as [ended vs ps id parent g Hn Hpar Hru Hsi _ _]. cbn [t_ended].
    destruct (proj2 compiled_fixed id g Hn) as (nd' & Hnd' & sc & Hsc & _ & _ & _ & _ & _ & Hsign).
    rewrite get_node_nth, Nat2N.id, Hnd' in Hg. injection Hg as <-. rewrite Hsign.
    rewrite in_isort, (sign_lookup_in _ _ _ Hsc), Hsi. split.
    - intros (sk & l & Hsk & Hl & Hjl). apply in_flat_map in Hsk. destruct Hsk as (rc & Hrc & Hskrc).
      destruct (proj1 (rids_of_in pool sk j)) as (i & gi & -> & Hi & Hri); [eauto|].
      destruct (mirrors_get _ _ _ _ compiled_mirrors Hi) as (ndj & Hgj & _ & _ & Hrj & _). rewrite <- Hrj in Hri. exists rc, sk, ndj. auto.
    - intros (rc & sk & ndj & Hrc & Hsk & Hgj & Hrj).
      destruct (mirrors_get_inv _ _ _ _ compiled_mirrors Hgj) as (gj & Hj & _ & Hru'). rewrite Hru' in Hrj.
      destruct (proj2 (rids_of_in pool sk j)) as (l & Hl & Hil); [exists (N.to_nat j), gj; rewrite N2Nat.id; auto|].
      exists sk, l. split; [apply in_flat_map; eauto | auto].
  Qed.

  Theorem compiled_sane : sane m.
  Proof.
    destruct compiled_fields as (_ & Hs & _ & Hv & _).
    apply (flattened_sane m pool npc t0 O compiled_mirrors Hroot (proj1 compiled_tree_wf) Hs Hv).
    intros t k p nd j Hrz Hg Hj. apply (compiled_sign_iff _ _ _ _ _ Hrz Hg) in Hj.
    destruct Hj as (_ & _ & ndj & _ & _ & Hgj & _). eauto.
  Qed.

  Section Answers.
  Variable ufn : ident -> option (bytes -> list (option bytes) -> res bool).

  Lemma compiled_match_ends name c c' : ctx_named npc c ->
    (forall n, tree_match ufn m name c n c' ->
       exists t' k p', n = N.of_nat k /\ realizes npc pool t' k p' /\ ctx_named npc c' /\
                       forall rc, In rc (t_ended t') -> In rc chains /\ chain_sem_from ufn 0 rc name c c') /\
    (forall rc, In rc chains -> chain_sem_from ufn 0 rc name c c' ->
       exists t' k p', tree_match ufn m name c (N.of_nat k) c' /\ realizes npc pool t' k p' /\ In rc (t_ended t')).
  Proof.
    intros Hc. destruct compiled_fields as (_ & Hst & Hnpc & _).
    pose proof (gen_tree_sem ufn chains (ck_keys _ _ Hok) _ _ _ _ _ Htree (fun rc H => H) (inv0 chains) name c c') as [Hs Hcp].
    (* the paths of the model from node 0 are those of the tree; the tree's are the chains' *)
    split.
    - intros n (s & Es & Hp). rewrite Hst in Es. injection Es as <-.
      destruct (realizes_path_fwd ufn m pool npc Hnpc compiled_mirrors name t0 O None c n c' Hroot (proj2 compiled_tree_wf) Hc Hp)
        as (t' & k & p' & -> & Htp & Hrz & Hc').
      exists t', k, p'. repeat split; auto; apply (Hs t' rc Htp H).
    - intros rc Hin Hsem. destruct (Hcp rc Hin (Nat.le_0_l _) Hsem) as (t' & Htp & Hend).
      destruct (realizes_path_bwd ufn m pool npc Hnpc compiled_mirrors name t0 O None c t' c' Hroot (proj2 compiled_tree_wf) Hc Htp)
        as (k & p' & Hm & Hrz).
      exists t', k, p'. split; [exists 0; auto | auto].
  Qed.

  (* C11 at the level of chains: a rule name is reported for a name iff one of that rule's chains is satisfied *)
  Theorem compiled_match_chains name c c' r : ctx_named npc c ->
    (exists n nd, tree_match ufn m name c n c' /\ get_node m n = Some nd /\ In r (n_rule nd)) <->
    (exists rc, In rc chains /\ ch_id rc = r /\ chain_sem_from ufn 0 rc name c c').
  Proof.
    intros Hc. destruct (compiled_match_ends name c c' Hc) as [Hfwd Hbwd]. split.
    - intros (n & nd & Hm & Hg & Hr). destruct (Hfwd n Hm) as (t' & k & p' & -> & Hrz & _ & Hsem).
      destruct (compiled_node _ _ _ Hrz) as (nd' & Hg' & Hnr).
      rewrite Hg in Hg'. injection Hg' as <-. rewrite Hnr in Hr. apply in_map_iff in Hr.
      destruct Hr as (rc & Hid & Hin). destruct (Hsem rc Hin). exists rc. auto.
    - intros (rc & Hin & Hid & Hsem). destruct (Hbwd rc Hin Hsem) as (t' & k & p' & Hm & Hrz & Hend).
      destruct (compiled_node _ _ _ Hrz) as (nd & Hg & Hnr).
      exists (N.of_nat k), nd. split; [exact Hm|]. split; [exact Hg|]. rewrite Hnr, <- Hid. apply in_map, Hend.
  Qed.

  (* C12 at the level of chains, from any context that binds named tags only *)
  Theorem compiled_check_chains p k c0 cx cx' : ctx_named npc c0 ->
    (exists pn pnode kn, tree_match ufn m p c0 pn cx /\ get_node m pn = Some pnode /\
                         tree_match ufn m k cx kn cx' /\ In kn (n_sign pnode)) <->
    (exists rc rk, In rc chains /\ chain_sem_from ufn 0 rc p c0 cx /\ In rk chains /\ In (ch_id rk) (ch_sign rc) /\
                   chain_sem_from ufn 0 rk k cx cx').
  Proof.
    intros Hc0. destruct (compiled_match_ends p c0 cx Hc0) as [Hfp Hbp]. split.
    - intros (pn & pnode & kn & Hmp & Hgp & Hmk & Hin).
      destruct (Hfp pn Hmp) as (tp & ip & pp & -> & Hrzp & Hcx & Hsp).
      apply (compiled_sign_iff _ _ _ _ _ Hrzp Hgp) in Hin. destruct Hin as (rc & sk & ndk & Hrc & Hsk & Hgk & Hrk).
      destruct (proj1 (compiled_match_chains k cx cx' sk Hcx)) as (rk & Hrkin & <- & Hsem); [eauto|].
      destruct (Hsp rc Hrc). exists rc, rk. auto.
    - intros (rc & rk & Hin1 & Hsem1 & Hin2 & Hsk & Hsem2).
      destruct (Hbp rc Hin1 Hsem1) as (tp & ip & pp & Hmp & Hrzp & Hendp).
      destruct (Hfp _ Hmp) as (_ & _ & _ & _ & _ & Hcx & _).
      destruct (proj2 (compiled_match_chains k cx cx' (ch_id rk) Hcx)) as (kn & ndk & Hmk & Hgk & Hrk); [eauto|].
      destruct (compiled_node _ _ _ Hrzp) as (ndp & Hgp & _).
      exists (N.of_nat ip), ndp, kn. repeat split; auto. apply (compiled_sign_iff _ _ _ _ _ Hrzp Hgp). exists rc, (ch_id rk), ndk. auto.
  Qed.
  End Answers.
End Compiled.

Lemma compile_unfold S chains st m :
  chains_of S = Ok (chains, st) -> compile S = Ok m ->
  exists t0, gen_tree (Datatypes.S (max_chain_len chains)) 0 chains [] = Ok t0 /\
    model_of st (fst (flatten t0 None O (N.of_nat (length (ns_named st)))))
             (rids_of (fst (flatten t0 None O (N.of_nat (length (ns_named st)))))) 0 = Ok m.
Proof.
  intros Hc H. unfold compile in H. rewrite Hc in H. cbn [bind] in H.
  destruct (gen_tree _ 0 chains []) as [t0|] eqn:Eg; [|discriminate]. cbn [bind] in H. exists t0. auto.
Qed.

Lemma compile_inv S m : compile S = Ok m ->
  exists (chains : list chain) (st : numst) t0, chains_of S = Ok (chains, st) /\ gen_tree (Datatypes.S (max_chain_len chains)) 0 chains [] = Ok t0 /\
    model_of st (fst (flatten t0 None O (N.of_nat (length (ns_named st)))))
             (rids_of (fst (flatten t0 None O (N.of_nat (length (ns_named st)))))) 0 = Ok m.
Proof.
  intros H. destruct (chains_of S) as [[chains st]|] eqn:Hc; [|unfold compile in H; rewrite Hc in H; discriminate].
  destruct (compile_unfold _ _ _ _ Hc H) as (t0 & Ht & Hm). exists chains, st, t0. auto.
Qed.
