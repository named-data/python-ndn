(* One element [tlv t p]: its length, its header read back ([tl_header]), injectivity; splitting a serialised element
   list gives the elements back (with exact declared lengths). *)
From NDN Require Import Base.Prelude Model.TlvVar Model.Tlv Proofs.BytesLemmas Proofs.TlvVarProofs.
Local Open Scope N_scope.

(* The pieces of wire that the codec proofs speak of, and what leads from one to the other:
   - [el_ok e], here: an element record whose declared Length is that of its payload, Type and Length below 2^64;
     made from a Type and a payload by [el_ok_intro]; its Length clause alone is [PacketDecode.exact] ([el_ok_exact]);
   - [NameWire.wf_comp c], the same predicate as [TlvRoundtrip.wf_comp64 c]: bytes of the form [comp_enc t v], which are
     [ser_elem] of an [el_ok] element ([TlvRoundtrip.comp_as_elem]);
   - [NameWire.comp_form c]: bytes whose Type and Length read the same whatever follows and that end where the Length
     says, the headers in any form; [wf_comp_form] leads there;
   - [PtrsSpecView.is_el (t, c)]: the same said with the specification's [next_element]; [ser_elem] of an [el_ok]
     element is one ([el_ok_is_el]), and its bytes have [comp_form] ([is_el_form]);
   - [TlvRoundtrip2.slot t s]: what a field of a single kind writes, nothing or one element of Type [t]
     ([slot_tlv], [slot_name], [enc_val_slot]);
   - [PtrsSplit.agrees]: an element of the decoder's split with its raw bytes against a (Type, bytes) of the
     specification's. *)
Definition el_ok (e : elem) : Prop :=
  e_type e < two64 /\ e_dlen e = N.of_nat (length (e_payload e)) /\ e_dlen e < two64.

Lemma el_ok_intro t p : t < two64 -> N.of_nat (length p) < two64 -> el_ok (Elem t (N.of_nat (length p)) p).
Proof. intros Ht Hp. exact (conj Ht (conj eq_refl Hp)). Qed.

Definition ser_elem (e : elem) : bytes := tlv (e_type e) (e_payload e).
Definition ser_els (els : list elem) : bytes := concat (map ser_elem els).

Lemma tlv_length t p : length (tlv t p) = (tl_size t + tl_size (N.of_nat (length p)) + length p)%nat.
Proof. unfold tlv. rewrite !app_length, !tl_enc_length. lia. Qed.

Lemma tlv_len_bound t p : N.of_nat (length (tlv t p)) < two64 -> N.of_nat (length p) < two64.
Proof. rewrite tlv_length. lia. Qed.

Lemma tlv_nonempty t p : tlv t p <> [].
Proof. intros E. apply (f_equal (@length N)) in E. rewrite tlv_length in E. pose proof (tl_size_pos t). cbn in E. lia. Qed.

Lemma tlv_inj t a b : tlv t a = tlv t b -> a = b.
Proof.
  intros H. assert (length a = length b) as L.
  { apply (f_equal (@length N)) in H. rewrite !tlv_length in H. apply tl_size_add_inj. lia. }
  unfold tlv in H. rewrite L in H. apply app_inv_head in H. apply app_inv_head in H. exact H.
Qed.

Lemma tlv_short t p : (length p <= 252)%nat -> tlv t p = tl_enc t ++ N.of_nat (length p) :: p.
Proof. intros H. unfold tlv. rewrite (tl_enc_small (N.of_nat (length p))) by lia. reflexivity. Qed.

Lemma uint_element t r :
  tl_enc t ++ N.of_nat (nni_width r) :: N_to_be (nni_width r) r = tlv t (nni_enc r).
Proof.
  unfold nni_enc. rewrite tlv_short by (rewrite N_to_be_length; pose proof (nni_width_le r); lia).
  rewrite N_to_be_length. reflexivity.
Qed.

Lemma tl_header t p r : t < two64 -> N.of_nat (length p) < two64 ->
  tl_dec (tlv t p ++ r) = Ok (t, tl_size t) /\
  tl_dec (skipn (tl_size t) (tlv t p ++ r)) = Ok (N.of_nat (length p), tl_size (N.of_nat (length p))) /\
  skipn (tl_size t + tl_size (N.of_nat (length p))) (tlv t p ++ r) = p ++ r.
Proof.
  intros Ht Hl. unfold tlv. rewrite <- !app_assoc. split; [apply tl_dec_enc, Ht|].
  rewrite <- skipn_add, !skipn_app_exact' by (symmetry; apply tl_enc_length).
  split; [apply tl_dec_enc, Hl|reflexivity].
Qed.

Lemma pact_tlv t body :
  t < two64 -> N.of_nat (length body) < two64 -> parse_and_check_tl (tlv t body) t = Ok body.
Proof.
  intros Ht Hl. unfold parse_and_check_tl.
  destruct (tl_header t body [] Ht Hl) as (E1 & E2 & E3). rewrite app_nil_r in E1, E2. rewrite !app_nil_r in E3.
  rewrite E1. cbn [bind]. rewrite E2. cbn [bind]. rewrite E3, N.eqb_refl, tlv_length. cbn [negb].
  replace (_ =? _) with true by lia. reflexivity.
Qed.

Lemma elements_step fuel w : w <> [] ->
  elements (S fuel) w =
  do tp <- tl_dec w ;; let '(t, st) := tp in
  do lp <- tl_dec (skipn st w) ;; let '(l, sl) := lp in
  let body := skipn (st + sl) w in
  let k := N.to_nat (N.min l (N.of_nat (length body))) in
  do r <- elements fuel (skipn k body) ;; Ok (Elem t l (firstn k body) :: r).
Proof. destruct w; [contradiction|reflexivity]. Qed.

Lemma elements_cons fuel e rest :
  el_ok e ->
  elements (S fuel) (ser_elem e ++ rest) = do r <- elements fuel rest ;; Ok (e :: r).
Proof.
  intros (Ht & Hl & Hl2). destruct e as [t dl p]. cbn [e_type e_dlen e_payload] in *. subst dl.
  unfold ser_elem. cbn [e_type e_payload].
  rewrite elements_step by (intros E; apply app_eq_nil in E; exact (tlv_nonempty t p (proj1 E))).
  destruct (tl_header t p rest Ht Hl2) as (E1 & E2 & E3). rewrite E1. cbn [bind]. rewrite E2. cbn [bind]. rewrite E3.
  replace (N.to_nat (N.min (N.of_nat (length p)) (N.of_nat (length (p ++ rest))))) with (length p)
    by (rewrite app_length; lia).
  rewrite firstn_app_exact, skipn_app_exact. reflexivity.
Qed.

Lemma elements_nil fuel : elements fuel [] = Ok [].
Proof. destruct fuel; reflexivity. Qed.

Theorem elements_ser els : forall fuel,
  Forall el_ok els -> (length els <= fuel)%nat -> elements fuel (ser_els els) = Ok els.
Proof.
  induction els as [|e els IH]; intros fuel H Hf.
  - apply elements_nil.
  - inversion H as [|? ? He Hr]; subst. destruct fuel as [|fuel]; [cbn in Hf; lia|].
    unfold ser_els. cbn [map concat]. rewrite elements_cons by exact He.
    fold (ser_els els). rewrite IH; [reflexivity|exact Hr|cbn in Hf; lia].
Qed.

Lemma ser_els_length_ge els : (2 * length els <= length (ser_els els))%nat.
Proof.
  unfold ser_els. rewrite <- (map_length ser_elem els). apply concat_length_ge, Forall_map, Forall_forall. intros e _.
  unfold ser_elem. rewrite tlv_length. pose proof (tl_size_pos (e_type e)). pose proof (tl_size_pos (N.of_nat (length (e_payload e)))). lia.
Qed.

Theorem split_wire_ser els : Forall el_ok els -> split_wire (ser_els els) = Ok els.
Proof.
  intros H. unfold split_wire. apply elements_ser; [exact H|].
  pose proof (ser_els_length_ge els). lia.
Qed.

Lemma ser_els_app a b : ser_els (a ++ b) = ser_els a ++ ser_els b.
Proof. unfold ser_els. rewrite map_app, concat_app. reflexivity. Qed.

Lemma ser_single e : ser_els [e] = tlv (e_type e) (e_payload e).
Proof. unfold ser_els, ser_elem. cbn. apply app_nil_r. Qed.

Lemma ser_pair e1 e2 : ser_els [e1; e2] = tlv (e_type e1) (e_payload e1) ++ tlv (e_type e2) (e_payload e2).
Proof. unfold ser_els, ser_elem. cbn [map concat]. rewrite app_nil_r. reflexivity. Qed.
