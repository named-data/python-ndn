(* C19, about the specification alone: a [burst] is decided by the first fate that is not a loss; what [expected] is, in
   the words of the property, and [walk_asks] along segments that are all answered. *)
From NDN Require Import Base.Prelude Model.SegFetch Spec.SegFetchSpec.
From NDN Require Import Proofs.ListLemmas.
Local Open Scope nat_scope.

Definition fate_result (x : fate) : key_result :=
  match x with Lost => KExhausted | Nacked => KFailed XNack | Invalid => KFailed XValFail | Delivered => KAnswered end.

Lemma burst_lost f att : forall n, (forall m, n <= m < n + att -> f m = Lost) -> burst f n att = KExhausted.
Proof.
  induction att as [|a IH]; intros n H; [reflexivity|]. cbn [burst].
  rewrite (H n) by lia. apply IH. intros m Hm. apply H. lia.
Qed.

Lemma burst_first f att m : forall n,
  n <= m < n + att -> (forall m', n <= m' < m -> f m' = Lost) -> f m <> Lost -> burst f n att = fate_result (f m).
Proof.
  induction att as [|a IH]; intros n Hm HL Hd; [lia|]. cbn [burst].
  destruct (Nat.eq_dec n m) as [->|Hne].
  - destruct (f m); [contradiction|reflexivity..].
  - rewrite (HL n) by lia. apply IH; [lia| |exact Hd]. intros m' Hm'. apply HL. lia.
Qed.

Lemma burst_len_lost f att : forall n, (forall m, n <= m < n + att -> f m = Lost) -> burst_len f n att = att.
Proof.
  induction att as [|a IH]; intros n H; [reflexivity|]. cbn [burst_len].
  rewrite (H n) by lia. f_equal. apply IH. intros m Hm. apply H. lia.
Qed.

Lemma burst_cases f att n :
  (forall m, n <= m < n + att -> f m = Lost) /\ burst f n att = KExhausted \/
  exists m, n <= m < n + att /\ (forall m', n <= m' < m -> f m' = Lost) /\ f m <> Lost /\
            burst f n att = fate_result (f m).
Proof.
  destruct (least_bad (fun t => f t = Lost)) with (n := att) (s := n) as [L|(m & Hm & Hd & L)].
  - intros t. destruct (f t); [left; reflexivity|right; discriminate..].
  - left. split; [exact L|apply burst_lost, L].
  - right. exists m. split; [exact Hm|]. split; [exact L|]. split; [exact Hd|]. apply burst_first; assumption.
Qed.

Lemma burst_nofault f att : (forall m, f m = Lost \/ f m = Delivered) ->
  forall n, burst f n att = KExhausted \/ burst f n att = KAnswered.
Proof.
  intros H. induction att as [|a IH]; intros n; cbn [burst]; [left; reflexivity|].
  destruct (H n) as [E|E]; rewrite E; [apply IH | right; reflexivity].
Qed.

Lemma tolerable_iff S retry k : tolerable S retry k <-> tolerable_explicit S retry k.
Proof.
  unfold tolerable, tolerable_explicit, result_of. split.
  - intros E. destruct (burst_cases (fate_of S k) (attempts_of retry) 0) as [[_ X]|(m & Hm & L & _ & X)];
      rewrite X in E; [discriminate|].
    exists m. split; [lia|]. split; [destruct (fate_of S k m); (discriminate || reflexivity)|].
    intros j' Hj'. apply L. lia.
  - intros (j & Hj & D & L). rewrite (burst_first _ _ j); [rewrite D; reflexivity|lia| |congruence].
    intros m' Hm'. apply L. lia.
Qed.

Lemma exhausted_iff S retry k : result_of S retry k = KExhausted <-> exhausted S retry k.
Proof.
  unfold exhausted, result_of. split.
  - intros E j Hj. destruct (burst_cases (fate_of S k) (attempts_of retry) 0) as [[L _]|(m & _ & _ & Hd & X)].
    + apply L. lia.
    + rewrite X in E. destruct (fate_of S k m); (contradiction || discriminate).
  - intros H. apply burst_lost. intros m Hm. apply H. lia.
Qed.

Lemma tolerable_dec S retry k : tolerable S retry k \/ ~ tolerable S retry k.
Proof. unfold tolerable. destruct (result_of S retry k); [right|right|left]; congruence. Qed.

Definition marked (S : scenario) : Prop :=
  match disc S with DSeg _ => well_marked (obj S) | DWhole _ _ _ => True end.

Lemma walk_asks_complete S cfg : forall n i,
  (forall t, i <= t < i + n ->
     result_of S (retry_times cfg) (KSeg t) = KAnswered /\ is_final (obj S) t = false) ->
  result_of S (retry_times cfg) (KSeg (i + n)) = KAnswered -> is_final (obj S) (i + n) = true ->
  walk_asks S cfg i (Datatypes.S n) =
    flat_map (fun t => asks_for S cfg (KSeg t) (seg_req S cfg t)) (seq i (Datatypes.S n)).
Proof.
  induction n as [|n IH]; intros i H A F.
  - rewrite Nat.add_0_r in A, F. cbn [walk_asks seq flat_map]. rewrite A, F. reflexivity.
  - destruct (H i ltac:(lia)) as [A0 F0]. cbn [walk_asks seq flat_map]. rewrite A0, F0. f_equal.
    rewrite Nat.add_succ_r in A, F. apply (IH (Datatypes.S i)); [|exact A|exact F].
    intros t Ht. apply H. lia.
Qed.

Section Walk.
  Variable S : scenario.
  Variable retry : nat.

  Lemma walk_prefix : forall n i len,
    (forall t, i <= t < i + n -> result_of S retry (KSeg t) = KAnswered /\ is_final (obj S) t = false) ->
    walk S retry (seq i (n + len)) =
      let '(ys, e) := walk S retry (seq (i + n) len) in (map (content (obj S)) (seq i n) ++ ys, e).
  Proof.
    induction n as [|n IH]; intros i len H.
    - rewrite Nat.add_0_r. cbn [Nat.add seq map app]. destruct (walk S retry (seq i len)). reflexivity.
    - destruct (H i ltac:(lia)) as [A F]. cbn [Nat.add seq walk map app].
      rewrite A, F, (IH (Datatypes.S i)) by (intros t Ht; apply H; lia).
      rewrite Nat.add_succ_r. cbn [Nat.add]. destruct (walk S retry (seq (Datatypes.S (i + n)) len)). reflexivity.
  Qed.

  (* Segments are looked at in the order 0, 1, 2, ...; segment 0 is not asked for when it came as the
     discovery answer. *)
  Lemma expected_from m k0 :
    disc S = DSeg k0 -> result_of S retry KDisc = KAnswered -> first_needed S <= m <= nseg (obj S) ->
    (forall t, first_needed S <= t < m -> result_of S retry (KSeg t) = KAnswered) ->
    (forall t, t < m -> is_final (obj S) t = false) ->
    expected S retry =
      let '(ys, e) := walk S retry (seq m (nseg (obj S) - m)) in (map (content (obj S)) (seq 0 m) ++ ys, e).
  Proof.
    unfold expected, first_needed. intros -> -> Hm HA HF. destruct k0 as [|k'].
    - rewrite (HF 0) by lia.
      replace (nseg (obj S) - 1) with ((m - 1) + (nseg (obj S) - m)) by lia.
      rewrite walk_prefix by (intros t Ht; split; [apply HA|apply HF]; lia).
      rewrite (seq_S_head m) by lia. replace (1 + (m - 1)) with m by lia.
      destruct (walk S retry (seq m (nseg (obj S) - m))). reflexivity.
    - replace (nseg (obj S)) with (m + (nseg (obj S) - m)) at 1 by lia.
      apply walk_prefix. intros t Ht. split; [apply HA|apply HF]; lia.
  Qed.

  Hypothesis HM : marked S.

  Theorem expected_all_tolerable :
    (forall k, needed S k -> tolerable S retry k) -> expected S retry = (all_contents S, Completed).
  Proof.
    intros HT. pose proof (HT KDisc I) as HD. unfold tolerable in HD.
    unfold marked in HM. unfold all_contents. destruct (disc S) as [k0|nm c m] eqn:ED.
    2:{ unfold expected. rewrite HD, ED. reflexivity. }
    destruct HM as (M1 & M2 & M3). destruct (nseg (obj S)) as [|l] eqn:EN; [lia|].
    rewrite Nat.sub_succ, Nat.sub_0_r in M2, M3. rewrite seq_S, map_app.
    destruct (Nat.eq_dec (first_needed S) (Datatypes.S l)) as [E1|E1].
    - (* a single segment, and it answers the discovery Interest *)
      unfold first_needed in E1. rewrite ED in E1. destruct k0; [|lia].
      injection E1 as <-. unfold expected. rewrite HD, ED, M2. reflexivity.
    - assert (first_needed S <= l) by (unfold first_needed in *; rewrite ED in *; destruct k0; lia).
      rewrite (expected_from l k0 ED HD), EN; [|lia| |exact M3].
      + replace (Datatypes.S l - l) with 1 by lia. cbn [seq walk].
        rewrite (HT (KSeg l)), M2 by (unfold needed; rewrite ED; lia). reflexivity.
      + intros t Ht. apply (HT (KSeg t)). unfold needed. rewrite ED. lia.
  Qed.

  Theorem expected_first_failure k :
    needed S k -> (forall k', needed S k' -> before k' k -> tolerable S retry k') ->
    ~ tolerable S retry k ->
    expected S retry = (contents_before S k, Raised (exc_of (result_of S retry k))).
  Proof.
    intros Hk Hpre Hbad. unfold tolerable in *. destruct k as [|j].
    - unfold expected. cbn [contents_before].
      destruct (result_of S retry KDisc); [reflexivity|reflexivity|contradiction].
    - unfold marked in HM. unfold needed in Hk, Hpre. cbn [contents_before].
      destruct (disc S) as [k0|nm c m] eqn:ED; [|contradiction]. destruct HM as (M1 & M2 & M3).
      rewrite (expected_from j k0 ED (Hpre KDisc I I)); [|lia| |intros t Ht; apply M3; lia].
      + destruct (nseg (obj S) - j) as [|l] eqn:EL; [lia|]. cbn [seq walk].
        destruct (result_of S retry (KSeg j)); [| |contradiction]; rewrite app_nil_r; reflexivity.
      + intros t Ht. apply (Hpre (KSeg t)); [lia|exact (proj2 Ht)].
  Qed.

  Lemma first_bad_or_all_good :
    (forall k, needed S k -> tolerable S retry k) \/
    exists k, needed S k /\ ~ tolerable S retry k /\ forall k', needed S k' -> before k' k -> tolerable S retry k'.
  Proof.
    destruct (tolerable_dec S retry KDisc) as [HD|HD].
    2:{ right. exists KDisc. split; [exact I|]. split; [exact HD|]. intros k' _ B. destruct k'; contradiction. }
    destruct (disc S) as [k|nm c m] eqn:ED.
    - destruct (least_bad (fun t => tolerable S retry (KSeg t)) (fun t => tolerable_dec S retry (KSeg t))
                  (nseg (obj S) - first_needed S) (first_needed S)) as [H|(j & Hj & Hb & Hp)].
      + left. intros [|i] Hn; [exact HD|]. apply H. unfold needed in Hn. rewrite ED in Hn. lia.
      + right. exists (KSeg j). split; [unfold needed; rewrite ED; lia|]. split; [exact Hb|].
        intros [|i] Hn B; [exact HD|]. apply Hp. unfold needed in Hn. rewrite ED in Hn. cbn in B. lia.
    - left. intros [|i] Hn; [exact HD|]. unfold needed in Hn. rewrite ED in Hn. contradiction.
  Qed.

  Theorem completes_iff_all_tolerable :
    snd (expected S retry) = Completed <-> forall k, needed S k -> tolerable S retry k.
  Proof.
    split.
    - intros HC. destruct first_bad_or_all_good as [H|(k & Hn & Hb & Hp)]; [exact H|].
      rewrite (expected_first_failure k Hn Hp Hb) in HC. discriminate.
    - intros H. rewrite (expected_all_tolerable H). reflexivity.
  Qed.

  Theorem timeout_iff_exhausted :
    no_faults S ->
    (snd (expected S retry) = Raised XTimeout <-> exists k, needed S k /\ exhausted S retry k).
  Proof.
    intros NF.
    assert (R : forall k, result_of S retry k = KExhausted \/ tolerable S retry k)
      by (intros k; apply burst_nofault, NF).
    destruct first_bad_or_all_good as [H|(k & Hn & Hb & Hp)].
    - rewrite (expected_all_tolerable H). split; [discriminate|].
      intros (k & Hn & He). apply exhausted_iff in He. specialize (H k Hn). unfold tolerable in H. congruence.
    - destruct (R k) as [E|E]; [|contradiction].
      rewrite (expected_first_failure k Hn Hp Hb), E. split; [|reflexivity].
      intros _. exists k. split; [exact Hn|apply exhausted_iff, E].
  Qed.
End Walk.
