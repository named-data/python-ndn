(* A building block for relating _replicate_rules to Spec/LvsSem.expand: representation is preserved by appending
   pieces with disjoint temporary tags. *)
From NDN Require Import Proofs.ListLemmas Base.Prelude Model.LvsAst Model.LvsCompiler Spec.LvsSem Proofs.LvsRepresents
  Proofs.LvsTraverse.
Local Open Scope N_scope.

(* [represents] reads only the name and the constraints of a chain *)
Definition mkch (name : list ncomp) (cons : list ncons) : chain :=
  {| ch_id := []; ch_name := name; ch_cons := cons; ch_sign := [] |}.

Lemma represents_mk named ch f : represents named ch f <-> represents named (mkch (ch_name ch) (ch_cons ch)) f.
Proof. split; intros [A B]; constructor; assumption. Qed.

Definition opts_for (cons : list ncons) (t : Z) : list (list nopt) :=
  map nc_opts (filter (fun c => zmem t (nc_pat c)) cons).

Lemma cons_opts_for_mk name cons t : cons_opts_for (mkch name cons) t = opts_for cons t.
Proof. reflexivity. Qed.

Lemma opts_for_app a b t : opts_for (a ++ b) t = opts_for a t ++ opts_for b t.
Proof. unfold opts_for. rewrite filter_app, map_app. reflexivity. Qed.

Definition mentions (cons : list ncons) (t : Z) : Prop := exists c, In c cons /\ In t (nc_pat c).

Lemma not_mentions_opts cons t : ~ mentions cons t -> opts_for cons t = [].
Proof.
  intros H. unfold opts_for. induction cons as [|c cons IH]; [reflexivity|]. cbn [filter].
  destruct (zmem t (nc_pat c)) eqn:E; [exfalso; apply H; exists c; split; [left; reflexivity | apply zmem_in; exact E]|].
  apply IH. intros (c0 & Hc0 & Ht). apply H. exists c0. split; [right; exact Hc0 | exact Ht].
Qed.

Section A.
  Variable named : list (ident * N).

  Lemma comp_rep_ext_all rc rc' l l' : Forall2 (comp_rep named rc) l l' ->
    (forall t, In (NPat t) l' -> (t < 0)%Z -> cons_opts_for rc' t = cons_opts_for rc t) -> Forall2 (comp_rep named rc') l l'.
  Proof.
    intros F H. eapply forall2_impl_in; [|exact F]. intros fc nc _ Hnc. destruct fc as [x|p|cs], nc as [y|t|r]; try exact id.
    intros [Hn Hf]. split; [exact Hn|]. rewrite (H t Hnc Hn). exact Hf.
  Qed.

  Definition fapp (a b : flat) : flat := {| f_comps := f_comps a ++ f_comps b; f_ncons := f_ncons a ++ f_ncons b |}.

  Lemma rep_app nA cA fA nB cB fB :
    represents named (mkch nA cA) fA -> represents named (mkch nB cB) fB ->
    (forall t, In (NPat t) nA -> (t < 0)%Z -> ~ mentions cB t) ->
    (forall t, In (NPat t) nB -> (t < 0)%Z -> ~ mentions cA t) ->
    represents named (mkch (nA ++ nB) (cA ++ cB)) (fapp fA fB).
  Proof.
    intros [A1 A2] [B1 B2] HAB HBA. constructor; cbn [ch_name ch_cons mkch fapp f_comps f_ncons] in *.
    - apply Forall2_app.
      + eapply comp_rep_ext_all; [exact A1|]. intros t Ht Hn. rewrite !cons_opts_for_mk, opts_for_app, (not_mentions_opts cB t (HAB t Ht Hn)). apply app_nil_r.
      + eapply comp_rep_ext_all; [exact B1|]. intros t Ht Hn. rewrite !cons_opts_for_mk, opts_for_app, (not_mentions_opts cA t (HBA t Ht Hn)). reflexivity.
    - intros p t Hp. unfold cons_on. rewrite filter_app, map_app, cons_opts_for_mk, opts_for_app. apply Forall2_app; [apply (A2 p t Hp) | apply (B2 p t Hp)].
  Qed.
End A.
