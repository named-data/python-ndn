(* C14 — a concrete world used for non-vacuity examples and for the refutation witnesses. *)
From NDN Require Import Base.Prelude Model.Validator Model.ValidatorConc Spec.ChainSpec Proofs.ValidatorProofs Proofs.ValidatorHistory.
Local Open Scope N_scope.

Definition nA  : vname := [[1]].      (* anchor 1 *)
Definition nA2 : vname := [[4]].      (* anchor 2 *)
Definition nC  : vname := [[2]].      (* certificate issued by anchor 1 *)
Definition nP  : vname := [[3]].      (* a data packet signed with C's key *)
Definition nL  : vname := [[5]].      (* a certificate that names itself as its signer, not an anchor *)
Definition nE  : vname := [[6]].      (* a name under which nothing is retrievable *)

Definition mk (i : N) (n : vname) (ty : N) (kl : vname) (c : bytes) : pkt :=
  {| p_id := i; p_name := n; p_sig := Some {| s_type := ty; s_kl := Some kl |}; p_content := Some c |}.

Definition A1 := mk 1 nA SIG_ECDSA nA [11].
Definition A2 := mk 2 nA2 SIG_ECDSA nA2 [12].
Definition C  := mk 3 nC SIG_ECDSA nA [13].
Definition P  := mk 4 nP SIG_ECDSA nC [99].
Definition L  := mk 5 nL SIG_ECDSA nL [14].
Definition PL := mk 6 nP SIG_ECDSA nL [98].
Definition Q  := mk 7 nP SIG_RSA nC [97].        (* claims RSA, names the EC certificate C *)
Definition H  := mk 8 nP SIG_HMAC nA [96].       (* HMAC "signed" with the anchor's public key as secret *)

Definition ex_world : world := {|
  w_fetch := fun n => if name_eqb n nC then FData C else if name_eqb n nL then FData L else FTimeout;
  w_verify := fun a k p =>
    if a =? SIG_RSA then Err EValue                      (* RSA.import_key on EC key bits raises ValueError *)
    else if a =? SIG_HMAC then Ok true                   (* the HMAC really matches *)
    else Ok ((a =? SIG_ECDSA) &&
             (   (bytes_eqb k [11] && ((p_id p =? 1) || (p_id p =? 3)))
              || (bytes_eqb k [12] && (p_id p =? 2))
              || (bytes_eqb k [13] && (p_id p =? 4))
              || (bytes_eqb k [14] && ((p_id p =? 5) || (p_id p =? 6)))))
|}.

Definition ex_schema : schema := {|
  sc_fns_ok := true; sc_roots := [[82]]; sc_match := fun _ => Ok [[82]; [83]]; sc_check := fun _ _ => Ok true |}.

Definition cfg1 : cfg := {| c_anchor_name := nA; c_anchor_key := [11]; c_check := Some (sc_check ex_schema) |}.
Definition cfg2 : cfg := {| c_anchor_name := nA2; c_anchor_key := [12]; c_check := Some (sc_check ex_schema) |}.

Example ex_init1 : lvs_init ex_world ex_schema (Ok A1) = Ok cfg1.
Proof. vm_compute. reflexivity. Qed.
Example ex_init2 : lvs_init ex_world ex_schema (Ok A2) = Ok cfg2.
Proof. vm_compute. reflexivity. Qed.

(* P has a chain P - C - A1, accepted with one certificate fetch; under anchor 2 it has none *)
Example ex_validate_P : validate ex_world cfg1 3 [] P = (Ok true, [(nC, [13])], [nC]).
Proof. vm_compute. reflexivity. Qed.

Example ex_chain_P : Chain ex_world (trust_of cfg1) P.
Proof. apply (chainb_spec ex_world (trust_of cfg1) 3 P true); vm_compute; reflexivity. Qed.

Example ex_no_chain_P_anchor2 : ~ Chain ex_world (trust_of cfg2) P.
Proof.
  intros Hc. apply (chainb_spec ex_world (trust_of cfg2) 3 P false) in Hc; [discriminate | vm_compute; reflexivity].
Qed.

Example ex_cache_ok : cache_ok ex_world (trust_of cfg1) [(nC, [13])].
Proof.
  exact (proj1 (validate_sound ex_world cfg1 3 [] P _ _ _ (cache_ok_nil _ _) ex_validate_P)).
Qed.

Example ex_bounded_P : Bounded ex_world cfg1 1 P.
Proof. eapply BStep with (cn := nC) (d := C); [reflexivity | reflexivity | apply BAnchor; reflexivity]. Qed.

Definition ex_ops : list op :=
  [ ONewLvs ex_schema (Ok A1) SDefault; ONewLvs ex_schema (Ok A2) SDefault;
    OValidate 1 P; OValidate 0 P; OValidate 1 P ].

(* fixed code: own storage per instance — reject, accept, still reject *)
Example ex_history_fixed :
  snd (run_history false ex_world 5 init_state ex_ops) =
  [ BNew (Ok 0%nat); BNew (Ok 1%nat); BVal (Ok false) [nC; nA]; BVal (Ok true) [nC]; BVal (Ok false) [nC; nA] ].
Proof. vm_compute. reflexivity. Qed.

(* code before the fix: the default-argument storage is shared — reject, accept, ACCEPT (no fetch at all) *)
Example ex_history_legacy :
  snd (run_history true ex_world 5 init_state ex_ops) =
  [ BNew (Ok 0%nat); BNew (Ok 1%nat); BVal (Ok false) [nC; nA]; BVal (Ok true) [nC]; BVal (Ok true) [] ].
Proof. vm_compute. reflexivity. Qed.

Definition ex_state2 : state := fst (run_history false ex_world 5 init_state (firstn 4 ex_ops)).

Example ex_reachable : reachable ex_world ex_state2.
Proof.
  apply run_history_reachable; [apply R0|]. apply Forall_forall. repeat constructor.
Qed.

(* PL names the certificate L, which names itself *)
Lemma loop_leaf_never_answers fuel : fst (fst (validate ex_world cfg1 fuel [] PL)) = Err EFuel.
Proof.
  rewrite validate_local. change (local_verdict ex_world cfg1 [] PL) with (inr nL : res bool + vname).
  destruct fuel as [|f]; [reflexivity|]. change (w_fetch ex_world nL) with (FData L). cbv beta iota.
  rewrite (self_loop_never_answers ex_world cfg1 [] L nL eq_refl eq_refl). reflexivity.
Qed.

Example ex_no_chain_PL : ~ Chain ex_world (trust_of cfg1) PL.
Proof.
  intros Hc. destruct (validate_complete _ _ _ Hc) as (n & Hn).
  specialize (Hn n [] (le_n n) (cache_ok_nil _ _)). rewrite loop_leaf_never_answers in Hn. discriminate.
Qed.

(* a packet that claims RSA but names an EC certificate: rejected by exception (ValueError), not by `False` *)
Example ex_reject_by_exception : fst (fst (validate ex_world cfg1 3 [] Q)) = Err EValue.
Proof. vm_compute. reflexivity. Qed.

(* HMAC: even when the MAC matches (key = the anchor's public key bits) the packet is not accepted *)
Example ex_hmac_rejected : fst (fst (validate ex_world cfg1 3 [] H)) = Ok false.
Proof. vm_compute. reflexivity. Qed.
