(* C03 / C05 — the refinement, step by step: an expiry turn, a plain event and the pair Express, Await each take a
   state that simulates ([srep]) the specification automata of all Interests to one that does; [wf_history], the
   histories the theorems quantify over, and the induction along them. *)
From NDN Require Import Base.Prelude Spec.ExpressSpec Model.ExpressPipeline Proofs.ListLemmas Proofs.ExpressBasics Proofs.ExpressSafety
  Proofs.ExpressInv Proofs.ExpressRec Proofs.ExpressTurn.
Local Open Scope N_scope.

Lemma upd_all_as_gsync g s : pit_ok s -> core_eq (upd_all g s) (gsync g (fun _ _ _ => true) s).
Proof.
  intros P. unfold gsync. rewrite pit_map_true by exact (pit_ok_nonempty s P). unfold core_eq, upd_all, set_pit; cbn. auto.
Qed.

Lemma gsync_keep_core s : pit_ok s -> core_eq s (gsync (fun _ r => keep r) (fun _ _ _ => true) s).
Proof. intros P. rewrite <- (upd_all_keep s) at 1. apply upd_all_as_gsync, P. Qed.

Lemma inv_struct_set_now s t : inv_struct s -> inv_struct (set_now s t).
Proof. unfold inv_struct, pit_ok, pit_entries, get_int. destruct s; cbn. auto. Qed.

Lemma expiry_sim fe sb sb' t s sg :
  srep fe sb' s sg ->
  let s' := settle fe (fire sb t (set_now s t)) in
  srep fe sb s' (fun i => expire fe sb t (sg i)) /\ now s' = t.
Proof.
  intros SR. cbv zeta. pose proof (inv_struct_set_now s t (srep_inv _ _ _ _ SR)) as IS0.
  apply (turn_sim fe false sb t (fun _ r => keep r) (fun _ _ _ => true) (set_now s t)); [|reflexivity | exact IS0 | intros; apply same_static_refl |].
  - unfold turn. apply core_settle, core_fire, gsync_keep_core, (inv_pit_ok _ IS0).
  - intros i. pose proof (srep_get _ _ _ _ i SR) as R. change (get_int (set_now s t) i) with (get_int s i).
    destruct (get_int s i) as [r|]; [exact (turn_expire fe sb sb' (now s) t i r _ R) | rewrite R; reflexivity].
Qed.

Definition is_shutdown (e : ev) : bool := match e with Shutdown _ => true | _ => false end.
Definition shut_ok (s : st) : Prop := shut s = true -> pit s = [].

Definition ev_hit (e : ev) : name -> N -> entry -> bool :=
  match e with
  | Data _ n h _ => data_hit n h
  | Nack n dig _ _ => nack_hit n dig
  | Shutdown _ => fun _ _ _ => true
  | _ => fun _ _ _ => false
  end.
Definition ev_keep (e : ev) : name -> N -> entry -> bool :=
  match e with
  | Data _ _ _ _ | Nack _ _ _ _ => fun pn nid x => negb (ev_hit e pn nid x)
  | Shutdown _ => fun _ _ _ => false
  | _ => fun _ _ _ => true
  end.

Lemma data_hit_matches n h i r nid :
  data_hit n h (i_name r) nid (entry_of i r) = matches (spec_of r) n h.
Proof.
  unfold data_hit, entry_sat, matches, spec_of, entry_of; cbn.
  destruct (name_eqb (i_name r) n) eqn:E.
  - apply name_eqb_eq in E. rewrite E, is_prefix_refl. destruct (i_cbp r); reflexivity.
  - destruct (i_cbp r), (is_prefix (i_name r) n); reflexivity.
Qed.

Lemma nack_hit_spec n dig i r nid :
  nack_hit n dig (i_name r) nid (entry_of i r) = name_eqb n (i_name r) && odig_eqb dig (i_dig r).
Proof.
  unfold nack_hit, entry_of; cbn. rewrite name_eqb_sym. f_equal.
  destruct (i_dig r), dig; cbn; auto. apply N.eqb_sym.
Qed.

Lemma ev_hit_spec e i r nid :
  ev_hit e (i_name r) nid (entry_of i r) = rec_hit e r /\ ev_keep e (i_name r) nid (entry_of i r) = rec_keep e r.
Proof.
  destruct e; cbn [ev_hit ev_keep rec_hit rec_keep]; rewrite ?data_hit_matches, ?nack_hit_spec; split; reflexivity.
Qed.

Lemma shut_ok_settle fe s : shut_ok s -> shut_ok (settle fe s).
Proof. intros SH S. unfold settle. rewrite upd_all_pit. cbn [pit set_pit]. rewrite upd_all_pit, (SH S). reflexivity. Qed.
Lemma shut_ok_tA0 mid t s : shut_ok s -> shut_ok (tA0 mid t s).
Proof. intros SH S. rewrite tA0_shut in S. rewrite tA0_pit. exact (SH S). Qed.

Lemma apply_as_gsync fe e s :
  plain_event e = true -> pit_ok s -> shut_ok s -> now s = ev_time e ->
  core_eq (apply fe s e) (gsync (fun i => ev_rec fe (ev_time e) e (mem i (pit_hits (ev_hit e) (pit s))) i) (ev_keep e) s).
Proof.
  intros PE P SH Nw. pose proof (gsync_keep_core s P) as K.
  (* the events that leave ints, pit and now alone: [core_eq] sees through the record they rebuild *)
  destruct e; try discriminate PE; cbn [apply ev_rec ev_hit ev_keep ev_time] in *; try exact K.
  - apply core_eq_refl.
  - apply core_eq_refl.
  - unfold do_vdone. rewrite Nw. apply upd_all_as_gsync, P.
  - apply upd_all_as_gsync, P.
  - unfold do_shutdown, gsync. destruct (shut s) eqn:S.
    + rewrite (SH S). cbn [pit_hits flat_map mem existsb]. rewrite upd_all_keep. repeat split. apply (SH S).
    + rewrite pit_map_false. repeat split.
  - unfold do_attach. destruct (al_mem name_eqb (fib s) p); exact K.
Qed.

Lemma react_none fe i e : plain_event e = true -> react fe i INone e = INone.
Proof. destruct e; try discriminate; reflexivity. Qed.

Lemma step_event fe mid e s1 sg :
  srep fe true s1 sg -> shut_ok s1 -> now s1 = ev_time e -> plain_event e = true ->
  let s' := settle fe (fire false (ev_time e) (apply fe (tA0 mid (ev_time e) s1) e)) in
  srep fe false s' (fun i => expire fe false (ev_time e) (react fe i (sg i) e)) /\ now s' = ev_time e.
Proof.
  intros SR SH Nw PE. cbv zeta. pose proof (srep_inv _ _ _ _ SR) as IS. pose proof (inv_pit_ok s1 IS) as P.
  set (c := fun i => mem i (pit_hits (ev_hit e) (pit s1))). set (g := fun i => ev_rec fe (ev_time e) e (c i) i).
  apply (turn_sim fe mid false (ev_time e) g (ev_keep e) s1);
    [| exact Nw | exact IS | exact (fun i r => proj1 (benign_ev_rec fe (ev_time e) e c i r)) |].
  - unfold turn. fold (tA0 mid (ev_time e) s1). apply core_settle, core_fire. unfold g, c. rewrite <- (tA0_pit mid (ev_time e) s1).
    apply apply_as_gsync; [exact PE | apply pit_ok_tA0, P | apply shut_ok_tA0, SH | rewrite tA0_now; exact Nw].
  - intros i. pose proof (srep_get _ _ _ _ i SR) as R.
    destruct (get_int s1 i) as [r|] eqn:G; [|rewrite R, (react_none _ _ _ PE); reflexivity].
    unfold g, c. rewrite (mem_hits s1 i r _ P G), (inv_pending s1 IS i r G).
    destruct (ev_hit_spec e i r (i_node r)) as [-> ->]. apply rturn_event; [exact PE|]. rewrite <- Nw. exact R.
Qed.

Lemma apply_shut_ok fe s e :
  plain_event e = true -> shut_ok s -> shut (apply fe s e) = shut s || is_shutdown e /\ shut_ok (apply fe s e).
Proof.
  intros PE SH. destruct e; try discriminate; cbn [apply is_shutdown]; rewrite ?orb_false_r; try (split; [reflexivity | exact SH]).
  1-2: split; [reflexivity|]; intros S; unfold do_data, do_nack; rewrite upd_all_pit; cbn [pit set_pit]; rewrite (SH S); reflexivity.
  - unfold do_shutdown. destruct (shut s) eqn:S; [split; [exact S | exact SH] | split; [reflexivity | intros _; reflexivity]].
  - unfold do_attach. destruct (al_mem name_eqb (fib s) p); (split; [reflexivity | exact SH]).
Qed.

Definition tie_sb (m : tie) : bool := match m with NoTie => false | _ => true end.
Definition tie_mid (m : tie) : bool := match m with Mid => true | _ => false end.

Lemma pre_as_tA0 fe m t s0 : pre fe m t s0 = tA0 (tie_mid m) t (settle fe (fire (tie_sb m) t s0)).
Proof. destruct m; reflexivity. Qed.

(* the simulation along a well-formed history, with what [wf_from] tracks: the ids in use (an id not yet used is one
   whose automaton has not started, hence one without a record), the time and whether the face has shut down *)
Definition sim (fe : frontend) (seen : list N) (tl : N) (sh : bool) (s : st) (sg : N -> istate) : Prop :=
  srep fe false s sg /\ shut_ok s /\ (forall i, ~ In i seen -> sg i = INone) /\ now s = tl /\ shut s = sh.

Lemma step_plain fe seen tl sh s sg m e :
  sim fe seen tl sh s sg -> tl <= ev_time e -> plain_event e = true ->
  sim fe seen (ev_time e) (sh || is_shutdown e) (step fe s (m, e)) (fun i => spec_step fe i (sg i) (m, e)).
Proof.
  intros (I & SH & SEEN & <- & <-) LE PE. unfold step. cbn [fst snd]. rewrite (N.max_r _ _ LE). set (t := ev_time e).
  rewrite pre_as_tA0. set (s1 := settle fe (fire (tie_sb m) t (set_now s t))).
  destruct (expiry_sim fe (tie_sb m) false t s sg I) as [I1 N1]. fold s1 in I1, N1.
  assert (I1' : srep fe true s1 (fun i => expire fe (tie_sb m) t (sg i))) by (destruct (tie_sb m); [exact I1 | apply srep_weaken, I1]).
  assert (SH1 : shut_ok s1) by (apply shut_ok_settle; exact SH).
  destruct (apply_shut_ok fe (tA0 (tie_mid m) t s1) e PE (shut_ok_tA0 _ _ _ SH1)) as [F2 SHa].
  destruct (step_event fe (tie_mid m) e s1 _ I1' SH1 N1 PE) as [M1 M3]. fold t in M1, M3.
  (* [M1] is about the automata [expire _ false t (react _ i (expire _ (tie_sb m) t (sg i)) e)], which is [spec_step] unfolded *)
  split; [exact M1 | split; [apply shut_ok_settle; exact SHa | split; [|split; [exact M3|]]]].
  - intros i NI. unfold spec_step. rewrite (SEEN i NI). cbn [expire snd]. rewrite (react_none _ _ _ PE). reflexivity.
  - change (shut (apply fe (tA0 (tie_mid m) t s1) e) = shut s || is_shutdown e). rewrite F2, tA0_shut. reflexivity.
Qed.

Definition quiet_rec (fe : frontend) (t : N) (i : N) (r : irec) : Prop :=
  fire_rec false t r = r /\ sv_rec fe i r = keep r /\ wants_cleanup r = false /\ ws_rec fe t i r = keep r.

Lemma rep_quiet fe t i r st : rep fe false t r st -> quiet_rec fe t i r.
Proof.
  destruct 1 as [? ? ? ? ? ? ? D|? ? ? ? ? ? ? _ D| |? ? ? ? ? ? ? ? ? ? ? ? ? va NS _];
    unfold quiet_rec, fire_rec, timer_due; cbn -[due]; rewrite ?D; try destruct va; try contradiction; repeat split.
Qed.

Lemma quiet_settle_fire fe s :
  (forall i r, In (i, r) (ints s) -> quiet_rec fe (now s) i r) ->
  (forall pn nid es, In (pn, (nid, es)) (pit s) -> es <> []) ->
  settle fe (fire false (now s) s) = s.
Proof.
  intros Q NE.
  assert (F : fire false (now s) s = s).
  { unfold fire. apply upd_all_id. intros i r I. destruct (Q i r I) as [E _]. rewrite E. reflexivity. }
  rewrite F. unfold settle.
  assert (S1 : upd_all (sv_rec fe) s = s). { apply upd_all_id. intros i r I. apply (Q i r I). }
  rewrite S1.
  assert (S2 : pit_map (fun pn nid e => negb (cleaning (ints s) pn nid e)) (pit s) = pit s).
  { rewrite (pit_map_ext _ (fun _ _ _ => true)); [apply pit_map_true; auto|].
    intros pn nid es e _ _. unfold cleaning. destruct (al_get N.eqb (ints s) (e_id e)) as [r|] eqn:G; auto.
    apply (al_get_some_in N.eqb N.eqb_eq) in G. destruct (Q _ _ G) as [_ [_ [W _]]]. rewrite W. reflexivity. }
  rewrite S2, set_pit_id. apply upd_all_id. intros i r I. apply (Q i r I).
Qed.

Lemma pflat_app p q : pflat (p ++ q) = pflat p ++ pflat q.
Proof. unfold pflat. apply flat_map_app. Qed.

Lemma al_set_absent (p : pit_t) n v : pit_get p n = None -> al_set name_eqb p n v = p ++ [(n, v)].
Proof. apply al_set_fresh. Qed.

Lemma step_notie fe s e :
  now s <= ev_time e ->
  step fe s (NoTie, e)
  = settle fe (fire false (ev_time e) (apply fe (settle fe (fire false (ev_time e) (set_now s (ev_time e)))) e)).
Proof. intros LE. unfold step. cbn [fst snd pre]. rewrite (N.max_r _ _ LE). reflexivity. Qed.

Lemma srep_insert fe s s' sg i r nid l :
  srep fe false s sg -> get_int s i = None ->
  match pit_get (pit s) (i_name r) with Some x => x = (nid, l) | None => l = [] end ->
  i_node r = nid -> rep fe false (now s) r (IPending (spec_of r)) ->
  map fst (ints s') = map fst (ints s) ++ [i] -> (forall j, get_int s' j = if j =? i then Some r else get_int s j) ->
  pit s' = al_set name_eqb (pit s) (i_name r) (nid, l ++ [entry_of i r]) -> now s' = now s ->
  srep fe false s' (fun j => if j =? i then IPending (spec_of r) else sg j).
Proof.
  intros [[K [[PK [PNE [PND PE]]] M]] R] G PG Nd Rk Ei G' Ep En. pose proof (rep_pendingb _ _ _ _ _ Rk) as Pb.
  (* the flattened PIT of [s'] is that of [s] plus the entry of [i]: every clause below is the clause of [s] plus that entry *)
  assert (ADD : Add (i_name r, nid, entry_of i r) (pflat (pit s)) (pflat (pit s')))
    by (rewrite Ep; apply pflat_express_Add, PG).
  pose proof (Add_map flat_id _ _ _ ADD) as ADDX. change (flat_id (i_name r, nid, entry_of i r)) with i in ADDX.
  assert (NI : ~ In i (map flat_id (pflat (pit s)))).
  { intros I1. apply in_map_iff in I1. destruct I1 as [[[pn nd] e] [X I1]]. destruct (PE pn nd e I1) as [r' [Gr _]].
    unfold flat_id in X; cbn in X. congruence. }
  split; [split; [|split; [split; [|split; [|split]]|]]|].
  - rewrite Ei. apply NoDup_snoc; [exact K | apply (al_get_none N.eqb N.eqb_eq), G].
  - rewrite Ep. apply (al_set_nodup name_eqb name_eqb_eq), PK.
  - intros pn nid' es I. rewrite Ep in I. apply (al_set_in name_eqb name_eqb_eq) in I. destruct I as [I|[_ E]]; [eapply PNE; eauto|].
    injection E as _ ->. destruct l; discriminate.
  - apply (NoDup_Add ADDX). split; auto.
  - intros pn nd e I. apply (Add_in ADD) in I. rewrite G'. destruct I as [E|I].
    + injection E as <- <- <-. cbn [e_id entry_of]. rewrite N.eqb_refl. eauto.
    + destruct (PE pn nd e I) as [r' [Gr X]].
      destruct (N.eqb_spec (e_id e) i) as [Y|Y]; [rewrite Y in Gr; congruence | eauto].
  - intros j r' Gj. rewrite G' in Gj. apply Bool.eq_iff_eq_true.
    rewrite pit_entries_flat, mem_In, (Add_in ADDX). cbn [In]. destruct (N.eqb_spec j i) as [->|NE].
    + injection Gj as <-. rewrite Pb. intuition.
    + rewrite <- (M j r' Gj), mem_In, pit_entries_flat. intuition congruence.
  - intros j. rewrite En, G'. destruct (j =? i); [exact Rk | apply R].
Qed.

Lemma await_fresh fe n cbp dig life vm t nid :
  0 < life ->
  await_rec fe t (fresh_rec n cbp dig life vm t nid) =
  mkI n cbp dig life (t + life) vm nid FPending WWaiting (t + life) false false VNone.
Proof.
  intros L. unfold await_rec, fresh_rec; cbn.
  destruct fe; cbn; (destruct (N.leb_spec (t + life) t); [lia | reflexivity]).
Qed.

(* Both steps happen at the time t the state has been brought to.  The record Express appends is inert until
   awaited, so the first step is its synchronous part; Await turns it into a waiting record, with which the state
   simulates the automata again, and the rest of the second step is an expiry turn. *)
Lemma step_express_await fe seen tl s sg i n cbp dig life vm t :
  sim fe seen tl false s sg -> tl <= t -> 0 < life -> ~ In i seen ->
  sim fe (i :: seen) t false (step fe (step fe s (NoTie, Express i n cbp dig life vm t)) (NoTie, Await i t))
    (fun j => spec_step fe j (spec_step fe j (sg j) (NoTie, Express i n cbp dig life vm t)) (NoTie, Await i t)).
Proof.
  intros (I & SH & SEEN & <- & S) LE L NS.
  destruct (expiry_sim fe false false t s sg I) as [I1 N1].
  rewrite (step_notie fe s (Express i n cbp dig life vm t) LE). cbn [ev_time apply].
  remember (settle fe (fire false t (set_now s t))) as s1 eqn:Hs1.
  assert (G1 : get_int s1 i = None) by (apply (srep_none _ _ _ _ _ I1); cbv beta; rewrite (SEEN i NS); reflexivity).
  assert (S1 : shut s1 = false) by (rewrite Hs1; exact S).
  destruct (do_express_frame fe s1 i n cbp dig life vm) as (_ & _ & _ & _ & En & Es & [[[X|X] _] | (_ & _ & nid & l & PG & Ei & Ep)]);
    [congruence ..|]. rewrite S1 in Es.
  remember (do_express fe s1 i n cbp dig life vm) as s2 eqn:Hs2. rewrite N1 in Ei, En.
  assert (Q2 : settle fe (fire false t s2) = s2).
  { rewrite <- En. apply quiet_settle_fire.
    - intros j r I2. rewrite Ei in I2. apply in_app_iff in I2. destruct I2 as [I2|[I2|[]]].
      + rewrite En, <- N1. apply (al_get_of_in N.eqb N.eqb_eq _ _ _ (inv_nodup s1 (srep_inv _ _ _ _ I1))) in I2.
        exact (rep_quiet _ _ _ _ _ (srep_rec _ _ _ _ j r I1 I2)).
      + injection I2 as <- <-. repeat split.
    - intros pn nid' es I2. rewrite Ep in I2. apply (al_set_in name_eqb name_eqb_eq) in I2. destruct I2 as [I2|[_ E]].
      + eapply (pit_ok_nonempty s1 (inv_pit_ok s1 (srep_inv _ _ _ _ I1))); eauto.
      + injection E as _ ->. destruct l; discriminate. }
  rewrite Q2, (step_notie fe s2 (Await i t)) by (rewrite En; apply N.le_refl). cbn [ev_time apply].
  replace (set_now s2 t) with s2 by (rewrite <- En; symmetry; apply set_now_id). rewrite Q2.
  pose (r3 := mkI n cbp dig life (t + life) vm nid FPending WWaiting (t + life) false false VNone).
  assert (I3 : srep fe false (do_await fe s2 i) (fun j => if j =? i then IPending (spec_of r3) else expire fe false t (sg j))).
  { apply (srep_insert fe s1 _ _ i r3 nid l I1 G1 PG eq_refl).
    - rewrite N1. apply rep_pending. unfold due. apply N.leb_gt. lia.
    - unfold do_await. rewrite ids_upd_all, Ei, map_app. reflexivity.
    - intros j. unfold do_await. rewrite get_int_upd_all, (get_int_snoc s1 s2 i _ G1 Ei j), En.
      destruct (j =? i); cbn [option_map f_rec only]; [rewrite (await_fresh fe n cbp dig life vm t nid L); reflexivity|].
      destruct (get_int s1 j); reflexivity.
    - exact Ep.
    - rewrite N1; exact En. }
  destruct (expiry_sim fe false false t _ _ I3) as [I' N'].
  assert (SN : set_now (do_await fe s2 i) t = do_await fe s2 i) by (rewrite <- En; apply (set_now_id (do_await fe s2 i))).
  rewrite SN in I', N'.
  split; [|split; [intros Sx; change (shut s2 = true) in Sx; congruence | split; [|split; [exact N' | exact Es]]]].
  - refine (srep_ext _ _ _ _ _ _ I'). intros j. symmetry. apply spec_express_await; [exact L|]. intros ->. apply SEEN, NS.
  - intros j NJ. rewrite spec_express_await by (exact L || (intros ->; apply SEEN, NS)).
    destruct (N.eqb_spec j i) as [->|_]; [destruct NJ; left; reflexivity|]. rewrite (SEEN j) by (intros X; apply NJ; right; exact X). reflexivity.
Qed.

(* Well-formed histories, the quantifier of the theorems of Properties/C03.v and C05.v:
   ids are fresh; every Express is immediately followed by its Await at the same time, both without tie; lifetimes
   are positive; times do not decrease; nothing is expressed after a Shutdown. *)
Fixpoint wf_from (seen : list N) (tl : N) (sh : bool) (h : list (tie * ev)) {struct h} : Prop :=
  match h with
  | [] => True
  | (m, e) :: rest =>
      match e with
      | Express i n cbp dig life vm t =>
          match rest with
          | (m', Await j t') :: h' =>
              m = NoTie /\ m' = NoTie /\ j = i /\ t' = t /\ tl <= t /\ 0 < life /\ ~ In i seen /\ sh = false /\
              wf_from (i :: seen) t sh h'
          | _ => False
          end
      | Await _ _ => False
      | _ => tl <= ev_time e /\ wf_from seen (ev_time e) (sh || is_shutdown e) rest
      end
  end.

Definition wf_history (h : list (tie * ev)) : Prop := wf_from [] 0 false h.

Lemma wf_from_plain seen tl sh m e rest :
  plain_event e = true -> wf_from seen tl sh ((m, e) :: rest) ->
  tl <= ev_time e /\ wf_from seen (ev_time e) (sh || is_shutdown e) rest.
Proof. destruct e; try discriminate; intros _ H; exact H. Qed.

(* the induction is on the length because an Express consumes its Await as well *)
Lemma refine_from fe : forall (h : list (tie * ev)) (s : st) sg seen tl sh,
  sim fe seen tl sh s sg -> wf_from seen tl sh h ->
  exists sg', (forall i, sg' i = fold_left (spec_step fe i) h (sg i)) /\ srep fe false (fold_left (step fe) h s) sg'.
Proof.
  induction h as [h IH] using (induction_ltof1 _ (@length _)). unfold ltof in IH. intros s sg seen tl sh S WF.
  destruct h as [|[m e] rest]; [exists sg; split; [reflexivity | exact (proj1 S)]|].
  rewrite fold_left_cons. destruct (plain_event e) eqn:PE.
  - destruct (wf_from_plain _ _ _ _ _ _ PE WF) as [LE WF'].
    destruct (IH rest (Nat.lt_succ_diag_r _) _ _ _ _ _ (step_plain fe seen tl sh s sg m e S LE PE) WF') as (sg' & E & R).
    exists sg'. split; [intros i; rewrite fold_left_cons; apply E | exact R].
  - destruct e as [i n cbp dig life vm t|j t| | | | | | | | | ]; try discriminate PE; [|destruct WF].
    cbn [wf_from] in WF. destruct rest as [|[m' e'] h']; [destruct WF|]. destruct e'; try (exfalso; exact WF).
    destruct WF as (-> & -> & -> & -> & LE & L & NS & -> & WF). rewrite fold_left_cons.
    destruct (IH h' (Nat.lt_lt_succ_r _ _ (Nat.lt_succ_diag_r _)) _ _ _ _ _
                (step_express_await fe seen tl s sg i n cbp dig life vm t S LE L NS) WF) as (sg' & E & R).
    exists sg'. split; [intros j; rewrite !fold_left_cons; apply E | exact R].
Qed.
