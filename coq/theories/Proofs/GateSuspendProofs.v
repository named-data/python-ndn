(* C05: suspended Interest validators and route changes (Model/GateSuspend.v): every handler call is justified by the
   attachment captured when the Interest arrived ([suspended_gate]); which Interests reach a handler although the
   validator did not accept them ([suspended_no_accept]). *)
From NDN Require Import Base.Prelude Spec.ExpressSpec Model.ExpressPipeline Model.GateSuspend Proofs.ListLemmas Proofs.ExpressBasics
  Proofs.ExpressGate.
Local Open Scope N_scope.

Lemma susp_take_in l kid x rest :
  susp_take l kid = Some (x, rest) -> In x l /\ (forall y, In y rest -> In y l).
Proof.
  revert x rest. induction l as [|a l IH]; intros x rest H; cbn [susp_take] in H; [discriminate|].
  destruct (fst a =? kid).
  - inversion H; subst. split; [left; reflexivity | intros y I; right; exact I].
  - destruct (susp_take l kid) as [[y r']|] eqn:T; [|discriminate]. inversion H; subst.
    destruct (IH _ _ eq_refl) as [I1 I2]. split; [right; exact I1|].
    intros z [E|I]; [left; exact E | right; apply I2; exact I].
Qed.

Lemma consults_pass fe dv f k p h hasv v :
  gate_consults fe dv f k = true -> lpm f (k_name k) = Some (p, (h, hasv)) -> pass fe v = true ->
  may_deliver fe (in_force fe hasv dv) (set_verdict k v) = true.
Proof.
  intros C L P. rewrite gate_consults_eq, L in C. apply andb_true_iff in C. destruct C as [C _].
  apply andb_true_iff in C. destruct C as [D ->]. apply may_deliver_accepted; assumption.
Qed.

Definition route_justified (fe : frontend) (att : list (N * (name * bool))) (h : N) (k : inc) : Prop :=
  exists p hasv dv, In (h, (p, hasv)) att /\ is_prefix p (k_name k) = true /\
                    may_deliver fe (in_force fe hasv dv) k = true.

Definition g_inv (fe : frontend) (s : gst) : Prop :=
  (forall p h hasv, In (p, (h, hasv)) (g_fib s) -> In (h, (p, hasv)) (g_att s)) /\
  (forall kid p h hasv k, In (kid, ((p, (h, hasv)), k)) (g_susp s) ->
     forall v, pass fe v = true -> route_justified fe (g_att s) h (set_verdict k v)) /\
  (forall h k, In (h, k) (g_hc s) -> route_justified fe (g_att s) h k).

Lemma g_inv_init fe : g_inv fe g_init.
Proof.
  split; [|split]; cbn [g_init g_fib g_susp g_hc].
  - intros p h hasv [].
  - intros kid p h hasv k [].
  - intros h k [].
Qed.

Lemma route_justified_mono fe att x h k : route_justified fe att h k -> route_justified fe (att ++ [x]) h k.
Proof. intros [p [hv [dv [I R]]]]. exists p, hv, dv. split; [apply in_or_app; left; exact I | exact R]. Qed.

Lemma lpm_justified fe s k p h hv :
  (forall p h hasv, In (p, (h, hasv)) (g_fib s) -> In (h, (p, hasv)) (g_att s)) ->
  lpm (g_fib s) (k_name k) = Some (p, (h, hv)) -> may_deliver fe (in_force fe hv (g_dflt s)) k = true ->
  route_justified fe (g_att s) h k.
Proof.
  intros F L M. destruct (lpm_in _ _ _ _ L) as [LI LP].
  exists p, hv, (g_dflt s). split; [apply F; exact LI|]. split; assumption.
Qed.

Lemma gate_call_justified fe s k h hv :
  (forall p h hasv, In (p, (h, hasv)) (g_fib s) -> In (h, (p, hasv)) (g_att s)) ->
  gate fe (g_dflt s) (g_fib s) k = Some (h, hv) -> route_justified fe (g_att s) h k.
Proof. intros F G. apply gate_iff in G. destruct G as [[p L] M]. exact (lpm_justified fe s k p h hv F L M). Qed.

Lemma hc_snoc fe att hc h k :
  (forall h' k', In (h', k') hc -> route_justified fe att h' k') -> route_justified fe att h k ->
  forall h' k', In (h', k') (hc ++ [(h, k)]) -> route_justified fe att h' k'.
Proof. intros H J h' k' I. apply in_app_iff in I. destruct I as [I|[E|[]]]; [auto | injection E as <- <-; exact J]. Qed.

Lemma g_inv_step fe s e : g_inv fe s -> g_inv fe (g_apply fe s e).
Proof.
  intros ALL. pose proof ALL as [F [S H]].
  destruct e as [p hasv | p | own | k sp | kid v]; cbn [g_apply].
  - destruct (al_mem name_eqb (g_fib s) p); [exact ALL|].
    split; [|split]; cbn [g_fib g_att g_susp g_hc].
    + intros p' h' hv' I. apply in_app_iff in I. apply in_or_app. destruct I as [I|[E|[]]].
      * left. apply F. exact I.
      * injection E as <- <- <-. right. left. reflexivity.
    + intros kid p' h' hv' k' I v P. apply route_justified_mono, (S _ _ _ _ _ I v P).
    + intros h k I. apply route_justified_mono. apply H. exact I.
  - split; [|split; [exact S | exact H]]. cbn [g_fib g_att].
    intros p' h' hv' I. apply F. eapply al_del_in. exact I.
  - exact ALL.
  - destruct (gate_consults fe (g_dflt s) (g_fib s) k && sp) eqn:C.
    + apply andb_true_iff in C. destruct C as [C _].
      destruct (lpm (g_fib s) (k_name k)) as [[p [h hv]]|] eqn:L; [|exact ALL].
      split; [exact F|]. split; [|exact H]. cbn [g_susp g_att].
      intros kid p' h' hv' k' I. apply in_app_iff in I. destruct I as [I|[E|[]]]; [exact (S _ _ _ _ _ I)|].
      injection E as _ <- <- <- <-. intros v P.
      exact (lpm_justified fe s (set_verdict k v) p h hv F L (consults_pass _ _ _ _ _ _ _ _ C L P)).
    + destruct (gate fe (g_dflt s) (g_fib s) k) as [[h hv]|] eqn:G; [|exact ALL].
      split; [exact F|]. split; [exact S|]. apply hc_snoc; [exact H | exact (gate_call_justified fe s k h hv F G)].
  - destruct (susp_take (g_susp s) kid) as [[[kid' [[p [h hv]] k]] rest]|] eqn:T; [|exact ALL].
    destruct (susp_take_in _ _ _ _ T) as [TI TR].
    pose proof (fun a b c d e I => S a b c d e (TR _ I)) as S'.
    destruct (pass fe v) eqn:P; (split; [exact F|]; split; [exact S'|]); [|exact H].
    apply hc_snoc; [exact H | exact (S _ _ _ _ _ TI v P)].
Qed.

Lemma g_inv_run fe evs : g_inv fe (g_run fe evs).
Proof. unfold g_run. apply fold_left_inv; [apply g_inv_step | apply g_inv_init]. Qed.

(* every handler call, in every history with suspended validators and route changes: the handler was attached at a
   prefix of the Interest's name, and the Interest passed the gate under the validator of THAT attachment (for a legacy
   route attached without one: under an application-wide default [dv], which the statement leaves open) *)
Theorem suspended_gate fe evs h k :
  In (h, k) (g_hc (g_run fe evs)) -> route_justified fe (g_att (g_run fe evs)) h k.
Proof. apply (g_inv_run fe evs). Qed.

(* handler ids name one attachment: they come from a counter, so none is handed out twice *)
Definition att_ok (s : gst) : Prop :=
  (forall h x, In (h, x) (g_att s) -> h < g_next s) /\ NoDup (map fst (g_att s)).

Lemma att_ok_step fe s e : att_ok s -> att_ok (g_apply fe s e).
Proof.
  intros [L U]. destruct e as [p hasv | p | own | k sp | kid v]; cbn [g_apply].
  - destruct (al_mem name_eqb (g_fib s) p); [split; assumption|]. split; cbn [g_att g_next].
    + intros h x I. apply in_app_iff in I. destruct I as [I|[E|[]]]; [apply L in I; lia | inversion E; subst; lia].
    + rewrite map_app. apply NoDup_snoc; [exact U|]. intros I. apply in_map_iff in I.
      destruct I as [[h x] [E I]]. cbn in E. subst h. apply L in I. lia.
  - split; assumption.
  - split; assumption.
  - destruct (gate_consults fe (g_dflt s) (g_fib s) k && sp).
    + destruct (lpm (g_fib s) (k_name k)); split; assumption.
    + destruct (gate fe (g_dflt s) (g_fib s) k) as [[? ?]|]; split; assumption.
  - destruct (susp_take (g_susp s) kid) as [[[? [[? [? ?]] ?]] ?]|]; [|split; assumption].
    destruct (pass fe v); split; assumption.
Qed.

Theorem att_functional fe evs h x y :
  In (h, x) (g_att (g_run fe evs)) -> In (h, y) (g_att (g_run fe evs)) -> x = y.
Proof.
  assert (A : att_ok (g_run fe evs)).
  { unfold g_run. apply fold_left_inv; [intros; apply att_ok_step; assumption | split; [intros ? ? [] | constructor]]. }
  intros I J. apply (al_get_of_in N.eqb N.eqb_eq _ _ _ (proj2 A)) in I. apply (al_get_of_in N.eqb N.eqb_eq _ _ _ (proj2 A)) in J. congruence.
Qed.

Theorem suspended_no_accept fe evs h k :
  In (h, k) (g_hc (g_run fe evs)) -> pass fe (k_verdict k) = false ->
  plain k = true \/
  (fe = V1 /\ k_digest_ok k = true /\
   (signed k = false \/ ((k_sig k =? 2) = false /\ exists p, In (h, (p, false)) (g_att (g_run fe evs))))).
Proof.
  intros I P. destruct (suspended_gate fe evs h k I) as (p & hasv & dv & IA & _ & M).
  destruct (may_deliver_no_accept _ _ _ M P) as [H|(F & D & H)]; [left; exact H|right].
  split; [exact F|]. split; [exact D|]. destruct H as [H|[O S]]; [left; exact H|right].
  split; [exact S|]. subst fe. unfold in_force in O. destruct hasv; [discriminate O|]. exists p. exact IA.
Qed.
