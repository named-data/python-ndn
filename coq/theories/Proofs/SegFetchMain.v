(* C19: the statements of Properties/C19.v, about the model, in the words of the property. *)
From NDN Require Import Base.Prelude Model.TlvVar Model.Name Model.SegFetch Spec.SegFetchSpec.
From NDN Require Import Proofs.SegFetchRefine Proofs.SegFetchHeadline.
Local Open Scope nat_scope.

Definition fetch (fuel : nat) (cfg : config) (S : scenario) : list bytes * ending :=
  observe (segment_fetcher fuel cfg (oracle_of S) (prefix S)).

Theorem fetch_refines S cfg fuel :
  wf_scenario S -> nseg (obj S) < fuel -> fetch fuel cfg S = expected S (retry_times cfg).
Proof. intros HW Hf. exact (proj1 (seg_fetch_refines S cfg (proj1 HW) HW fuel Hf)). Qed.

Theorem fetch_in_order_once S cfg fuel :
  wf_scenario S -> marked S -> nseg (obj S) < fuel ->
  (forall k, needed S k -> tolerable_explicit S (retry_times cfg) k) ->
  fetch fuel cfg S = (all_contents S, Completed).
Proof.
  intros HW HM Hf HT. rewrite fetch_refines by assumption.
  apply expected_all_tolerable; [exact HM|]. intros k Hk. apply tolerable_iff, HT, Hk.
Qed.

Theorem fetch_completes_iff S cfg fuel :
  wf_scenario S -> marked S -> nseg (obj S) < fuel ->
  (snd (fetch fuel cfg S) = Completed <-> forall k, needed S k -> tolerable_explicit S (retry_times cfg) k).
Proof.
  intros HW HM Hf. rewrite fetch_refines by assumption.
  rewrite (completes_iff_all_tolerable S (retry_times cfg) HM).
  split; intros H k Hk; apply tolerable_iff, H, Hk.
Qed.

Theorem fetch_timeout_iff S cfg fuel :
  wf_scenario S -> marked S -> nseg (obj S) < fuel -> no_faults S ->
  (snd (fetch fuel cfg S) = Raised XTimeout <-> exists k, needed S k /\ exhausted S (retry_times cfg) k).
Proof.
  intros HW HM Hf NF. rewrite fetch_refines by assumption.
  exact (timeout_iff_exhausted S (retry_times cfg) HM NF).
Qed.

Theorem fetch_first_failure S cfg fuel k :
  wf_scenario S -> marked S -> nseg (obj S) < fuel ->
  needed S k -> (forall k', needed S k' -> before k' k -> tolerable_explicit S (retry_times cfg) k') ->
  result_of S (retry_times cfg) k <> KAnswered ->
  fetch fuel cfg S = (contents_before S k, Raised (exc_of (result_of S (retry_times cfg) k))).
Proof.
  intros HW HM Hf Hk Hpre Hbad. rewrite fetch_refines by assumption.
  apply expected_first_failure; try assumption. intros k' Hn Hb. apply tolerable_iff, Hpre; assumption.
Qed.

Theorem fetch_timeout_after_earlier S cfg fuel k :
  wf_scenario S -> marked S -> nseg (obj S) < fuel ->
  needed S k -> (forall k', needed S k' -> before k' k -> tolerable_explicit S (retry_times cfg) k') ->
  exhausted S (retry_times cfg) k ->
  fetch fuel cfg S = (contents_before S k, Raised XTimeout).
Proof.
  intros HW HM Hf Hk Hpre He. apply exhausted_iff in He.
  rewrite (fetch_first_failure S cfg fuel k), He by (assumption || congruence). reflexivity.
Qed.

Definition fails_with (S : scenario) (retry : nat) (k : key) (x : exc) : Prop :=
  exists j, j < attempts_of retry /\ (forall j', j' < j -> fate_of S k j' = Lost) /\
            ((fate_of S k j = Nacked /\ x = XNack) \/ (fate_of S k j = Invalid /\ x = XValFail)).

Lemma fails_with_result S retry k x : fails_with S retry k x -> result_of S retry k = KFailed x.
Proof.
  intros (j & Hj & L & HF). unfold result_of.
  rewrite (burst_first _ _ j); [|lia|intros m' Hm'; apply L; lia|].
  - destruct HF as [[-> ->]|[-> ->]]; reflexivity.
  - destruct HF as [[E _]|[E _]]; rewrite E; discriminate.
Qed.

Theorem fetch_errors_propagate S cfg fuel k x :
  wf_scenario S -> marked S -> nseg (obj S) < fuel ->
  needed S k -> (forall k', needed S k' -> before k' k -> tolerable_explicit S (retry_times cfg) k') ->
  fails_with S (retry_times cfg) k x ->
  fetch fuel cfg S = (contents_before S k, Raised x).
Proof.
  intros HW HM Hf Hk Hpre HF. apply fails_with_result in HF.
  rewrite (fetch_first_failure S cfg fuel k), HF by (assumption || congruence). reflexivity.
Qed.

(* no segment designates itself final: every published segment is delivered, then the fetch asks for
   a segment that does not exist and ends with a timeout *)
Theorem fetch_unmarked S cfg fuel k :
  wf_scenario S -> disc S = DSeg k -> nseg (obj S) < fuel ->
  (forall i, i < nseg (obj S) -> is_final (obj S) i = false) ->
  (forall k, needed S k -> tolerable_explicit S (retry_times cfg) k) ->
  fetch fuel cfg S = (all_contents S, Raised XTimeout).
Proof.
  intros HW ED Hf HU HT. rewrite fetch_refines by assumption.
  assert (HT' : forall k, needed S k -> result_of S (retry_times cfg) k = KAnswered)
    by (intros k' Hk; apply tolerable_iff, HT, Hk).
  destruct HW as [_ HD]. rewrite ED in HD.
  rewrite (expected_from S _ (nseg (obj S)) k ED (HT' KDisc I)).
  - rewrite Nat.sub_diag. cbn [seq walk]. rewrite app_nil_r. unfold all_contents. rewrite ED. reflexivity.
  - unfold first_needed. rewrite ED. destruct k; lia.
  - intros t Ht. apply (HT' (KSeg t)). unfold needed. rewrite ED. lia.
  - exact HU.
Qed.

Definition interests (fuel : nat) (cfg : config) (S : scenario) : list request :=
  asked (fst (segment_fetcher fuel cfg (oracle_of S) (prefix S))).

Theorem fetch_asks S cfg fuel :
  wf_scenario S -> nseg (obj S) < fuel -> interests fuel cfg S = expected_asks S cfg.
Proof. intros HW Hf. exact (proj2 (seg_fetch_refines S cfg (proj1 HW) HW fuel Hf)). Qed.

(* every needed key, in order, receives its Interests (one more than the number of initial losses) and
   nothing else is ever asked: no segment is skipped, none is fetched twice *)
Theorem fetch_asks_in_order S cfg fuel k :
  wf_scenario S -> disc S = DSeg k -> well_marked (obj S) -> nseg (obj S) < fuel ->
  (forall k, needed S k -> tolerable_explicit S (retry_times cfg) k) ->
  interests fuel cfg S =
    asks_for S cfg KDisc (disc_req S cfg) ++
    flat_map (fun t => asks_for S cfg (KSeg t) (seg_req S cfg t)) (seq (first_needed S) (nseg (obj S) - first_needed S)).
Proof.
  intros HW ED (M1 & M2 & M3) Hf HT. rewrite fetch_asks by assumption.
  assert (HT' : forall t, first_needed S <= t < nseg (obj S) -> result_of S (retry_times cfg) (KSeg t) = KAnswered).
  { intros t Ht. apply tolerable_iff, HT. unfold needed. rewrite ED. exact Ht. }
  unfold expected_asks. rewrite (proj2 (tolerable_iff S _ KDisc) (HT KDisc I)). f_equal.
  unfold first_needed in *. rewrite ED in *.
  destruct (nseg (obj S)) as [|l]; [lia|]. rewrite Nat.sub_succ, Nat.sub_0_r in M2, M3.
  destruct k as [|k'].
  - rewrite Nat.sub_succ, Nat.sub_0_r. destruct l as [|l'].
    + rewrite M2. reflexivity.
    + rewrite M3 by lia. apply walk_asks_complete; [|apply HT'; lia|exact M2].
      intros t Ht. split; [apply HT'|apply M3]; lia.
  - rewrite Nat.sub_0_r. apply walk_asks_complete; [|apply HT'; lia|exact M2].
    intros t Ht. split; [apply HT'|apply M3]; lia.
Qed.

(* non-vacuity: a concrete scenario satisfying the hypotheses *)

Definition ex_base : name := [[8; 1; 97]%N].
Definition ex_obj : object :=
  mkObj ex_base 3 (fun i => [N.of_nat i; 7]%N) (fun i => if Nat.eqb i 2 then Some (seg_comp 2) else None).
Definition ex_fate (k : key) (n : nat) : fate :=
  match k with
  | KDisc => if Nat.ltb n 1 then Lost else Delivered
  | KSeg O => if Nat.ltb n 2 then Lost else Delivered
  | KSeg _ => Delivered
  end.
Definition ex_scn : scenario := mkScn ex_obj ex_base (DSeg 1) ex_fate.
Definition ex_cfg : config := mkCfg 3 4000 true.

Lemma ex_wf : wf_scenario ex_scn.
Proof. split; [reflexivity|cbn; lia]. Qed.
Lemma ex_marked : marked ex_scn.
Proof.
  cbn. split; [cbn; lia|]. split; [vm_compute; reflexivity|].
  intros i Hi. cbn in Hi. assert (i = 0 \/ i = 1) as [->| ->] by lia; vm_compute; reflexivity.
Qed.
Lemma ex_tolerable k : needed ex_scn k -> tolerable_explicit ex_scn 3 k.
Proof.
  intros Hk. apply tolerable_iff. destruct k as [|i]; [reflexivity|].
  cbn in Hk. assert (i = 0 \/ i = 1 \/ i = 2) as [->|[->| ->]] by lia; reflexivity.
Qed.
Lemma ex_runs : fetch 4 ex_cfg ex_scn = ([[0; 7]; [1; 7]; [2; 7]]%N, Completed).
Proof. vm_compute. reflexivity. Qed.

Lemma ex_interests :
  map rq_cbp (interests 4 ex_cfg ex_scn) = [true; true; false; false; false; false; false] /\
  map (fun q => last (rq_name q) []) (interests 4 ex_cfg ex_scn) =
    [[8; 1; 97]; [8; 1; 97]; seg_comp 0; seg_comp 0; seg_comp 0; seg_comp 1; seg_comp 2]%N.
Proof. split; vm_compute; reflexivity. Qed.

Lemma ex_exhausted : exhausted ex_scn 2 (KSeg 0).
Proof. intros j Hj. cbn in Hj. assert (j = 0 \/ j = 1) as [->| ->] by lia; reflexivity. Qed.
Lemma ex_timeout : fetch 4 (mkCfg 2 4000 true) ex_scn = ([], Raised XTimeout).
Proof. vm_compute. reflexivity. Qed.

Definition ex_scn_nack : scenario :=
  mkScn ex_obj ex_base (DSeg 0) (fun k n => match k with KSeg 1 => if Nat.ltb n 1 then Lost else Nacked | _ => Delivered end).
Lemma ex_fails : fails_with ex_scn_nack 3 (KSeg 1) XNack.
Proof.
  exists 1. split; [cbn; lia|]. split; [intros j' Hj'; assert (j' = 0) as -> by lia; reflexivity|].
  left. split; reflexivity.
Qed.
Lemma ex_nack : fetch 4 ex_cfg ex_scn_nack = ([[0; 7]]%N, Raised XNack).
Proof. vm_compute. reflexivity. Qed.

Definition ex_scn_unmarked : scenario :=
  mkScn (mkObj ex_base 2 (fun i => [N.of_nat i]) (fun _ => None)) ex_base (DSeg 1) (fun _ _ => Delivered).
Lemma ex_unmarked : fetch 3 ex_cfg ex_scn_unmarked = ([[0]; [1]]%N, Raised XTimeout).
Proof. vm_compute. reflexivity. Qed.
