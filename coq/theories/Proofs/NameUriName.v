(* Name-level URI round trips: from_str (to_str n) = n and from_str (to_canonical_uri n) = n. *)
From NDN Require Import Base.Prelude Proofs.BytesLemmas Base.Text Model.TlvVar Model.Name
  Proofs.TextProofs Proofs.NameWire Proofs.NameUri.
Local Open Scope N_scope.

(* what the name-level argument needs from a component renderer [f] *)
Definition renders (f : bytes -> res str) (c : bytes) (p : str) : Prop :=
  f c = Ok p /\ forallb in_charset p = true /\ comp_from_str p = Ok c /\ (p = [] <-> c = [8; 0]).
Definition part_ok (f : bytes -> res str) (c : bytes) : Prop := exists p, renders f c p.

Lemma rmap_parts f n : Forall (part_ok f) n -> exists parts, rmap f n = Ok parts /\ Forall2 (renders f) n parts.
Proof.
  intros (parts & F)%forall2_ex. exists parts. split; [|exact F].
  apply rmap_ok_iff. revert F. apply forall2_impl. now intros c p (H & _).
Qed.

Lemma escape_str_id p : forallb in_charset p = true -> escape_str p = Ok p.
Proof.
  induction p as [|c p IH]; intros H; [reflexivity|]. cbn [forallb] in H. apply andb_true_iff in H.
  destruct H as [Hc Hp]. cbn [escape_str]. unfold escape_chr. rewrite Hc. cbn [bind]. rewrite IH by exact Hp. reflexivity.
Qed.

Lemma rmap_back f n parts :
  Forall2 (renders f) n parts -> rmap (fun s => do e <- escape_str s ;; comp_from_str e) parts = Ok n.
Proof.
  induction 1 as [|c p n parts (H1 & H2 & H3 & _) _ IH]; [reflexivity|].
  cbn [rmap]. rewrite escape_str_id by exact H2. cbn [bind]. rewrite H3. cbn [bind]. rewrite IH. reflexivity.
Qed.

Lemma strip_last_slash_snoc s : strip_last_slash (s ++ [47]) = (s, true).
Proof. unfold strip_last_slash. rewrite rev_app_distr. cbn [rev app]. rewrite rev_involutive. reflexivity. Qed.

Lemma strip_last_slash_none s x : x <> 47 -> strip_last_slash (s ++ [x]) = (s ++ [x], false).
Proof.
  intros Hx. unfold strip_last_slash. rewrite rev_app_distr. cbn [rev app].
  (* the pattern 47 is a match on the binary digits of [x] *)
  destruct x as [|p]; [reflexivity|]. repeat (destruct p as [p|p|]; try reflexivity). congruence.
Qed.

Lemma parts_noslash f n parts :
  Forall2 (renders f) n parts -> Forall (fun p => forallb (fun c => negb (c =? 47)) p = true) parts.
Proof.
  induction 1 as [|c p n parts (_ & H2 & _) _ IH]; constructor; [exact (forallb_avoid 47 H2 eq_refl)|exact IH].
Qed.

Lemma name_from_str_slash r :
  name_from_str (47 :: r) =
  let '(v2, c2) := strip_last_slash r in
  match v2 with
  | [] => if c2 then rmap (fun s => do e <- escape_str s ;; comp_from_str e) (split_on 47 v2) else Ok []
  | _ => rmap (fun s => do e <- escape_str s ;; comp_from_str e) (split_on 47 v2)
  end.
Proof. unfold name_from_str. destruct (strip_last_slash r) as [v2 c2]. reflexivity. Qed.

Lemma join_snoc_last sep ps p x : exists s, join_with sep (ps ++ [p ++ [x]]) = s ++ [x].
Proof.
  induction ps as [|a ps (s & E)]; [now exists p|]. exists (a ++ sep :: s).
  rewrite <- app_assoc. cbn [app]. rewrite <- E. now destruct ps.
Qed.

Theorem render_roundtrip f n :
  Forall (part_ok f) n -> (do u <- name_render f n ;; name_from_str u) = Ok n.
Proof.
  intros H. destruct (rmap_parts f n H) as (parts & E & F). unfold name_render. rewrite E. cbn [bind].
  pose proof (rmap_back f _ _ F) as Hback. pose proof (parts_noslash f _ _ F) as Hns.
  destruct n as [|lastc rn _] using rev_ind.
  - inversion F; subst. reflexivity.
  - rewrite rev_app_distr. cbn [rev app].
    (* [B := list N], not [str], so that the parts are written as [join_snoc_last] writes them *)
    destruct (forall2_snoc_inv (B := list N) _ _ _ _ F) as (ps' & lastp & -> & _ & (_ & Hcs & _ & Hemp)).
    assert (Sp : split_on 47 (join_with 47 (ps' ++ [lastp])) = ps' ++ [lastp])
      by (apply split_join; [destruct ps'; discriminate|exact Hns]).
    destruct (bytes_eqb lastc [8; 0]) eqn:Eb.
    + (* the empty generic component is rendered as an empty part and marked by a final "/" *)
      apply bytes_eqb_spec, Hemp in Eb. subst lastp. cbn [bind app].
      rewrite name_from_str_slash, strip_last_slash_snoc, Sp. destruct (join_with 47 _); exact Hback.
    + cbn [bind]. rewrite name_from_str_slash.
      assert (Hlp : lastp <> []) by (intros ->; rewrite (proj1 Hemp eq_refl) in Eb; discriminate).
      destruct (exists_last Hlp) as (lp' & x & ->).
      assert (Hx : x <> 47).
      { rewrite forallb_app in Hcs. apply andb_true_iff in Hcs as [_ Hx]. intros ->. discriminate. }
      destruct (join_snoc_last 47 ps' lp' x) as (s & Ej). rewrite Ej.
      rewrite strip_last_slash_none by exact Hx. rewrite <- Ej, Sp, Ej.
      destruct (s ++ [x]) eqn:Es; [destruct s; discriminate|exact Hback].
Qed.

Definition uri_comp (c : bytes) : Prop :=
  exists t v, c = comp_enc t v /\ valid_type t /\ wf_bytes v /\ N.of_nat (length v) < two64.

Definition uri_comp_num (c : bytes) : Prop :=
  exists t v, c = comp_enc t v /\ valid_type t /\ wf_bytes v /\ N.of_nat (length v) < two64
              /\ (is_alt_type t = true -> nni_len_ok (length v) = true -> exists m, m < two64 /\ v = nni_enc m).

Lemma rendering_part_ok f t v p :
  valid_type t -> wf_bytes v -> N.of_nat (length v) < two64 ->
  f (comp_enc t v) = Ok p -> rendering t v p -> renders f (comp_enc t v) p.
Proof.
  intros Ht Hv Hl E R.
  split; [exact E|split; [exact (rendering_charset t v p Hv R)|split; [exact (comp_from_str_rendering t v p Hv R)|]]].
  rewrite (rendering_empty t v p R). split; [intros [-> ->]; reflexivity|].
  (* [8; 0] is the encoding of the empty generic component *)
  apply (comp_enc_inj t v 8 []); [apply valid_type_small, Ht|exact Hl|reflexivity|reflexivity].
Qed.

Lemma canonical_part_ok c : uri_comp c -> part_ok comp_to_canonical_uri c.
Proof.
  intros (t & v & -> & Ht & Hv & Hl). exists (uri_body t v).
  apply rendering_part_ok; try assumption; [|now apply uri_body_rendering].
  apply comp_to_canonical_uri_enc; [apply valid_type_small, Ht|exact Hl].
Qed.

(* C09: canonical URI round trip for every name *)
Theorem name_canonical_uri_roundtrip n :
  Forall uri_comp n -> (do u <- name_to_canonical_uri n ;; name_from_str u) = Ok n.
Proof.
  intros H. apply render_roundtrip. eapply Forall_impl; [|exact H]. apply canonical_part_ok.
Qed.

Lemma shorthand_part_ok c : uri_comp_num c -> part_ok comp_to_str c.
Proof.
  intros (t & v & -> & Ht & Hv & Hl & Hcanon). exists (to_str_body t v).
  apply rendering_part_ok; try assumption; [|now apply to_str_rendering].
  apply comp_to_str_enc; [apply valid_type_small, Ht|exact Hl].
Qed.

(* C09: URI round trip (with naming-convention shorthands) for every name whose typed numbers
   are canonically encoded *)
Theorem name_uri_roundtrip n :
  Forall uri_comp_num n -> (do u <- name_to_str n ;; name_from_str u) = Ok n.
Proof.
  intros H. apply render_roundtrip. eapply Forall_impl; [|exact H]. apply shorthand_part_ok.
Qed.
