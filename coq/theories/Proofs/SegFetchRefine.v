(* C19: the model run against the oracle of a scenario yields [expected] and asks
   [expected_asks]. *)
From NDN Require Import Base.Prelude Model.TlvVar Model.Name Model.SegFetch Spec.SegFetchSpec.
From NDN Require Import Proofs.ListLemmas Proofs.BytesLemmas Proofs.SegFetchBasics Proofs.SegFetchHeadline.
Local Open Scope nat_scope.

Definition fate_answer (d : data) (x : fate) : response :=
  match x with
  | Lost => RExc XTimeout | Nacked => RExc XNack | Invalid => RExc XValFail
  | Delivered => rdata d
  end.

Definition key_outcome (d : data) (r : key_result) : exc + data :=
  match r with KExhausted => inl XTimeout | KFailed x => inl x | KAnswered => inr d end.

(* [retry] stops after the Interest it has just sent: the goal of [retry_fates] in those cases, whatever the answer [r]
   and the result [res] *)
Lemma retry_stops (o : oracle) rq r (res : exc + data) :
  exists o1 ev,
    (shift o rq, [EvAsk rq r], res) = (o1, ev, res) /\
    yields ev = [] /\ asked ev = repeat rq 1 /\ forall r' n, req_eqb r' rq = false -> o1 r' n = o r' n.
Proof. exists (shift o rq), [EvAsk rq r]. repeat split. apply shift_other. Qed.

Lemma retry_fates d f b : forall o rq n0,
  (forall n, o rq n = fate_answer d (f (n0 + n))) ->
  exists o1 ev,
    retry b o rq = (o1, ev, key_outcome d (burst f n0 (attempts_of b))) /\
    yields ev = [] /\ asked ev = repeat rq (burst_len f n0 (attempts_of b)) /\
    forall r n, req_eqb r rq = false -> o1 r n = o r n.
Proof.
  destruct d as [[nm c] fb]. induction b as [|[|b'] IH]; intros o rq n0 Ho.
  (* budgets 0 and 1: a single attempt, whatever its fate *)
  1, 2: cbn [retry attempts_of Nat.max burst burst_len]; rewrite (Ho 0), Nat.add_0_r;
    destruct (f n0); exact (retry_stops o rq _ _).
  change (attempts_of (S (S b'))) with (S (attempts_of (S b'))).
  rewrite retry_SS, (Ho 0), Nat.add_0_r. cbn [burst burst_len].
  destruct (f n0); cbn [fate_answer rdata fst snd]; [|exact (retry_stops o rq _ _)..].
  (* lost: the loop goes on with the shifted oracle, whose answers are the fates from n0 + 1 on *)
  destruct (IH (shift o rq) rq (S n0)) as (o1 & ev & -> & Y & A & RO).
  { intros n. rewrite shift_same, Ho, Nat.add_succ_r. reflexivity. }
  exists o1, (EvAsk rq (RExc XTimeout) :: ev). split; [reflexivity|]. split; [exact Y|]. split.
  - cbn [asked repeat]. rewrite A. reflexivity.
  - intros r n H. rewrite RO by exact H. apply shift_other, H.
Qed.

Lemma oracle_of_key S rq k n : key_of S rq = Some k -> oracle_of S rq n = fate_answer (data_of S k) (fate_of S k n).
Proof. intros H. unfold oracle_of. rewrite H. destruct (fate_of S k n); reflexivity. Qed.

Lemma oracle_of_nokey S rq n : key_of S rq = None -> oracle_of S rq n = RExc XTimeout.
Proof. intros H. unfold oracle_of. rewrite H. reflexivity. Qed.

Section Refine.
  Variable S : scenario.
  Variable cfg : config.
  Hypothesis HN : (N.of_nat (nseg (obj S)) < two64)%N.

  Notation seg_req := (SegFetchSpec.seg_req S cfg).
  Notation disc_req := (SegFetchSpec.disc_req S cfg).

  Lemma key_of_disc : key_of S disc_req = Some KDisc.
  Proof. unfold key_of, disc_req, mk_req. cbn [rq_cbp rq_name]. rewrite name_eqb_refl. reflexivity. Qed.

  Lemma seg_name_eqb i j :
    i <= nseg (obj S) -> j <= nseg (obj S) ->
    name_eqb (seg_name (obj S) i) (seg_name (obj S) j) = Nat.eqb i j.
  Proof.
    intros Hi Hj. destruct (Nat.eqb_spec i j) as [->|Hne]; [apply name_eqb_refl|].
    destruct (name_eqb _ _) eqn:E; [|reflexivity]. apply name_eqb_spec in E.
    apply seg_name_inj in E; [contradiction|lia|lia].
  Qed.

  Lemma key_of_seg j : j < nseg (obj S) -> key_of S (seg_req j) = Some (KSeg j).
  Proof.
    intros Hj. unfold key_of, seg_req, mk_req. cbn [rq_cbp rq_name].
    rewrite (find_seq_some _ j); [reflexivity|lia| |].
    - apply name_eqb_refl.
    - intros i Hi. rewrite seg_name_eqb by lia. apply Nat.eqb_neq. lia.
  Qed.

  Lemma key_of_past : key_of S (seg_req (nseg (obj S))) = None.
  Proof.
    unfold key_of, seg_req, mk_req. cbn [rq_cbp rq_name].
    rewrite find_seq_none; [reflexivity|].
    intros i Hi. rewrite seg_name_eqb by lia. apply Nat.eqb_neq. lia.
  Qed.

  Lemma seg_req_neq i j : i <= nseg (obj S) -> j <= nseg (obj S) -> i <> j -> req_eqb (seg_req i) (seg_req j) = false.
  Proof.
    intros Hi Hj Hne. apply (eqb_neq' _ req_eqb_spec). intros E. injection E as E.
    apply seg_name_inj in E; [contradiction|lia|lia].
  Qed.

  Lemma seg_disc_neq j : req_eqb (seg_req j) disc_req = false.
  Proof. apply (eqb_neq' _ req_eqb_spec). discriminate. Qed.

  Lemma retry_key o rq k :
    key_of S rq = Some k -> (forall n, o rq n = oracle_of S rq n) ->
    exists o1 ev,
      retry (retry_times cfg) o rq = (o1, ev, key_outcome (data_of S k) (result_of S (retry_times cfg) k)) /\
      yields ev = [] /\ asked ev = asks_for S cfg k rq /\
      forall r n, req_eqb r rq = false -> o1 r n = o r n.
  Proof. intros Hk Ho. apply retry_fates. intros n. rewrite Ho. apply oracle_of_key, Hk. Qed.

  Lemma retry_nokey o rq :
    key_of S rq = None -> (forall n, o rq n = oracle_of S rq n) ->
    exists o1 ev,
      retry (retry_times cfg) o rq = (o1, ev, inl XTimeout) /\
      yields ev = [] /\ asked ev = repeat rq (attempts_of (retry_times cfg)) /\
      forall r n, req_eqb r rq = false -> o1 r n = o r n.
  Proof.
    intros Hk Ho.
    destruct (retry_fates ([], [], None) (fun _ => Lost) (retry_times cfg) o rq 0) as (o1 & ev & E & Y & A & RO).
    { intros n. rewrite Ho. apply oracle_of_nokey, Hk. }
    rewrite burst_lost in E by reflexivity. rewrite burst_len_lost in A by reflexivity.
    exists o1, ev. auto.
  Qed.

  (* the "Following Interests" loop from segment i on, when [len] published segments remain *)
  Lemma seg_loop_walk : forall len i fuel o c,
    len < fuel -> i + len = nseg (obj S) ->
    (forall j n, i <= j <= nseg (obj S) -> o (seg_req j) n = oracle_of S (seg_req j) n) ->
    let r := seg_loop fuel cfg o (base (obj S) ++ [c]) (N.of_nat i) in
    observe r = walk S (retry_times cfg) (seq i len) /\ asked (fst r) = walk_asks S cfg i len.
  Proof.
    induction len as [|len IH]; intros i [|f] o c Hf Hi Ho; try lia; cbv zeta;
      cbn [seg_loop]; rewrite comp_from_segment_ok by lia; rewrite set_last_snoc;
      change (mk_req cfg (base (obj S) ++ [seg_comp i]) false) with (seg_req i).
    - (* asking for the segment after the last published one *)
      destruct (retry_nokey o (seg_req i)) as (o1 & ev & -> & Y & A & _).
      { replace i with (nseg (obj S)) by lia. apply key_of_past. }
      { intros n. apply Ho. lia. }
      unfold observe. cbn [fst snd]. rewrite Y. split; [reflexivity|exact A].
    - destruct (retry_key o (seg_req i) (KSeg i)) as (o1 & ev & -> & Y & A & RO).
      { apply key_of_seg. lia. }
      { intros n. apply Ho. lia. }
      cbn [seq walk walk_asks]. destruct (result_of S (retry_times cfg) (KSeg i)); cbn [key_outcome].
      1, 2: unfold observe; cbn [fst snd]; rewrite Y, A, app_nil_r; split; reflexivity.
      cbn [data_of seg_data]. rewrite last_comp_seg.
      fold (is_final (obj S) i). destruct (is_final (obj S) i).
      + unfold observe. cbn [fst snd]. rewrite yields_app, asked_yield, Y, A, app_nil_r. split; reflexivity.
      + destruct (IH (Datatypes.S i) f o1 (seg_comp i)) as [IHw IHa]; [lia|lia| |].
        { intros j n Hj. rewrite RO by (apply seg_req_neq; lia). apply Ho. lia. }
        replace (N.of_nat i + 1)%N with (N.of_nat (Datatypes.S i)) by lia. unfold seg_name.
        rewrite observe_after, asked_after, yields_app, asked_yield, Y, A, IHw, IHa.
        destruct (walk S (retry_times cfg) (seq (Datatypes.S i) len)) as [ys e]. split; reflexivity.
  Qed.

  Hypothesis HW : wf_scenario S.

  Theorem seg_fetch_refines fuel :
    nseg (obj S) < fuel ->
    let r := segment_fetcher fuel cfg (oracle_of S) (prefix S) in
    observe r = expected S (retry_times cfg) /\ asked (fst r) = expected_asks S cfg.
  Proof.
    intros Hf. cbv zeta. unfold segment_fetcher, expected, expected_asks.
    change (mk_req cfg (prefix S) true) with disc_req.
    destruct (retry_key (oracle_of S) disc_req KDisc key_of_disc (fun n => eq_refl)) as (o1 & ev & -> & Y & A & RO).
    destruct (result_of S (retry_times cfg) KDisc); cbn [key_outcome].
    1, 2: unfold observe; cbn [fst snd]; rewrite Y, A, app_nil_r; split; reflexivity.
    assert (Hinv : forall j n, o1 (seg_req j) n = oracle_of S (seg_req j) n)
      by (intros j n; apply RO, seg_disc_neq).
    destruct HW as [_ HD]. cbn [data_of]. destruct (disc S) as [k|nm c m].
    - cbn [seg_data]. rewrite last_comp_seg, seg_comp_type.
      replace (negb (TYPE_SEGMENT =? TYPE_SEGMENT)%N) with false by reflexivity.
      rewrite seg_comp_number by lia. unfold seg_name.
      destruct k as [|k'].
      + replace (N.of_nat 0 =? 0)%N with true by reflexivity.
        fold (is_final (obj S) 0). destruct (is_final (obj S) 0).
        * unfold observe. cbn [fst snd]. rewrite yields_app, asked_yield, Y, A, app_nil_r. split; reflexivity.
        * destruct (seg_loop_walk (nseg (obj S) - 1) 1 fuel o1 (seg_comp 0)) as [Lw La]; [lia|lia|intros j n _; apply Hinv|].
          change 1%N with (N.of_nat 1).
          rewrite observe_after, asked_after, yields_app, asked_yield, Y, A, Lw, La.
          destruct (walk S (retry_times cfg) (seq 1 (nseg (obj S) - 1))) as [ys e]. split; reflexivity.
      + replace (N.of_nat (Datatypes.S k') =? 0)%N with false by lia.
        destruct (seg_loop_walk (nseg (obj S)) 0 fuel o1 (seg_comp (Datatypes.S k'))) as [Lw La];
          [lia|lia|intros j n _; apply Hinv|].
        change 0%N with (N.of_nat 0).
        rewrite observe_after, asked_after, Y, A, Lw, La.
        destruct (walk S (retry_times cfg) (seq 0 (nseg (obj S)))) as [ys e]. split; reflexivity.
    - destruct HD as (t & Ht & Hne). destruct (last_comp nm) as [lc|e]; [|discriminate].
      cbn [bind] in Ht. rewrite Ht.
      replace (negb (t =? TYPE_SEGMENT)%N) with true by (symmetry; apply negb_true_iff, N.eqb_neq, Hne).
      unfold observe. cbn [fst snd]. rewrite yields_app, asked_yield, Y, A, app_nil_r. split; reflexivity.
  Qed.
End Refine.
