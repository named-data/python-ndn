(* The whole of RuleChain replication against Spec/LvsSem.expand: on the rules of a sorted schema the pass cannot fail, and
   afterwards the chains stored for a rule identifier are exactly (up to [represents]) the expansions of the definitions
   with that identifier. *)
From NDN Require Import Base.Prelude Model.LvsAst Model.LvsChecker Model.LvsCompiler Spec.LvsSem Proofs.ListLemmas
  Proofs.LvsTraverse Proofs.LvsNumbering Proofs.LvsReplicate Proofs.LvsRepresents Proofs.LvsSimB.
Local Open Scope N_scope.

Section Whole.
  Variable S' : lvsfile.                     (* the schema the expansions are taken in *)
  Variable named : list (ident * N).
  Variable kfinal : N.
  Variable K' : nat.
  Hypothesis Hinj : forall p q t, al_get ident_eqb named p = Some t -> al_get ident_eqb named q = Some t -> p = q.
  Hypothesis Hnt : forall p n, al_get ident_eqb named p = Some n -> is_temp_pat p = false /\ 1 <= n.
  Hypothesis Hkf : 1 <= kfinal.
  Hypothesis Hstable : forall d, In d S' -> expand (Datatypes.S K') S' d = expand K' S' d.

  Variable sorted : list rule.
  Variable nrules : list nrule.
  Hypothesis Hsub : forall d, In d sorted -> In d S'.
  Hypothesis Hdef : forall d x, In d S' -> In (CRef x) (r_name d) -> defs_of S' x <> [].
  Hypothesis Hearlier : forall l1 r l2 x d', sorted = l1 ++ r :: l2 -> In (CRef x) (r_name r) -> In d' (defs_of S' x) -> In d' l1.

  Definition stands (l1 : list rule) (k : N) (x : ident) (rc : chain) : Prop :=
    exists d f, In d l1 /\ r_id d = x /\ In f (expand K' S' d) /\ represents named rc f /\ rchain_ok k rc /\ chain_from nrules rc /\
                ch_id rc = x /\ ch_sign rc = isort str_leb (r_sign d).

  Lemma stands_id l1 k x rc : stands l1 k x rc -> ch_id rc = x.
  Proof. intros (d & f & _ & _ & _ & _ & _ & _ & Hid & _). exact Hid. Qed.

  (* after the rules l1: the table holds, under each identifier, exactly the expansions of its definitions in l1 *)
  Record rep_inv (l1 : list rule) (rep : list (ident * list chain)) (k : N) : Prop := {
    ri_k : kfinal <= k;
    ri_keys : forall d, In d l1 -> In (r_id d) (map fst rep);
    ri_sound : forall x chs rc, In (x, chs) rep -> In rc chs -> stands l1 k x rc;
    ri_complete : forall d f, In d l1 -> In f (expand K' S' d) ->
      exists chs rc, al_get ident_eqb rep (r_id d) = Some chs /\ In rc chs /\ represents named rc f /\
                     ch_sign rc = isort str_leb (r_sign d)
  }.

  Lemma rule_step l1 r l2 nr rep k :
    sorted = l1 ++ r :: l2 -> In nr nrules -> nrule_num named kfinal r nr ->
    rep_inv l1 rep k -> exists rep' k', rstep (rep, k) nr = Ok (rep', k') /\ rep_inv (l1 ++ [r]) rep' k'.
  Proof.
    intros Es Hnrin (Hid & Hsg & tp & (Hnum & _ & k0 & k1 & Hk0 & Hk1 & Htp) & Hcons) [Hk Hkeys Hsound Hcomplete]. cbn [fst snd] in Hnum, Htp.
    assert (HrS : In r S') by (apply Hsub; rewrite Es; apply in_elt).
    (* the table offers rule_sim, for a reference to x, only expansions of definitions of x, and all of them *)
    edestruct (fun Hs Hc Hh => rule_sim S' named kfinal K' Hinj Hnt Hkf nrules r nr Hnrin tp k0 k1 Hk1 Htp Hnum rep k Hk Hcons Hs Hc Hh)
      as (cur' & k2 & E & Hk2 & Hsnd & Hcmp).
    { intros x chs rcx Hg Hin. apply (al_get_some_in ident_eqb ident_eqb_eq) in Hg. destruct (Hsound x chs rcx Hg Hin) as (d & f & Hd & Hdx & Hf & Hrep & Hok & Hfr & _).
      exists f. split; [|auto]. apply in_flat_map. exists d. split; [|exact Hf].
      unfold defs_of. apply filter_In. split; [apply Hsub; rewrite Es; apply in_or_app; left; exact Hd | apply ident_eqb_eq; exact Hdx]. }
    { intros x Hx fx Hfx. apply in_flat_map in Hfx. destruct Hfx as (d' & Hd' & Hf).
      pose proof (Hearlier l1 r l2 x d' Es Hx Hd') as Hin. destruct (Hcomplete d' fx Hin Hf) as (chs & rc & Hg & Hrc & Hrep & _).
      unfold defs_of in Hd'. apply filter_In in Hd'. destruct Hd' as [_ Hidd]. apply ident_eqb_eq in Hidd. rewrite Hidd in Hg. eauto. }
    { (* a rule referred to has a definition, that definition stands earlier, so its identifier is a key *)
      intros x Hx. apply (comp_num_ref _ _ _ _ Hnum) in Hx. pose proof (Hdef r x HrS Hx) as Hne.
      destruct (defs_of S' x) as [|d' ds] eqn:Ed; [contradiction|]. assert (Hd' : In d' (defs_of S' x)) by (rewrite Ed; left; reflexivity).
      pose proof (Hearlier l1 r l2 x d' Es Hx Hd') as Hin. apply filter_In in Hd'. destruct Hd' as [_ Hidx]. apply ident_eqb_eq in Hidx. subst x.
      apply Hkeys, Hin. }
    rewrite (Hstable r HrS) in Hsnd, Hcmp.
    unfold rstep. cbn [fst snd]. rewrite E. cbn [bind fst snd]. eexists _, _. split; [reflexivity|].
    assert (Hold : forall x chs rc, In (x, chs) rep -> In rc chs -> stands (l1 ++ [r]) k2 x rc).
    { intros x chs rc Hin Hrc. destruct (Hsound x chs rc Hin Hrc) as (d & f & Hd & Hdx & Hf & Hrep & Hok & Hi).
      exists d, f. split; [apply in_or_app; left; exact Hd|]. repeat (split; [assumption|]). split; [eapply rchain_ok_mono; eauto | exact Hi]. }
    constructor.
    - lia.
    - intros d Hd. apply (al_push_keys ident_eqb ident_eqb_eq). apply in_app_or in Hd. destruct Hd as [Hd|[<-|[]]]; [left; apply Hkeys, Hd | right; congruence].
    - intros x chs rc Hin Hrc. destruct (al_push_in ident_eqb ident_eqb_eq _ _ _ _ _ Hin) as [Hin0|[-> ->]]; [eapply Hold; eauto|].
      apply in_app_or in Hrc. destruct Hrc as [Hrc|Hrc].
      + destruct (bucket_in ident_eqb ident_eqb_eq _ _ _ Hrc) as (b & Hb & Hrcb). eapply Hold; eauto.
      + destruct (Hsnd rc Hrc) as (f & Hf & Hrep & Hok & Hfr & Hi1 & Hi2). exists r, f. rewrite <- Hsg.
        split; [apply in_elt | auto 8].
    - intros d f Hd Hf. rewrite (al_get_push ident_eqb ident_eqb_eq). apply in_app_or in Hd. destruct Hd as [Hd|[<-|[]]].
      + destruct (Hcomplete d f Hd Hf) as (chs & rc & Hg & Hrc & Hrep & Hsgn).
        destruct (ident_eqb (r_id d) (nr_id nr)) eqn:Eid; [|eauto]. apply ident_eqb_eq in Eid.
        eexists _, rc. split; [reflexivity|]. split; [|auto]. apply in_or_app. left. unfold bucket. rewrite <- Eid, Hg. exact Hrc.
      + destruct (Hcmp f Hf) as (ch & Hch & Hrep & Hi2).
        rewrite <- Hid, <- Hsg, (eqb_refl' ident_eqb ident_eqb_eq). eexists _, ch. split; [reflexivity|]. split; [apply in_or_app; right; exact Hch | auto].
  Qed.

  Theorem replicate_sim k0 :
    Forall2 (nrule_num named kfinal) sorted nrules ->
    kfinal <= k0 -> exists rep k, replicate_rules nrules k0 = Ok rep /\ rep_inv sorted rep k.
  Proof.
    intros F Hk. rewrite replicate_rules_rstep.
    destruct (rfold_total2 _ rstep (fun l1 s => rep_inv l1 (fst s) (snd s)) sorted nrules ([], k0) F) as ([rep k] & -> & Hinv).
    - constructor; [exact Hk | intros d [] | intros x chs rc [] | intros d f []].
    - intros l1 r l2 n1 nr n2 [rep1 k1] Es En _ Hfull Hinv.
      destruct (rule_step l1 r l2 nr rep1 k1 Es) as (rep2 & k2 & E & H2); auto; [rewrite En; apply in_elt|]. exists (rep2, k2). auto.
    - exists rep, k. auto.
  Qed.
End Whole.
