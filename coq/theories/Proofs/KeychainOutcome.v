(* Big-step summary of every keychain operation: all results and final states an operation can have,
   with or without an injected storage failure, as explicit functions of the state before.
   [outs F o c x]: x = (result, state after) is possible for operation o from state c; F = a failure
   may have been injected.  It is sound ([run_op_outs]): whatever an operation returns is one of the listed outcomes.
   The elimination lemmas give the cases of each outcome predicate to the files that reason from [outs]. *)
From NDN Require Import Base.Prelude Model.Keychain.
From NDN Require Import Proofs.KeychainTables Proofs.KeychainHoare Proofs.KeychainInv.
Local Open Scope N_scope.

Definition outcome := (res rv * cst)%type.
Definition commit_db (t : tables) (c : cst) : cst := mkC t t (tpm c) (cache c).

Section Outs.
  Variable F : Prop.

  (* one statement in its own transaction, then [fin] (e.g. the cache reset) *)
  Definition out_txn1 (fn : tables -> res tables) (fin : cst -> cst) (c : cst) (x : outcome) : Prop :=
    (exists t, fn (db c) = Ok t /\ x = (Ok RNone, fin (commit_db t c)))
    \/ (exists e, fn (db c) = Err e /\ x = (Err e, c))
    \/ (F /\ x = (Err EFault, c)).

  Definition out_new_identity (n : name) (c : cst) (x : outcome) : Prop :=
    if kc_contains n (db c) then x = (Err EKey, c) else
    (exists t1 i, sql_insert_identity n (db c) = Ok t1 /\ kc_get n t1 = Ok i /\ x = (Ok (rv_ident i), commit_db t1 c))
    \/ (F /\ x = (Err EFault, c)).

  (* the name TpmFile.generate_key gives to the new key, or why it refuses *)
  Definition new_key_name (idn : name) (kt : N) (ks : kidspec) (tp : list (name * N)) : res name :=
    if 2 <=? kt then Err EValue else
    do kid <- (match ks with KidExplicit k => Ok k | KidRandom cs => pick_kid idn cs tp end) ;;
    let kn := idn ++ [C_KEY; kid] in
    if al_mem name_eqb tp kn then Err EKey else Ok kn.
  Definition new_key_db (i : row) (kn : name) (m v : N) (t : tables) : res tables :=
    do t1 <- sql_insert_key (r_id i) kn m t ;; sql_insert_cert kn (kn ++ [C_SELF; v]) 0 t1.

  (* A failure leaves c (nothing was begun, or only the private key was saved and has been deleted again) or
     do_rollback c (new_key's transaction was rolled back).  From a clean connection the two are the same state;
     inside touch_identity's open transaction the ROLLBACK also undoes the caller's INSERT. *)
  Definition out_new_key (idn : name) (kt : N) (ks : kidspec) (m v : N) (c : cst) (x : outcome) : Prop :=
    if negb (kc_contains idn (db c)) then x = (Err EKey, c) else
    match kc_get idn (db c) with
    | Err e => x = (Err e, c)
    | Ok i =>
      match new_key_name idn kt ks (tpm c) with
      | Err e => x = (Err e, c)
      | Ok kn =>
          (exists t2 k, new_key_db i kn m v (db c) = Ok t2 /\ id_get i kn t2 = Ok k /\
                        x = (Ok (rv_key k), mkC t2 t2 (al_set name_eqb (tpm c) kn m) (cache c)))
          \/ (exists e, new_key_db i kn m v (db c) = Err e /\ x = (Err e, do_rollback c))
          \/ (F /\ (x = (Err EFault, c) \/ x = (Err EFault, do_rollback c)))
      end
    end.

  (* (Err EFault, c3) with everything done: new_key's own COMMIT has made the identity and its key durable, then
     the COMMIT of the enclosing transaction fails.  Every other failure leaves c. *)
  Definition out_touch (n : name) (cs : list N) (m v : N) (c : cst) (x : outcome) : Prop :=
    let t := db c in
    if kc_contains n t then
      if scope_has_def 0 (t_ids t) then exists i, kc_get n t = Ok i /\ x = (Ok (rv_ident i), c)
      else (exists t' i, sql_default_identity n t = Ok t' /\ kc_get n t' = Ok i /\ x = (Ok (rv_ident i), commit_db t' c))
           \/ (F /\ x = (Err EFault, c))
    else
      (F /\ x = (Err EFault, c)) \/
      match sql_insert_identity n t with
      | Err e => x = (Err e, c)
      | Ok t1 =>
        match kc_get n t1 with
        | Err e => x = (Err e, c)
        | Ok i =>
          match new_key_name n 0 (KidRandom cs) (tpm c) with
          | Err e => x = (Err e, c)
          | Ok kn =>
              (exists t3 i', new_key_db i kn m v t1 = Ok t3 /\ kc_get n t3 = Ok i' /\
                 let c3 := mkC t3 t3 (al_set name_eqb (tpm c) kn m) (cache c) in
                 (x = (Ok (rv_ident i'), c3) \/ (F /\ x = (Err EFault, c3))))
              \/ (exists e, new_key_db i kn m v t1 = Err e /\ x = (Err e, c))
          end
        end
      end.

  Definition del_key_db (k : row) (kn : name) (t : tables) : tables :=
    mkT (t_ids t) (r_delete_name kn (t_keys t)) (r_delete_scope (r_id k) (t_certs t)).
  (* del_key resets the cache and removes the private key before its transaction.  A failure of the removal leaves
     the cache reset; a failure of either DELETE or of the COMMIT rolls the rows back, and the private key stays
     removed: a state from which del_key can be repeated ([out_del_key_retry] in KeychainInvariant.v). *)
  Definition out_del_key (kn : name) (c : cst) (x : outcome) : Prop :=
    match kc_get (drop2 kn) (db c) with
    | Err e => x = (Err e, c)
    | Ok i =>
      match id_get i kn (db c) with
      | Err e => x = (Err e, c)
      | Ok k =>
          x = (Ok RNone, mkC (del_key_db k kn (db c)) (del_key_db k kn (db c)) (al_del name_eqb (tpm c) kn) [])
          \/ (F /\ x = (Err EFault, set_cache [] c))
          \/ (F /\ x = (Err EFault, set_tpm (al_del name_eqb (tpm c) kn) (set_cache [] c)))
      end
    end.

  Inductive del_ident_out (n : name) : list name -> cst -> outcome -> Prop :=
  | DI_nil_ok c t' : sql_delete_identity n (db c) = Ok t' ->
                     del_ident_out n [] c (Ok RNone, set_cache [] (commit_db t' c))
  | DI_nil_fault c : F -> del_ident_out n [] c (Err EFault, c)
  | DI_err k ks c e c' : out_del_key k c (Err e, c') -> del_ident_out n (k :: ks) c (Err e, c')
  | DI_step k ks c c' x : out_del_key k c (Ok RNone, c') -> del_ident_out n ks c' x -> del_ident_out n (k :: ks) c x.
  Definition out_del_identity (n : name) (c : cst) (x : outcome) : Prop :=
    match kc_get n (db c) with
    | Err e => x = (Err e, c)
    | Ok i => del_ident_out n (v_iter (r_id i) (t_keys (db c))) c x
    end.

  Definition out_get_signer (a : sign_args) (c : cst) (x : outcome) : Prop :=
    if a_nosig a then x = (Ok (RSigner SgNone), c) else
    if a_digest a then x = (Ok (RSigner SgDigest), c) else
    match resolve_args a (db c) with
    | Err e => x = (Err e, c)
    | Ok kc =>
        let kn := fst kc in
        let loc := match a_locator a with Some l => l | None => snd kc end in
        match al_get ckey_eqb (cache c) (kn, loc) with
        | Some g => x = (Ok (RSigner g), c)
        | None =>
            match al_get name_eqb (tpm c) kn with
            | Some m => x = (Ok (RSigner (SgKey m loc)), set_cache (al_set ckey_eqb (cache c) (kn, loc) (SgKey m loc)) c)
                        \/ (F /\ x = (Err EFault, c))
            | None => x = (Err EKey, c) \/ (F /\ x = (Err EFault, c))
            end
        end
    end.

  Definition guarded {A} (r : res A) (c : cst) (k : A -> outcome -> Prop) (x : outcome) : Prop :=
    match r with Err e => x = (Err e, c) | Ok a => k a x end.

  Definition outs (o : op) (c : cst) (x : outcome) : Prop :=
    let t := db c in
    match o with
    | ONewIdentity n => out_new_identity n c x
    | OTouchIdentity n cs m v => out_touch n cs m v c x
    | ONewKey idn kt ks m v => out_new_key idn kt ks m v c x
    | OImportCert kn cn d => out_txn1 (sql_insert_cert kn cn d) (fun c => c) c x
    | OSetDefaultIdentity n => out_txn1 (sql_default_identity n) (fun c => c) c x
    | OSetDefaultKey idn kn => guarded (kc_get idn t) c (fun _ => out_txn1 (sql_default_key kn) (fun c => c) c) x
    | OSetDefaultCert idn kn cn =>
        guarded (kc_get idn t) c (fun i => guarded (id_get i kn t) c (fun _ => out_txn1 (sql_default_cert cn) (fun c => c) c)) x
    | ODelCert cn => out_txn1 (sql_delete_cert cn) (set_cache []) c x
    | ODelKey kn => out_del_key kn c x
    | ODelIdentity n => out_del_identity n c x
    | OIdDelKey idn kn => guarded (kc_get idn t) c (fun _ => out_del_key kn c) x
    | OKeyDelCert idn kn cn =>
        guarded (kc_get idn t) c (fun i => guarded (id_get i kn t) c (fun _ => out_txn1 (sql_delete_cert cn) (set_cache []) c)) x
    | OGetSigner a => out_get_signer a c x
    | OReopen => x = (Ok RNone, do_reopen c)
    end.
End Outs.

Definition del_key_done (k : row) (kn : name) (c : cst) : cst :=
  mkC (del_key_db k kn (db c)) (del_key_db k kn (db c)) (al_del name_eqb (tpm c) kn) [].

(* six operations are, after the lookups some begin with, one statement in a transaction of its own; the second
   component is what follows the commit (the cache reset of the deletes) *)
Definition op_txn (o : op) : option ((tables -> res tables) * (cst -> cst)) :=
  match o with
  | OImportCert kn cn d => Some (sql_insert_cert kn cn d, fun c => c)
  | OSetDefaultIdentity n => Some (sql_default_identity n, fun c => c)
  | OSetDefaultKey _ kn => Some (sql_default_key kn, fun c => c)
  | OSetDefaultCert _ _ cn => Some (sql_default_cert cn, fun c => c)
  | ODelCert cn | OKeyDelCert _ _ cn => Some (sql_delete_cert cn, set_cache [])
  | _ => None
  end.

Lemma guarded_cases {A} (r : res A) c k x :
  guarded r c k x -> (exists a, r = Ok a /\ k a x) \/ (exists e, r = Err e /\ x = (Err e, c)).
Proof. destruct r; cbn; eauto. Qed.

Section Elim.
  Variable F : Prop.

  (* first disjunct: refused by a lookup it begins with; past its lookup Identity.del_key is del_key *)
  Lemma outs_cases o c x :
    outs F o c x ->
    (exists e, x = (Err e, c)) \/
    match op_txn o with
    | Some (fn, fin) => out_txn1 F fn fin c x
    | None => outs F (match o with OIdDelKey _ kn => ODelKey kn | _ => o end) c x
    end.
  Proof.
    destruct o; cbn [outs op_txn]; auto.
    (* left: the four that look the identity up first; set_default_cert and Key.del_cert then look the key up *)
    all: destruct (kc_get _ (db c)) as [i|]; cbn [guarded]; eauto.
    all: destruct (id_get i _ (db c)); cbn [guarded]; eauto.
  Qed.

  Lemma out_txn1_err fn fin c e c1 : out_txn1 F fn fin c (Err e, c1) -> c1 = c.
  Proof. intros [[t [_ [= _ ->]]] | [[e' [_ [= _ ->]]] | [_ [= _ ->]]]]; reflexivity. Qed.
  Lemma out_txn1_nofault fn fin c x t :
    ~ F -> fn (db c) = Ok t -> out_txn1 F fn fin c x -> x = (Ok RNone, fin (commit_db t c)).
  Proof. intros NF E [[t' [E' ->]] | [[e [E' _]] | [HF _]]]; [|congruence|contradiction]. congruence. Qed.

  Lemma out_del_key_cases kn c x :
    out_del_key F kn c x <->
    match key_lookup kn (db c) with
    | Err e => x = (Err e, c)
    | Ok k => x = (Ok RNone, del_key_done k kn c) \/
              F /\ (x = (Err EFault, set_cache [] c) \/ x = (Err EFault, set_tpm (al_del name_eqb (tpm c) kn) (set_cache [] c)))
    end.
  Proof.
    unfold out_del_key, key_lookup. destruct (kc_get (drop2 kn) (db c)) as [i|]; cbn [bind]; [|reflexivity].
    destruct (id_get i kn (db c)); [|reflexivity]. split.
    - intros [H | [[g H] | [g H]]]; auto.
    - intros [H | [g [H | H]]]; auto.
  Qed.
  Lemma out_del_key_nofault kn c k y :
    ~ F -> key_lookup kn (db c) = Ok k -> out_del_key F kn c y -> y = (Ok RNone, del_key_done k kn c).
  Proof.
    intros NF L H. apply out_del_key_cases in H. rewrite L in H. destruct H as [-> | [g _]]; [reflexivity | contradiction].
  Qed.
  Lemma out_del_key_ok kn c r c' :
    out_del_key F kn c (Ok r, c') -> exists k, key_lookup kn (db c) = Ok k /\ r = RNone /\ c' = del_key_done k kn c.
  Proof.
    intros H. apply out_del_key_cases in H. destruct (key_lookup kn (db c)) as [k|]; [|discriminate].
    destruct H as [[= -> ->] | [_ [H | H]]]; [eauto | discriminate..].
  Qed.
  Lemma out_del_key_err kn c e c' :
    out_del_key F kn c (Err e, c') ->
    db c' = db c /\ disk c' = disk c /\ (tpm c' = tpm c \/ tpm c' = al_del name_eqb (tpm c) kn).
  Proof.
    intros H. apply out_del_key_cases in H. destruct (key_lookup kn (db c)) as [k|].
    - destruct H as [H | [_ [[= _ ->] | [= _ ->]]]]; [discriminate | auto..].
    - injection H as _ ->. auto.
  Qed.

  Lemma out_get_signer_cases a c x :
    out_get_signer F a c x ->
    (exists r, x = (r, c)) \/
    exists kn loc m, al_get name_eqb (tpm c) kn = Some m /\
                     x = (Ok (RSigner (SgKey m loc)), set_cache (al_set ckey_eqb (cache c) (kn, loc) (SgKey m loc)) c).
  Proof.
    unfold out_get_signer. destruct (a_nosig a); [eauto|]. destruct (a_digest a); [eauto|].
    destruct (resolve_args a (db c)) as [kc|]; [|eauto]. destruct (al_get ckey_eqb (cache c) _); [eauto|].
    destruct (al_get name_eqb (tpm c) (fst kc)) as [m|] eqn:Em; intros [-> | [_ ->]]; [right; exists (fst kc); eauto | eauto..].
  Qed.

  Lemma out_new_identity_cases n c x :
    out_new_identity F n c x ->
    (exists e, x = (Err e, c)) \/
    exists t1 i, sql_insert_identity n (db c) = Ok t1 /\ kc_get n t1 = Ok i /\ x = (Ok (rv_ident i), commit_db t1 c).
  Proof.
    unfold out_new_identity. destruct (kc_contains n (db c)); [eauto|]. intros [H | [_ ->]]; eauto.
  Qed.
  (* from a clean connection new_key's rollback is no change *)
  Lemma out_new_key_cases idn kt ks m v c x :
    disk c = db c -> out_new_key F idn kt ks m v c x ->
    (exists e, x = (Err e, c)) \/
    exists i kn t2 k, kc_get idn (db c) = Ok i /\ new_key_name idn kt ks (tpm c) = Ok kn /\
                      new_key_db i kn m v (db c) = Ok t2 /\ id_get i kn t2 = Ok k /\
                      x = (Ok (rv_key k), mkC t2 t2 (al_set name_eqb (tpm c) kn m) (cache c)).
  Proof.
    intros Cl. unfold out_new_key. rewrite (rollback_clean c Cl). destruct (negb (kc_contains idn (db c))); [eauto|].
    destruct (kc_get idn (db c)) as [i|]; [|eauto]. destruct (new_key_name idn kt ks (tpm c)) as [kn|]; [|eauto].
    intros [[t2 [k H]] | [[e [_ ->]] | [_ [-> | ->]]]]; [|eauto..]. right. exists i, kn, t2, k. tauto.
  Qed.
  Lemma out_touch_cases n cs m v c x :
    out_touch F n cs m v c x ->
    (exists e, x = (Err e, c)) \/
    (exists i, kc_get n (db c) = Ok i /\ x = (Ok (rv_ident i), c)) \/
    (exists t' i, sql_default_identity n (db c) = Ok t' /\ kc_get n t' = Ok i /\ x = (Ok (rv_ident i), commit_db t' c)) \/
    exists t1 i kn t3 r, kc_contains n (db c) = false /\ sql_insert_identity n (db c) = Ok t1 /\ kc_get n t1 = Ok i /\
                         new_key_name n 0 (KidRandom cs) (tpm c) = Ok kn /\ new_key_db i kn m v t1 = Ok t3 /\
                         x = (r, mkC t3 t3 (al_set name_eqb (tpm c) kn m) (cache c)).
  Proof.
    unfold out_touch. destruct (kc_contains n (db c)).
    - destruct (scope_has_def 0 (t_ids (db c))); [auto|]. intros [H | [_ ->]]; eauto.
    - intros [[_ ->] | H]; [eauto|]. destruct (sql_insert_identity n (db c)) as [t1|]; [|eauto].
      destruct (kc_get n t1) as [i|] eqn:G; [|eauto]. destruct (new_key_name n 0 (KidRandom cs) (tpm c)) as [kn|]; [|eauto].
      destruct H as [[t3 [i' [E3 [_ H]]]] | [e [_ ->]]]; [|eauto]. right. right. right. exists t1, i, kn, t3.
      cbn zeta in H. destruct H as [-> | [_ ->]]; eexists; repeat split; assumption.
  Qed.
End Elim.

Lemma new_key_name_ok idn kt ks tp kn :
  new_key_name idn kt ks tp = Ok kn -> (exists kid, kn = idn ++ [C_KEY; kid]) /\ al_get name_eqb tp kn = None.
Proof.
  unfold new_key_name. destruct (2 <=? kt); [discriminate|].
  destruct (match ks with KidExplicit k => Ok k | KidRandom cs => pick_kid idn cs tp end) as [kid|]; [|discriminate].
  cbn. destruct (al_mem name_eqb tp (idn ++ [C_KEY; kid])) eqn:E; [discriminate|]. intros [= <-].
  split; [eauto|]. apply (al_mem_get name_eqb). assumption.
Qed.
Lemma new_key_name_drop2 idn kt ks tp kn :
  new_key_name idn kt ks tp = Ok kn -> drop2 kn = idn /\ (2 <= length kn)%nat.
Proof.
  intros H. destruct (new_key_name_ok _ _ _ _ _ H) as [[kid ->] _].
  split; [apply drop2_app2 | rewrite app_length; cbn; lia].
Qed.

Lemma new_key_db_ok i kn m v t t2 :
  new_key_db i kn m v t = Ok t2 ->
  exists lk k lc, r_insert (r_id i) kn m (t_keys t) = Ok lk /\ r_find kn lk = Some k /\
                  r_insert (r_id k) (kn ++ [C_SELF; v]) 0 (t_certs t) = Ok lc /\ t2 = mkT (t_ids t) lk lc.
Proof.
  unfold new_key_db. destruct (sql_insert_key (r_id i) kn m t) as [t1|] eqn:E1; [|discriminate]. cbn [bind]. intros E.
  apply sql_insert_key_ok in E1. destruct E1 as [lk [R ->]].
  apply sql_insert_cert_ok in E. destruct E as [k [lc [Fk [Rc ->]]]]. exists lk, k, lc. auto.
Qed.
Lemma new_key_db_ids i kn m v t t2 : new_key_db i kn m v t = Ok t2 -> t_ids t2 = t_ids t.
Proof. intros E. apply new_key_db_ok in E. destruct E as [lk [k [lc [_ [_ [_ ->]]]]]]. reflexivity. Qed.
Lemma new_key_db_kc_get i kn m v t t2 n : new_key_db i kn m v t = Ok t2 -> kc_get n t2 = kc_get n t.
Proof. intros E. unfold kc_get. rewrite (new_key_db_ids _ _ _ _ _ _ E). reflexivity. Qed.
Lemma new_key_db_has_default i kn m v t t2 :
  new_key_db i kn m v t = Ok t2 -> scope_has_def (r_id i) (t_keys t2) = true.
Proof.
  intros E. apply new_key_db_ok in E. destruct E as [lk [k0 [lc [R [_ [_ ->]]]]]]. eapply r_insert_has_default; eassumption.
Qed.
Lemma new_key_db_get i kn m v t t2 :
  wf_tables t -> new_key_db i kn m v t = Ok t2 -> exists k, id_get i kn t2 = Ok k /\ r_name k = kn /\ r_val k = m.
Proof.
  intros W E. apply new_key_db_ok in E. destruct E as [lk [k0 [lc [R [_ [_ ->]]]]]].
  destruct (r_insert_new _ _ _ _ _ R) as [x [Hx [Nx [Px [Vx _]]]]]. exists x. split; [|auto].
  apply v_get_in; auto. eapply r_insert_wf; [|eassumption]; apply W.
Qed.

(* A touch_identity that raised after its state had changed: the last COMMIT failed when the identity and its key were
   in place.  The repeat finds the identity, which is the default if there was none, and ends as the clean run ends. *)
Lemma out_touch_recover F n cs m v c e c1 x y :
  wf_tables (db c) -> out_touch F n cs m v c (Err e, c1) ->
  out_touch False n cs m v c x -> out_touch False n cs m v c1 y -> c1 = c \/ y = x.
Proof.
  intros W H Hx Hy. destruct (out_touch_cases _ _ _ _ _ _ _ H)
    as [[e' [= _ ->]] | [[i [_ [=]]] | [[t' [i [_ [_ [=]]]]] | [t1 [i [kn [t3 [r [Ct [E1 [G1 [Nn [E3 [= _ ->]]]]]]]]]]]]]]; [auto|].
  right. pose proof (insert_identity_has_default _ _ _ E1) as Hd1.
  assert (G3 : kc_get n t3 = Ok i) by (rewrite (new_key_db_kc_get _ _ _ _ _ _ n E3); exact G1).
  unfold out_touch in Hx, Hy. cbn [db] in Hy.
  rewrite kc_contains_get, G3, (new_key_db_ids _ _ _ _ _ _ E3), Hd1 in Hy. destruct Hy as [i0 [G0 ->]].
  rewrite Ct, E1, G1, Nn in Hx. destruct Hx as [[[] _] | [[t3' [i' [E3' [G' Hx]]]] | [e0 [E3' _]]]]; [|congruence].
  cbn zeta in Hx. destruct Hx as [-> | [[] _]]. congruence.
Qed.

Local Hint Resolve quiet_refl quiet_none : core.

Lemma wp_txn1 fn (Q : res unit -> st -> Prop) c f :
  disk c = db c ->
  (forall t f', fn (db c) = Ok t -> quiet f f' -> Q (Ok tt) (mkSt (commit_db t c) f')) ->
  (forall e, (e = EFault /\ f <> None) \/ fn (db c) = Err e -> Q (Err e) (mkSt c None)) ->
  wp (with_conn (sql_w fn)) Q (mkSt c f).
Proof.
  intros Cl Hok Herr. apply wp_with_conn. apply wp_sql_w.
  - intros t f' E Hq. split.
    + intros f'' Hq'. apply (Hok t f''); [assumption | eapply quiet_trans; eassumption].
    + intros N. cbn [core]. rewrite rollback_set_db by assumption. apply Herr. left.
      split; [reflexivity | eapply quiet_ne; eassumption].
  - intros e He. cbn [core]. rewrite rollback_clean by assumption. apply Herr. assumption.
Qed.
(* two statements in one transaction; the connection need not be clean (new_key inside touch_identity's transaction) *)
Lemma wp_txn2 fn gn (Q : res unit -> st -> Prop) c f :
  (forall t2 f', (do t1 <- fn (db c) ;; gn t1) = Ok t2 -> quiet f f' -> Q (Ok tt) (mkSt (commit_db t2 c) f')) ->
  (forall e, (e = EFault /\ f <> None) \/ (do t1 <- fn (db c) ;; gn t1) = Err e -> Q (Err e) (mkSt (do_rollback c) None)) ->
  wp (with_conn (sql_w fn >> sql_w gn)) Q (mkSt c f).
Proof.
  intros Hok Herr. apply wp_with_conn. apply wp_bind. apply wp_sql_w.
  - intros t1 f1 E1 Hq1. rewrite E1 in Hok, Herr. apply wp_sql_w.
    + intros t2 f2 E2 Hq2. split.
      * intros f3 Hq3. apply (Hok t2 f3); auto. eapply quiet_trans; [eassumption|]. eapply quiet_trans; eassumption.
      * intros N. apply Herr. left. split; [reflexivity|].
        eapply quiet_ne; [eassumption|]. eapply quiet_ne; eassumption.
    + intros e [[-> N] | He]; apply Herr; [left | right; exact He].
      split; [reflexivity | eapply quiet_ne; eassumption].
  - intros e He. apply Herr. destruct He as [He | ->]; auto.
Qed.

Lemma wp_readr_guarded {A} (g : tables -> res A) (k : A -> M rv) (P : A -> outcome -> Prop) c f :
  (forall a, g (db c) = Ok a -> wp (k a) (fun r s' => P a (r, core s')) (mkSt c f)) ->
  wp (mbind (readr g) k) (fun r s' => guarded (g (db c)) c P (r, core s')) (mkSt c f).
Proof.
  intros H. apply wp_bind, wp_readr. destruct (g (db c)) as [a|e]; cbn [guarded]; [auto | reflexivity].
Qed.

Section Sound.
  Variable F : Prop.

  (* new_key, also from inside touch_identity's transaction: the connection may be dirty *)
  Lemma outs_new_key idn kt ks m v c f :
    (f <> None -> F) -> wf_tables (db c) ->
    wp (new_key idn kt ks m v) (fun r s' => out_new_key F idn kt ks m v c (r, core s') /\ quiet f (flt s')) (mkSt c f).
  Proof.
    intros HF W. unfold new_key, out_new_key.
    apply wp_bind, wp_reads. destruct (kc_contains idn (db c)) eqn:Ct; cbn [negb]; [|apply wp_throw; auto].
    apply wp_bind, wp_readr. destruct (kc_get idn (db c)) as [i|e] eqn:G; [|split; auto].
    apply wp_bind. unfold generate_key, new_key_name.
    destruct (2 <=? kt); [apply wp_throw; auto|].
    apply wp_bind, wp_kid.
    destruct (match ks with KidExplicit k => Ok k | KidRandom cs => pick_kid idn cs (tpm c) end) as [kid|e]; cbn [bind];
      [|split; auto].
    set (kn := idn ++ [C_KEY; kid]).
    apply wp_bind. unfold tpm_exists. apply wp_getc.
    destruct (al_mem name_eqb (tpm c) kn) eqn:Ex; [apply wp_throw; auto|].
    apply (proj1 (al_mem_get name_eqb _ _)) in Ex.
    apply wp_bind. apply wp_tpm_save.
    2:{ intros N. split; [|auto]. right. right. split; [auto | left; reflexivity]. }
    intros f1 Hq1. apply wp_ret.
    set (c1 := set_tpm (al_set name_eqb (tpm c) kn m) c).
    (* the cleanup after a failure, tpm_delete kn, undoes tpm_save kn exactly: kn was not in the TPM (Ex) *)
    assert (Hdel : set_tpm (al_del name_eqb (tpm c1) kn) c1 = c).
    { unfold c1. destruct c; cbn in *. rewrite (al_del_set_fresh name_eqb name_eqb_eq) by assumption. reflexivity. }
    assert (Hdelr : set_tpm (al_del name_eqb (tpm (do_rollback c1)) kn) (do_rollback c1) = do_rollback c)
      by exact (f_equal do_rollback Hdel).
    apply wp_bind. apply wp_on_error. apply wp_bind. apply wp_tpm_read.
    2:{ intros e [[-> N] | [_ Hn]].
        - apply wp_tpm_delete_quiet. rewrite Hdel. split; [|auto]. right. right.
          split; [eauto using quiet_ne | left; reflexivity].
        - exfalso. cbn [c1 tpm set_tpm] in Hn. rewrite (al_get_set_eq name_eqb name_eqb_eq) in Hn. discriminate. }
    intros m' f2 _ Hq2. apply wp_txn2.
    2:{ intros e He. apply wp_tpm_delete_quiet. rewrite Hdelr. split; [|auto].
        destruct He as [[-> N] | He].
        - right. right. split; [eauto using quiet_ne | right; reflexivity].
        - right. left. exists e. split; [exact He | reflexivity]. }
    intros t2 f5 Edb Hq5. change (new_key_db i kn m v (db c) = Ok t2) in Edb.
    pose proof (new_key_db_has_default _ _ _ _ _ _ Edb) as Hd.
    destruct (new_key_db_get _ _ _ _ _ _ W Edb) as [k [Gk _]].
    change (commit_db t2 c1) with (mkC t2 t2 (al_set name_eqb (tpm c) kn m) (cache c)).
    apply wp_bind, wp_reads. cbn [db]. rewrite Hd. cbn [negb mwhen]. apply wp_bind. apply wp_ret.
    apply wp_bind, wp_readr. cbn [db]. rewrite Gk. apply wp_ret.
    split; [left; exists t2, k; auto|]. intros E. apply Hq5, Hq2, Hq1, E.
  Qed.

  Lemma outs_del_key kn c f :
    (f <> None -> F) -> disk c = db c ->
    wp (del_key kn) (fun r s' => out_del_key F kn c (r, core s') /\ quiet f (flt s')) (mkSt c f).
  Proof.
    intros HF Cl. unfold del_key, out_del_key. apply wp_bind, wp_readr.
    destruct (kc_get (drop2 kn) (db c)) as [i|e]; [|split; auto].
    apply wp_bind, wp_readr. destruct (id_get i kn (db c)) as [k|e]; [|split; auto].
    apply wp_bind. unfold cache_reset. apply wp_updc.
    apply wp_bind. apply wp_tpm_delete.
    2:{ intros N. split; [|auto]. right. left. auto. }
    intros f1 Hq1. apply wp_bind. apply wp_txn2.
    - intros t2 f2 E Hq2. apply wp_ret. split; [|eapply quiet_trans; eassumption]. left.
      injection E as <-. reflexivity.
    - intros e [[-> N] | E]; [|discriminate]. split; [|auto].
      right. right. split; [apply HF; eapply quiet_ne; eassumption|]. destruct c; cbn in *. subst. reflexivity.
  Qed.

  Section Op.
  Variables (c : cst) (f : option nat).
  Hypothesis HF : f <> None -> F.
  Hypothesis Cl : disk c = db c.
  Hypothesis W : wf_tables (db c).

  Lemma wp_txn1_then fn fin (k : M rv) :
    (forall t f', fn (db c) = Ok t ->
                  wp k (fun r s' => r = Ok RNone /\ core s' = fin (commit_db t c)) (mkSt (commit_db t c) f')) ->
    wp (with_conn (sql_w fn) >> k) (fun r s' => out_txn1 F fn fin c (r, core s')) (mkSt c f).
  Proof.
    intros Hk. apply wp_bind. apply wp_txn1; [assumption| |].
    - intros t f' E Hq. eapply wp_conseq; [apply Hk; assumption|].
      cbn. intros r s' [-> ->]. left. eauto.
    - intros e [[-> N] | E]; cbn.
      + right. right. auto.
      + right. left. eauto.
  Qed.
  Lemma wp_txn1_ret fn :
    wp (with_conn (sql_w fn) >> ret RNone) (fun r s' => out_txn1 F fn (fun c => c) c (r, core s')) (mkSt c f).
  Proof. apply wp_txn1_then. intros t f' _. apply wp_ret. auto. Qed.
  Lemma wp_del_cert cn :
    wp (del_cert cn) (fun r s' => out_txn1 F (sql_delete_cert cn) (set_cache []) c (r, core s')) (mkSt c f).
  Proof.
    unfold del_cert. apply wp_txn1_then. intros t f' _.
    apply wp_bind. unfold cache_reset. apply wp_updc. apply wp_ret. auto.
  Qed.

  Lemma outs_new_identity n :
    wp (new_identity n) (fun r s' => outs F (ONewIdentity n) c (r, core s')) (mkSt c f).
  Proof.
    unfold new_identity. cbn [outs]. unfold out_new_identity.
    apply wp_bind, wp_reads. destruct (kc_contains n (db c)) eqn:Ct.
    - apply wp_throw. reflexivity.
    - apply wp_bind. apply wp_txn1; [assumption| |].
      + intros t1 f' E Hq. pose proof (insert_identity_has_default _ _ _ E) as Hd.
        destruct (insert_identity_get _ _ _ W E) as [i G].
        apply wp_bind. unfold ensure_default_identity. apply wp_bind, wp_reads. cbn [commit_db db].
        rewrite Hd. cbn [negb mwhen]. apply wp_ret. apply wp_bind, wp_readr. cbn [commit_db db]. rewrite G.
        apply wp_ret. left. eauto.
      + intros e [[-> N] | E]; cbn.
        * right. auto.
        * exfalso. destruct (insert_identity_absent _ _ W Ct) as [t1 E1]. congruence.
  Qed.

  Lemma outs_touch n cs m v :
    wp (touch_identity n cs m v) (fun r s' => out_touch F n cs m v c (r, core s')) (mkSt c f).
  Proof.
    unfold touch_identity, out_touch. apply wp_bind, wp_reads.
    destruct (kc_contains n (db c)) eqn:Ct; cbn [negb mwhen].
    - apply wp_bind, wp_ret. apply wp_bind. unfold ensure_default_identity. apply wp_bind, wp_reads.
      destruct (scope_has_def 0 (t_ids (db c))) eqn:Hd; cbn [negb mwhen].
      + apply wp_ret. apply wp_bind, wp_readr. destruct (kc_contains_true _ _ Ct) as [i G]. rewrite G.
        apply wp_ret. eauto.
      + unfold set_default_identity. apply wp_txn1; [assumption| |].
        * intros t' f' E Hq. apply wp_bind, wp_readr. cbn [commit_db db].
          destruct (default_identity_get _ _ _ W Ct E) as [i G]. rewrite G. apply wp_ret. left. eauto.
        * intros e [[-> N] | E]; [right; auto | discriminate].
    - destruct (insert_identity_absent _ _ W Ct) as [t1 E1].
      pose proof (insert_identity_has_default _ _ _ E1) as Hd1. destruct (insert_identity_get _ _ _ W E1) as [i G1].
      rewrite E1, G1.
      apply wp_bind. apply wp_with_conn. apply wp_bind. apply wp_sql_w.
      2:{ intros e [[-> N] | E]; [|congruence]. rewrite rollback_clean by assumption. left. auto. }
      intros t1' f1 E1' Hq1. replace t1' with t1 by congruence.
      pose proof (rollback_set_db t1 c Cl) as Hr1.
      apply wp_bind. eapply wp_conseq.
      { apply (outs_new_key n 0 (KidRandom cs) m v (set_db t1 c) f1); [eauto using quiet_ne|].
        eapply wf_insert_identity; eassumption. }
      intros r [c' f'] [Hout Hq']. unfold out_new_key in Hout. cbn [core flt set_db db tpm cache] in Hout, Hq' |- *.
      rewrite kc_contains_get, G1 in Hout. cbn [is_ok negb] in Hout.
      destruct (new_key_name n 0 (KidRandom cs) (tpm c)) as [kn|e].
      2:{ injection Hout as -> ->. rewrite Hr1. right. reflexivity. }
      destruct Hout as [[t3 [k [E3 [Gk Ex]]]] | [[e [E3 Ex]] | [HFl [Ex | Ex]]]]; injection Ex as -> ->.
      + (* the key is made: the identity row is as it was inserted, and is the default if there was none *)
        assert (G3 : kc_get n t3 = Ok i) by (rewrite (new_key_db_kc_get _ _ _ _ _ _ n E3); assumption).
        rewrite <- (new_key_db_ids _ _ _ _ _ _ E3) in Hd1.
        apply wp_ret. unfold do_commit, do_rollback. cbn [core flt set_db db disk tpm cache]. split.
        * intros f2 Hq2. apply wp_bind. unfold ensure_default_identity. apply wp_bind, wp_reads. cbn [db].
          rewrite Hd1. apply wp_ret. apply wp_bind, wp_readr. cbn [db]. rewrite G3.
          apply wp_ret. right. left. exists t3, i. auto.
        * intros N. assert F by eauto using quiet_ne. right. left. exists t3, i. auto 6.
      + rewrite Hr1, rollback_clean by assumption. right. right. eauto.
      + rewrite Hr1. left. auto.
      + rewrite Hr1, rollback_clean by assumption. left. auto.
  Qed.

  Lemma outs_del_identity n :
    wp (del_identity n) (fun r s' => out_del_identity F n c (r, core s')) (mkSt c f).
  Proof.
    unfold del_identity, out_del_identity. apply wp_bind, wp_readr.
    destruct (kc_get n (db c)) as [i|e]; [|reflexivity].
    apply wp_bind, wp_reads. set (keys := v_iter (r_id i) (t_keys (db c))).
    apply wp_bind.
    (* the loop invariant is a continuation: whatever the keys still to delete can end in from the present state
       is an outcome of the whole listing from c *)
    apply (wp_mfor keys _ (fun r s => disk (core s) = db (core s) /\ quiet f (flt s) /\
                                      forall x, del_ident_out F n r (core s) x -> del_ident_out F n keys c x)).
    - auto.
    - intros k r [c' f'] [Cl' [Hq HI]]. cbn [core flt] in *. apply wp_bind. eapply wp_conseq.
      { apply (outs_del_key k c' f'); [|assumption].
        intros N. apply HF. eapply quiet_ne; eassumption. }
      intros res [c'' f''] [Hout Hq']. cbn [core flt] in *. destruct res as [u|e].
      + apply wp_ret.
        destruct (out_del_key_ok _ _ _ _ _ Hout) as [k0 [_ [-> Ec'']]].
        split; [rewrite Ec''; reflexivity|]. split; [eapply quiet_trans; eassumption|].
        intros x Hx. apply HI. eapply DI_step; eassumption.
      + apply HI. apply DI_err. assumption.
    - intros [c' f'] [Cl' [Hq HI]]. cbn [core flt] in *. apply wp_bind. apply wp_txn1; [assumption| |].
      + intros t' f2 E Hq2. apply wp_bind. unfold cache_reset. apply wp_updc. apply wp_ret.
        apply HI. apply DI_nil_ok. assumption.
      + intros e [[-> N] | E]; [|discriminate]. apply HI. apply DI_nil_fault. apply HF.
        eapply quiet_ne; eassumption.
  Qed.

  Lemma outs_get_signer a :
    wp (get_signer a) (fun r s' => out_get_signer F a c (r, core s')) (mkSt c f).
  Proof.
    unfold get_signer, out_get_signer.
    destruct (a_nosig a); [apply wp_ret; reflexivity|].
    destruct (a_digest a); [apply wp_ret; reflexivity|].
    apply wp_bind, wp_readr. destruct (resolve_args a (db c)) as [kc|e]; [|reflexivity].
    apply wp_bind, wp_getc.
    destruct (al_get ckey_eqb (cache c) (fst kc, match a_locator a with Some l => l | None => snd kc end)) as [g|] eqn:Hit.
    - apply wp_ret. reflexivity.
    - apply wp_bind. apply wp_tpm_read.
      + intros m f' Em Hq. rewrite Em. apply wp_bind. apply wp_updc. apply wp_ret. left. reflexivity.
      + intros e [[-> N] | [-> En]].
        * destruct (al_get name_eqb (tpm c) (fst kc)); right; auto.
        * rewrite En. left. reflexivity.
  Qed.

  Theorem run_op_outs_gen o : outs F o c (run_op f o c).
  Proof.
    rewrite (surjective_pairing (run_op f o c)).
    apply (run_op_wp f o c (fun r c' => outs F o c (r, c'))).
    destruct o; cbn [op_sem outs].
    - apply outs_new_identity.
    - apply outs_touch.
    - eapply wp_conseq; [apply outs_new_key; auto | intros r s' [H _]; exact H].
    - apply wp_txn1_ret.
    - apply wp_txn1_ret.
    - apply wp_readr_guarded. intros _ _. apply wp_txn1_ret.
    - apply wp_readr_guarded. intros i _. apply wp_readr_guarded. intros _ _. apply wp_txn1_ret.
    - apply wp_del_cert.
    - eapply wp_conseq; [apply outs_del_key; auto | intros r s' [H _]; exact H].
    - apply outs_del_identity.
    - apply wp_readr_guarded. intros _ _. eapply wp_conseq; [apply outs_del_key; auto | intros r s' [H _]; exact H].
    - apply wp_readr_guarded. intros i _. apply wp_readr_guarded. intros _ _. apply wp_del_cert.
    - apply outs_get_signer.
    - unfold reopen. apply wp_bind, wp_updc, wp_ret. reflexivity.
  Qed.
  End Op.
End Sound.

Theorem run_op_outs f o c :
  disk c = db c -> wf_tables (db c) -> outs (f <> None) o c (run_op f o c).
Proof. intros Cl W. apply run_op_outs_gen; auto. Qed.
