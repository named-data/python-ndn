(* C16: the issued certificate is accepted by the strict reader of the format (Spec/StrictTlv.v) -- at every nesting
   level, not only at the top -- and the strict reader extracts the same field values.  The encoder-output theorem of
   Proofs/TlvRoundtrip2.v is generic in the element reader; the strict reader is an instance of it. *)
From NDN Require Import Base.Prelude Model.TlvVar Model.Tlv Model.Packet Model.PacketEnc Model.Cert Spec.TlvWf
  Spec.StrictTlv Generated.Schemas Proofs.BytesLemmas Proofs.TlvSplit Proofs.TlvAssign Proofs.TlvRoundtrip
  Proofs.TlvRoundtrip2 Proofs.PacketDecode Proofs.PacketRoundtrip Proofs.CertProofs.
Local Open Scope N_scope.

Lemma strict_val_model d fs ic e :
  strict_val (S d) (KModel fs ic) e =
  match strict_split (e_payload e) with
  | Some els => do vs <- assign_with (strict_val d) fs ic PNormal 0 els (blank fs) ;; Ok (VModel vs)
  | None => Err EIndex
  end.
Proof. reflexivity. Qed.

Lemma strict_val_mono d : pv_le (strict_val d) (strict_val (S d)).
Proof.
  induction d as [|d IH]; intros k e v H; [discriminate|].
  destruct k; try exact H.
  rewrite strict_val_model in H |- *.
  destruct (strict_split (e_payload e)) as [els|]; [|discriminate].
  revert H. apply bind_ok_mono. intros vs. apply assign_mono_in. intros k e0 v0 _. apply IH.
Qed.

(* [enc_read (strict_val d) d] of Proofs/TlvRoundtrip2.v, written out *)
Definition PS (d : nat) : Prop :=
  forall t k v w, wfk t k -> fits k v -> enc_val d t k v = Ok w -> N.of_nat (length w) < two64 ->
  exists els, w = ser_els els /\ good (strict_val d) t k v els.

Lemma enc_fields_good_s d : PS d ->
  forall fs vs w, (forall t k, In (t, k) fs -> wfk t k) -> Forall2 (fun f v => fits (snd f) v) fs vs ->
  enc_fields_with (enc_val d) fs vs = Ok w -> N.of_nat (length w) < two64 ->
  exists items, map it_field items = fs /\ map it_value items = vs /\
                w = ser_els (concat (map it_els items)) /\ Forall (item_good (strict_val d)) items.
Proof. exact (enc_fields_good d). Qed.

Definition strict_spl (w : bytes) : res (list elem) :=
  match strict_split w with Some els => Ok els | None => Err EIndex end.

Lemma strict_val_step d k e : e_dlen e = N.of_nat (length (e_payload e)) ->
  strict_val (S d) k e =
  match k with
  | KModel fs ic =>
      do els <- strict_spl (e_payload e) ;; do vs <- assign_with (strict_val d) fs ic PNormal 0 els (blank fs) ;; Ok (VModel vs)
  | _ => parse_val (S d) k e
  end.
Proof.
  intros Hex. rewrite (strict_val_exact d k e Hex). destruct k; try reflexivity.
  unfold strict_spl. destruct (strict_split (e_payload e)); reflexivity.
Qed.

Lemma strict_spl_ser els : Forall el_ok els -> strict_spl (ser_els els) = Ok els.
Proof. intros H. unfold strict_spl. rewrite (strict_split_ser els H). reflexivity. Qed.

Theorem enc_good_s : forall d, PS d.
Proof. exact (fun d => enc_good_rd strict_val strict_spl strict_val_step strict_spl_ser d d (le_n d)). Qed.

Theorem strict_encode_roundtrip d fs ic vs w :
  wf_fields fs -> Forall2 (fun f v => fits (snd f) v) fs vs ->
  encode_model d fs vs = Ok w -> N.of_nat (length w) < two64 ->
  strict_model d fs ic w = Ok vs.
Proof.
  intros Hwf HF He Hl.
  pose proof (encode_roundtrip_rd strict_val strict_spl strict_val_step strict_spl_ser
                d fs ic vs w Hwf HF He Hl) as H.
  unfold strict_model. unfold strict_spl in H. destruct (strict_split w); exact H.
Qed.

Section Cert.
Variable sign : bytes -> bytes.

Theorem new_cert_strict a m p :
  parts_of sign a m p ->
  N.of_nat (length (m_wire m)) < two64 ->
  Forall wf_comp64 (p_name p) ->
  fits (KModel ndn_format_0_3_SignatureInfo true) (VModel (written_of a)) ->
  strict_cert (m_wire m) = Ok (cert_values (p_name p) (c_pub a) (written_of a) (p_nb p) (p_na p) (p_sv p)).
Proof.
  intros Hp Hl Hn Hw. destruct (new_cert_body sign a m p Hp) as [Ew Eb].
  rewrite Ew in *. apply require_name_tlv; [reflexivity|exact Hl| |discriminate].
  exact (strict_encode_roundtrip _ _ false _ _ (wf_fieldsb_spec _ wf_security_v2_CertificateV2Value)
           (cert_fits _ _ _ _ _ _ Hn Hw) Eb).
Qed.
End Cert.
