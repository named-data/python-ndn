(* C02, both ends for Data: the pointer walk succeeds on whatever the decoder accepts ([ptrs_data_accepts]); a packet value
   the library makes is its declared fields in order, each written as nothing or one element ([slot]), hence a sequence of
   well-formed elements whose Types come in declared order, which the walk accepts ([slots_split] of Proofs/PtrsSplit.v); so for every packet
   the library makes, whatever its fields hold, the receiver's decoder reports exactly the bytes the signer was given. *)
From NDN Require Import Base.Prelude Model.TlvVar Model.Tlv Model.Packet Model.PacketEnc Model.PacketPtrs
  Spec.SignedPortion Generated.Schemas Proofs.TlvSplit Proofs.TlvRoundtrip2 Proofs.SignedPortionProofs
  Proofs.PtrsSplit Proofs.PtrsWalk Proofs.PtrsData.
Local Open Scope N_scope.

Lemma ptrs_data_accepts w vs v :
  dec_data w = Ok vs -> parse_and_check_tl w TYPE_DATA = Ok v -> exists p, ptrs_data_with LD v = Ok p.
Proof.
  unfold dec_data, require_name, gen_decode. intros H Hv. rewrite Hv in H. cbn [bind] in H.
  destruct (parse_model _ _ false v) as [vs'|] eqn:Pm; [|discriminate].
  destruct (parse_model_walk ndn_format_0_3_DataPacketValue LD _ _ _ eq_refl eq_refl Pm) as (rs & ev & Ers & W).
  exact (ptrs_data_of_walk LD v rs ev Ers W).
Qed.

Section Made.
Variable sign : bytes -> bytes.

Theorem made_data_reported d m s :
  make_data sign d = Ok m -> d_sig d = Some s -> N.of_nat (length (m_wire m)) < two64 ->
  exists body p,
    m_wire m = tlv TYPE_DATA body /\ well_formed_value body /\ ptrs_data_with LD body = Ok p /\
    concat (p_sig_covered p) = m_sig_covered m /\ p_sig_value p = value_of_type (S (length body)) 23 body.
Proof.
  intros H Es Hl. destruct (make_data_slots sign d m s H Es) as (segs & F & Ec & Ew).
  rewrite Ew in Hl. apply tlv_len_bound in Hl. pose proof (data_covered _ _ _ F Hl) as Hsp. rewrite <- Ec in Hsp.
  pose proof (slots_split LD _ _ (Forall2_cons _ _ (slot_name (d_name d)) (Forall2_app F
                (Forall2_cons _ _ (slot_tlv T_SIG_VALUE (sign (m_sig_covered m))) (Forall2_nil _))))) as G.
  cbn [concat] in G. rewrite concat_app in G. cbn [concat] in G. rewrite app_nil_r in G.
  destruct G as (sel & ev & Hsel & W & _); [repeat constructor|exact LD_nodup|exact Hl|reflexivity|].
  destruct (ptrs_data_of_strict LD _ sel ev Hsel W) as (p & Hp). destruct (ptrs_data_spec _ sel p Hsel Hp) as (Hval & Hcov & _).
  eexists. exists p. split; [exact Ew|]. split; [exists sel; exact Hsel|]. split; [exact Hp|]. split; [exact (Hcov _ Hsp)|exact Hval].
Qed.

End Made.
