(* C06 (B): packet reception returns normally on every byte string.  Derived from the C07 totality
   theorems (Proofs/PacketTotal.v: the decoders raise only documented classes) plus
   "every except tuple of _receive covers the documented classes" and "the Fragment is guarded".
   Also: the handlers are called with parsed packets only, and a packet that does not decode is dropped; one UDP
   datagram is at most one callback and never an exception, for any tuple that catches what parse_tl_num raises. *)
From NDN Require Import Base.Prelude Model.TlvVar Model.Tlv Model.Packet Model.Stream Model.Receive
  Proofs.TlvVarProofs Proofs.PacketTotal.
Local Open Scope N_scope.

Definition covers (tuple : list err) : Prop := forall e, documented e = true -> catches tuple e = true.
Definition coversb (tuple : list err) : bool :=
  forallb (catches tuple) [EDecode; EIndex; EValue; EStruct; EUnicode].

Lemma coversb_spec tuple : coversb tuple = true -> covers tuple.
Proof.
  unfold coversb. cbn [forallb]. rewrite !andb_true_iff. intros (A & B & C & D & E & _) e He.
  destruct e; try discriminate; assumption.
Qed.

Definition cfg_okb (cfg : rcfg) : bool :=
  coversb (c_lp cfg) && coversb (c_nack cfg) && coversb (c_interest cfg) && coversb (c_data cfg)
  && (1 <=? c_frag_guard cfg) && catches (c_fragtl cfg) EIndex && catches (c_fragtl cfg) EStruct.

Lemma try_parse_no_raise {A} tuple site (r : res A) k e :
  covers tuple -> res_documented r -> (forall a, r = Ok a -> k a <> ARaise e) ->
  try_parse tuple site r k <> ARaise e.
Proof.
  intros Hc Hd Hk. unfold try_parse. destruct r as [a|e0].
  - apply Hk. reflexivity.
  - cbn in Hd. rewrite (Hc _ Hd). discriminate.
Qed.

Lemma dispatch_no_raise cfg nack token typ data e :
  covers (c_nack cfg) -> covers (c_interest cfg) -> covers (c_data cfg) ->
  dispatch cfg nack token typ data <> ARaise e.
Proof.
  intros Hn Hi Hd. unfold dispatch. destruct nack as [reason|].
  - apply try_parse_no_raise; [exact Hn|apply dec_interest_doc|discriminate].
  - destruct (typ =? TYPE_INTEREST).
    + apply try_parse_no_raise; [exact Hi|apply dec_interest_doc|discriminate].
    + destruct (typ =? TYPE_DATA); [|discriminate].
      apply try_parse_no_raise; [exact Hd|apply dec_data_doc|discriminate].
Qed.

(* no exception leaves the part of _receive that precedes the handler call *)
Theorem classify_total cfg : cfg_okb cfg = true -> forall typ data e, classify cfg typ data <> ARaise e.
Proof.
  unfold cfg_okb. rewrite !andb_true_iff. intros ((((((Hl & Hn) & Hi) & Hd) & Hg) & HtI) & HtS) typ data e.
  apply coversb_spec in Hl, Hn, Hi, Hd.
  unfold classify. destruct (typ =? TYPE_LP_PACKET); [|apply dispatch_no_raise; assumption].
  apply try_parse_no_raise; [exact Hl|apply dec_lp_doc|]. intros vs _. cbv zeta.
  destruct (match field_value _ vs LP_FRAGMENT with VBytes b => Some b | _ => None end) as [d|].
  - destruct ((c_frag_guard cfg =? 1) && _); [discriminate|].
    unfold try_parse. destruct (tl_dec d) as [[t sz]|e0] eqn:E.
    + apply dispatch_no_raise; assumption.
    + destruct (tl_dec_err _ _ E) as [-> | ->]; [rewrite HtI|rewrite HtS]; discriminate.
  - rewrite Hg. discriminate.
Qed.

Section Pipeline.
  Variable state : Type.
  Variable on_interest : list bytes -> option bytes -> list value -> bytes -> state -> res state.
  Variable on_data : list bytes -> list value -> bytes -> state -> res state.
  Variable on_nack : list bytes -> N -> state -> res state.
  (* the handlers do not raise on parsed input (C03 / C04 / C05 establish this for the real tables, with the
     exceptions listed in docs/C06.md) *)
  Hypothesis on_interest_total : forall n t vs raw s, exists s', on_interest n t vs raw s = Ok s'.
  Hypothesis on_data_total : forall n vs raw s, exists s', on_data n vs raw s = Ok s'.
  Hypothesis on_nack_total : forall n r s, exists s', on_nack n r s = Ok s'.

  Theorem receive_total cfg : cfg_okb cfg = true ->
    forall typ data s, exists s', receive state on_interest on_data on_nack cfg typ data s = Ok s'.
  Proof.
    intros Hcfg typ data s. unfold receive.
    pose proof (classify_total cfg Hcfg typ data) as Hc.
    destruct (classify cfg typ data) as [site|e|n r|n t vs raw|n vs raw].
    - exists s. reflexivity.
    - exfalso. eapply Hc. reflexivity.
    - apply on_nack_total.
    - apply on_interest_total.
    - apply on_data_total.
  Qed.

  Definition receive_all cfg (ps : list (N * bytes)) (s : state) : res state :=
    fold_left (fun r p => do s0 <- r ;; receive state on_interest on_data on_nack cfg (fst p) (snd p) s0) ps (Ok s).

  Theorem receive_all_total cfg : cfg_okb cfg = true ->
    forall ps s, exists s', receive_all cfg ps s = Ok s'.
  Proof.
    intros Hcfg ps. unfold receive_all. induction ps as [|p ps IH]; intros s; cbn [fold_left].
    - exists s. reflexivity.
    - cbn [bind]. destruct (receive_total cfg Hcfg (fst p) (snd p) s) as [s1 ->]. apply IH.
  Qed.

  Theorem receive_frame cfg typ data site s :
    classify cfg typ data = ADrop site -> receive state on_interest on_data on_nack cfg typ data s = Ok s.
  Proof. intros H. unfold receive. rewrite H. reflexivity. Qed.
End Pipeline.

Definition parsed_only (a : action) : Prop :=
  match a with
  | AInterest _ _ vs raw => dec_interest raw = Ok vs
  | AData _ vs raw => dec_data raw = Ok vs
  | _ => True
  end.

Lemma try_parse_parsed {A} tuple site (r : res A) k :
  (forall a, r = Ok a -> parsed_only (k a)) -> parsed_only (try_parse tuple site r k).
Proof. intros H. unfold try_parse. destruct r as [a|e]; [apply H; reflexivity|]. destruct (catches tuple e); exact I. Qed.

Lemma dispatch_parsed cfg nack token typ data : parsed_only (dispatch cfg nack token typ data).
Proof.
  unfold dispatch. destruct nack; [apply try_parse_parsed; intros; exact I|].
  destruct (typ =? TYPE_INTEREST); [apply try_parse_parsed; intros vs E; exact E|].
  destruct (typ =? TYPE_DATA); [apply try_parse_parsed; intros vs E; exact E|exact I].
Qed.

Theorem receive_calls_only_parsed cfg typ data : parsed_only (classify cfg typ data).
Proof.
  unfold classify. destruct (typ =? TYPE_LP_PACKET); [|apply dispatch_parsed].
  apply try_parse_parsed. intros vs _. cbv zeta.
  destruct (match field_value _ vs LP_FRAGMENT with VBytes b => Some b | _ => None end) as [d|].
  - destruct ((c_frag_guard cfg =? 1) && _); [exact I|].
    apply try_parse_parsed. intros [t sz] _. apply dispatch_parsed.
  - destruct (1 <=? c_frag_guard cfg); [exact I|]. destruct (catches _ _); exact I.
Qed.

Theorem bad_packet_dropped cfg typ data :
  cfg_okb cfg = true -> typ <> TYPE_LP_PACKET ->
  (typ = TYPE_INTEREST -> is_ok (dec_interest data) = false) ->
  (typ = TYPE_DATA -> is_ok (dec_data data) = false) ->
  exists site, classify cfg typ data = ADrop site.
Proof.
  intros Hcfg Hlp Hi Hd. pose proof (classify_total cfg Hcfg typ data) as Hc. revert Hc.
  unfold classify. replace (typ =? TYPE_LP_PACKET) with false by (symmetry; apply N.eqb_neq; exact Hlp).
  unfold dispatch, try_parse. destruct (N.eqb_spec typ TYPE_INTEREST) as [E1|_].
  - destruct (dec_interest data); [discriminate (Hi E1)|].
    destruct (catches _ _); intros Hc; [eexists; reflexivity|destruct (Hc _ eq_refl)].
  - destruct (N.eqb_spec typ TYPE_DATA) as [E2|_]; [|intros; eexists; reflexivity].
    destruct (dec_data data); [discriminate (Hd E2)|].
    destruct (catches _ _); intros Hc; [eexists; reflexivity|destruct (Hc _ eq_refl)].
Qed.

Lemma on_nack_lookup_total name reason t :
  (forall entries, al_get name_eqb t name = Some entries -> existsb (fun d => d) entries = false) ->
  exists t', on_nack_lookup true name reason t = Ok t'.
Proof.
  intros H. unfold on_nack_lookup. destruct (al_get name_eqb t name) as [entries|] eqn:E; [|eexists; reflexivity].
  unfold nack_node. rewrite (H _ eq_refl). cbn. eexists; reflexivity.
Qed.

(* one datagram = at most one callback, never an exception *)
Theorem datagram_total caught data :
  catches caught EIndex = true -> catches caught EStruct = true ->
  exists o, datagram_received caught data = Ok o /\
            match o with Some (typ, d) => d = data /\ exists sz, tl_dec data = Ok (typ, sz) | None => is_ok (tl_dec data) = false end.
Proof.
  intros HI HS. unfold datagram_received. destruct (tl_dec data) as [[typ sz]|e] eqn:E.
  - eexists. split; [reflexivity|]. split; [reflexivity|]. exists sz. reflexivity.
  - destruct (tl_dec_err _ _ E) as [-> | ->]; [rewrite HI|rewrite HS]; eexists; split; reflexivity.
Qed.
