(* C17, protocol part — the invariant of the registration machine for any front-end whose protocol records
   pass [proto_ok], any clock stream and any event history: the semaphore discipline (only its holder sleeps or has
   a command outstanding), and the state of the five specification automata as a function of the machine state.
   Both halves are stated on the fields they read, so that each way the machine changes those fields is one lemma,
   and setting any other field leaves the invariant as it is by computation.  At the end, progress of the timestamp
   loop ([holder_sends_within]). *)
From NDN Require Import Base.Prelude Model.Name Model.Tlv Model.Registerer
  Spec.Registration Proofs.ListLemmas Proofs.BytesLemmas Proofs.TlvAssign Proofs.RegistererBase.
Local Open Scope N_scope.

Ltac cbn_state :=
  cbn [log calls holder queue outst last_ts clk connected routes st_pos st_cur set_calls set_holder set_queue
       set_outst set_last tick_clk set_conn set_routes set_starter emit set_status].

Definition sent_flag (c : cstatus) : bool := match c with COut | CDone _ => true | _ => false end.
Definition summary (c : call) : kind * name * bool := (c_kind c, c_prefix c, sent_flag (c_st c)).
Definition active (c : cstatus) : bool := match c with CSleep _ | COut => true | _ => false end.
Definition out_l (h : option nat) (l : list call) : list nat :=
  match h with
  | Some h => match stat l h with Some COut => [h] | _ => [] end
  | None => []
  end.

Lemma stat_nth l id c0 : stat l id = Some c0 -> exists c, nth_error l id = Some c /\ c_st c = c0.
Proof.
  unfold stat. destruct (nth_error l id) as [c|]; [|discriminate]. cbn [option_map]. intros H.
  injection H as <-. now exists c.
Qed.
Lemma stat_upd_eq l id x c : stat l id = Some c -> stat (upd l id (with_status x)) id = Some x.
Proof.
  intros H. destruct (stat_nth _ _ _ H) as (c1 & E & _). unfold stat. now rewrite (nth_error_upd_eq _ _ _ _ E).
Qed.
Lemma stat_upd_neq l id x j : id <> j -> stat (upd l id (with_status x)) j = stat l j.
Proof. intros H. unfold stat. now rewrite nth_error_upd_neq. Qed.
Lemma stat_lt l id c : stat l id = Some c -> (id < length l)%nat.
Proof. intros H. destruct (stat_nth _ _ _ H) as (c1 & E & _). apply nth_error_Some. congruence. Qed.
Lemma stat_app_old l c j : (j < length l)%nat -> stat (l ++ [c]) j = stat l j.
Proof. intros H. unfold stat. now rewrite nth_error_app1. Qed.
Lemma stat_app_new l c : stat (l ++ [c]) (length l) = Some (c_st c).
Proof. unfold stat. rewrite nth_error_app2 by lia. now rewrite Nat.sub_diag. Qed.

Lemma summary_upd_same l id x c :
  nth_error l id = Some c -> sent_flag x = sent_flag (c_st c) -> map summary (upd l id (with_status x)) = map summary l.
Proof.
  intros E Hf. erewrite map_upd_at; [|exact E|reflexivity].
  apply upd_same_val. rewrite (map_nth_error summary _ _ E). unfold summary, with_status. cbn [c_kind c_prefix c_st].
  now rewrite Hf.
Qed.

(* the auto-registration automaton remembers the routes and, while the starting task runs, the first [pos] of them:
   those it has registered on this connection *)
Definition auto_st (rs : list name) (pos : option nat) : option (list name * option (list name)) :=
  Some (rs, option_map (fun i => firstn i rs) pos).

Lemma auto_send a c : auto_step a (OSend c) = a.
Proof. destruct a as [[rs [l|]]|]; reflexivity. Qed.
Lemma auto_done a id r o : auto_step a (ODone id r o) = a.
Proof. destruct a as [[rs [l|]]|]; reflexivity. Qed.
Lemma auto_call_plain a id k nm : auto_step a (OCall id k nm false) = a.
Proof. destruct a as [[rs [l|]]|]; destruct k; reflexivity. Qed.

Lemma auto_next rs i id nm :
  nth_error rs i = Some nm -> auto_step (auto_st rs (Some i)) (OCall id KReg nm true) = auto_st rs (Some (S i)).
Proof. intros En. unfold auto_st. cbn [auto_step option_map]. now rewrite (firstn_S_nth _ _ _ En). Qed.

Lemma auto_started rs i : nth_error rs i = None -> auto_step (auto_st rs (Some i)) (OStarted true) = auto_st rs None.
Proof.
  intros En. unfold auto_st. cbn [auto_step option_map].
  rewrite firstn_all2 by (now apply nth_error_None). now rewrite (list_eqb_refl _ name_eqb_spec).
Qed.

Set Implicit Arguments.
Record Sem (cs : list call) (h : option nat) (q o : list nat) : Prop := {
  S_outst : o = out_l h cs;
  S_active : forall id c, stat cs id = Some c -> active c = true -> h = Some id;
  S_queue : forall id, In id q -> stat cs id = Some CWait /\ h <> Some id;
  S_qnodup : NoDup q;
  S_hlt : forall id, h = Some id -> (id < length cs)%nat
}.

(* The specification automata as functions of calls, outstanding commands, the last timestamp [lt], the routes and the
   position [pos] of the starting task: every command is stamped with [last_ts] ([send_eq]), so the last stamp sent is
   at most [lt]; at most one command is out, and the serial automaton remembers it; no starting task runs on a closed
   face. *)
Record Logs (va : bool) (l : list obs) (cs : list call) (o : list nat) (lt : N)
            (rs : list name) (pos : option nat) (conn : bool) : Prop := {
  L_serial : check serial_step None l = Some (hd_error o);
  L_percall : check percall_step [] l = Some (map summary cs);
  L_ts : exists m, check ts_step None l = Some m /\ forall t, m = Some t -> t <= lt;
  L_outcomes : outcomes_ok va l = true;
  L_auto : check auto_step ([], None) l = auto_st rs pos;
  L_conn : conn = false -> pos = None
}.
Unset Implicit Arguments.

Lemma Sem_status {cs h q o id c0} x :
  Sem cs h q o -> h = Some id -> stat cs id = Some c0 ->
  Sem (upd cs id (with_status x)) h q (match x with COut => [id] | _ => [] end).
Proof.
  intros [A B C D E] -> Hs. constructor.
  - unfold out_l. rewrite (stat_upd_eq _ _ x _ Hs). reflexivity.
  - intros j c Hj Ha. destruct (Nat.eq_dec id j) as [<-|Hne]; [reflexivity|].
    rewrite stat_upd_neq in Hj by exact Hne. exact (B j c Hj Ha).
  - intros j Hj. destruct (C j Hj) as [C1 C2]. split; [|exact C2].
    rewrite stat_upd_neq; [exact C1|]. intros ->. now apply C2.
  - exact D.
  - intros j Hj. rewrite upd_length. exact (E j Hj).
Qed.

Lemma Sem_unsent {cs h q o id c0} :
  Sem cs h q o -> h = Some id -> stat cs id = Some c0 -> sent_flag c0 = false -> o = [].
Proof.
  intros [A _ _ _ _] -> Hs Hf. rewrite A. unfold out_l. rewrite Hs. destruct c0; try discriminate; reflexivity.
Qed.

Lemma Sem_out {cs h q o} id : Sem cs h q o -> In id o -> h = Some id /\ stat cs id = Some COut /\ o = [id].
Proof.
  intros [A _ _ _ _] Hin. subst o. unfold out_l in *. destruct h as [h|]; [|destruct Hin].
  destruct (stat cs h) as [[| | |]|] eqn:Es; try (now destruct Hin). destruct Hin as [<-|[]]. now repeat split.
Qed.

Lemma Sem_one_active {cs h q o i j c c'} :
  Sem cs h q o -> stat cs i = Some c -> active c = true -> stat cs j = Some c' -> active c' = true -> i = j.
Proof.
  intros HS Hi Ai Hj Aj. pose proof (S_active HS i Hi Ai) as E. rewrite (S_active HS j Hj Aj) in E. now injection E.
Qed.

Lemma Sem_call {cs h q o} c : Sem cs h q o -> c_st c = CWait -> Sem (cs ++ [c]) h q o.
Proof.
  intros [A B C D E] Hc. constructor.
  - rewrite A. unfold out_l. destruct h as [h|]; [|reflexivity]. now rewrite stat_app_old by (now apply E).
  - intros j c1 Hj Ha. destruct (Nat.eq_dec j (length cs)) as [->|Hne].
    + rewrite stat_app_new, Hc in Hj. injection Hj as <-. discriminate.
    + pose proof (stat_lt _ _ _ Hj) as Hl. rewrite app_length in Hl. cbn [length] in Hl.
      rewrite stat_app_old in Hj by lia. exact (B j c1 Hj Ha).
  - intros j Hj. destruct (C j Hj) as [C1 C2]. split; [|exact C2].
    rewrite stat_app_old; [exact C1|exact (stat_lt _ _ _ C1)].
  - exact D.
  - intros j Hj. rewrite app_length. specialize (E j Hj). lia.
Qed.

Lemma Sem_enqueue {cs h q o id} :
  Sem cs h q o -> stat cs id = Some CWait -> ~ In id q -> h <> Some id -> Sem cs h (q ++ [id]) o.
Proof.
  intros [A B C D E] Hs Hq Hh. constructor; try assumption.
  - intros j Hj. apply in_app_iff in Hj as [Hj|[<-|[]]]; [exact (C j Hj)|now split].
  - now apply NoDup_snoc.
Qed.

Lemma Sem_take {cs q o} id : Sem cs None q o -> stat cs id = Some CWait -> ~ In id q -> Sem cs (Some id) q o.
Proof.
  intros [A B C D E] Hs Hq. constructor.
  - unfold out_l. now rewrite Hs.
  - intros j c Hj Ha. discriminate (B j c Hj Ha).
  - intros j Hj. split; [exact (proj1 (C j Hj))|]. intros Heq. injection Heq as <-. exact (Hq Hj).
  - exact D.
  - intros j Hj. injection Hj as <-. exact (stat_lt _ _ _ Hs).
Qed.

(* the holder has returned and releases: nobody is active, the permit passes to the head waiter at once *)
Lemma Sem_release {cs h q o id x} :
  Sem cs h q o -> h = Some id -> stat cs id = Some (CDone x) -> Sem cs (hd_error q) (tl q) o.
Proof.
  intros [A B C D E] -> Hs.
  assert (Hq : forall j, hd_error q = Some j -> stat cs j = Some CWait /\ ~ In j (tl q)).
  { destruct q as [|w q]; [discriminate|]. intros j Hj. injection Hj as ->.
    split; [apply C; now left|now inversion D]. }
  constructor.
  - rewrite A. unfold out_l. rewrite Hs. destruct (hd_error q) as [j|]; [|reflexivity].
    now rewrite (proj1 (Hq j eq_refl)).
  - intros j c Hj Ha. pose proof (B j c Hj Ha) as Hj'. injection Hj' as <-. rewrite Hs in Hj.
    injection Hj as <-. discriminate.
  - intros j Hj. split; [apply C; destruct q; [destruct Hj|now right]|]. intros Hh. exact (proj2 (Hq j Hh) Hj).
  - destruct q; [constructor|now inversion D].
  - intros j Hj. exact (stat_lt _ _ _ (proj1 (Hq j Hj))).
Qed.

Definition neutral (o : obs) : Prop :=
  match o with OCall _ _ _ _ | OSend _ | ODone _ _ _ => False | _ => True end.

(* what is neutral for four automata is what moves the fifth *)
Lemma Logs_neutral {va l cs o lt rs pos conn} ob rs' pos' conn' :
  neutral ob -> auto_step (auto_st rs pos) ob = auto_st rs' pos' -> (conn' = false -> pos' = None) ->
  Logs va l cs o lt rs pos conn -> Logs va (l ++ [ob]) cs o lt rs' pos' conn'.
Proof.
  intros Hn Ha Hc [F G (m & H1 & H2) K A _]. constructor; [| | | |now rewrite check_snoc, A|exact Hc].
  - rewrite check_snoc, F. destruct (hd_error o); destruct ob; try contradiction; reflexivity.
  - rewrite check_snoc, G. destruct ob; try contradiction; reflexivity.
  - exists m. split; [|exact H2]. rewrite check_snoc, H1. destruct m; destruct ob; try contradiction; reflexivity.
  - unfold outcomes_ok in *. rewrite forallb_app, K. destruct ob; try contradiction; reflexivity.
Qed.

Lemma Logs_call {va l cs o lt rs pos conn} k nm a pos' :
  auto_step (auto_st rs pos) (OCall (length cs) k nm a) = auto_st rs pos' -> (conn = false -> pos' = None) ->
  Logs va l cs o lt rs pos conn ->
  Logs va (l ++ [OCall (length cs) k nm a]) (cs ++ [{| c_kind := k; c_prefix := nm; c_auto := a; c_st := CWait |}]) o lt
       rs pos' conn.
Proof.
  intros Ha Hc [F G (m & H1 & H2) K A _]. constructor; [| | | |now rewrite check_snoc, A|exact Hc].
  - rewrite check_snoc, F. destruct (hd_error o); reflexivity.
  - rewrite check_snoc, G. cbn [percall_step]. rewrite map_length, Nat.eqb_refl, map_app. reflexivity.
  - exists m. split; [|exact H2]. rewrite check_snoc, H1. destruct m; reflexivity.
  - unfold outcomes_ok in *. rewrite forallb_app, K. reflexivity.
Qed.

Lemma Logs_send {va l cs o lt rs pos conn} id {c v} :
  Logs va l cs o lt rs pos conn -> o = [] -> nth_error cs id = Some c -> sent_flag (c_st c) = false -> lt < v ->
  Logs va (l ++ [OSend {| m_call := id; m_kind := c_kind c; m_prefix := c_prefix c; m_ts := v |}])
       (upd cs id (with_status COut)) (o ++ [id]) v rs pos conn.
Proof.
  intros [F G (m & H1 & H2) K A C] -> En Hf Hv. constructor; [| | | |now rewrite check_snoc, auto_send|exact C].
  - rewrite check_snoc, F. reflexivity.
  - rewrite check_snoc, G. cbn [percall_step m_call m_kind m_prefix].
    rewrite (map_nth_error summary _ _ En). unfold summary at 1. rewrite Hf.
    replace (kind_eqb (c_kind c) (c_kind c)) with true by (destruct (c_kind c); reflexivity).
    rewrite name_eqb_refl. cbn [andb]. f_equal. symmetry. eapply map_upd_at; [exact En|reflexivity].
  - exists (Some v). split; [|intros t Ht; injection Ht as <-; apply N.le_refl]. rewrite check_snoc, H1.
    destruct m as [t|]; cbn [ts_step m_ts]; [|reflexivity].
    now rewrite (proj2 (N.ltb_lt t v) (N.le_lt_trans _ _ _ (H2 t eq_refl) Hv)).
  - unfold outcomes_ok in *. rewrite forallb_app, K. reflexivity.
Qed.

Lemma Logs_done {va l cs o lt rs pos conn id c} r :
  Logs va l cs o lt rs pos conn -> o = [id] -> nth_error cs id = Some c -> c_st c = COut ->
  Logs va (l ++ [ODone id r (Ret (answers_200 va r))])
       (upd cs id (with_status (CDone (Ret (answers_200 va r))))) [] lt rs pos conn.
Proof.
  intros [F G (m & H1 & H2) K A C] -> En Hc. constructor; [| | | |now rewrite check_snoc, auto_done|exact C].
  - rewrite check_snoc, F. cbn [hd_error serial_step]. now rewrite Nat.eqb_refl.
  - rewrite check_snoc, G. cbn [percall_step]. rewrite (map_nth_error summary _ _ En). unfold summary at 1.
    rewrite Hc. cbn [sent_flag]. f_equal. symmetry. apply (summary_upd_same _ _ _ c En). now rewrite Hc.
  - exists m. split; [|exact H2]. rewrite check_snoc, H1. destruct m; reflexivity.
  - unfold outcomes_ok in *. rewrite forallb_app, K. cbn [forallb outcome_ok]. now rewrite Bool.eqb_reflx.
Qed.

Lemma Logs_status {va l cs o lt rs pos conn} id {c} x :
  Logs va l cs o lt rs pos conn -> nth_error cs id = Some c -> sent_flag x = sent_flag (c_st c) ->
  Logs va l (upd cs id (with_status x)) o lt rs pos conn.
Proof.
  intros [F G H K A C] En Hf. constructor; try assumption. rewrite G. f_equal. symmetry.
  exact (summary_upd_same _ _ _ c En Hf).
Qed.

Lemma remove_id_single id : remove_id id [id] = [].
Proof. cbn. now rewrite Nat.eqb_refl. Qed.

Section Inv.
  Variable fe : kind -> proto.
  Variable clock : nat -> N.
  Hypothesis Hfe : frontend_ok fe.

  Lemma fe_ok k : proto_ok (fe k) = true.
  Proof. destruct Hfe as (A & B & _). destruct k; assumption. Qed.
  Lemma fe_va k : p_validates (fe k) = p_validates (fe KReg).
  Proof. destruct Hfe as (_ & _ & C). destruct k; [reflexivity|now rewrite C]. Qed.

  Definition Inv (s : state) : Prop :=
    Sem (calls s) (holder s) (queue s) (outst s) /\
    Logs (p_validates (fe KReg)) (log s) (calls s) (outst s) (last_ts s) (routes s) (st_pos s) (connected s).

  Lemma proto_of_call s id c : nth_error (calls s) id = Some c -> proto_of fe s id = Some (fe (c_kind c)).
  Proof. intros E. unfold proto_of. now rewrite E. Qed.

  Lemma send_eq s id c :
    nth_error (calls s) id = Some c ->
    send fe clock s id =
      emit (set_outst (set_status s id COut) (outst s ++ [id]))
           (OSend {| m_call := id; m_kind := c_kind c; m_prefix := c_prefix c; m_ts := last_ts s |}).
  Proof.
    intros E. unfold send. rewrite E.
    destruct (proto_ok_inv _ (fe_ok (c_kind c))) as (_ & Hts & Hrec & _).
    rewrite Hrec. destruct (p_ts (fe (c_kind c))); [discriminate| |]; reflexivity.
  Qed.

  Lemma send_inv s id c0 v :
    Inv s -> holder s = Some id -> status s id = Some c0 -> sent_flag c0 = false -> last_ts s < v ->
    Inv (send fe clock (set_last s v) id).
  Proof.
    intros [HS HL] Hh Hs Hf Hv. destruct (stat_nth _ _ _ Hs) as (c & En & <-).
    pose proof (Sem_unsent HS Hh Hs Hf) as Ho.
    rewrite (send_eq (set_last s v) id c En). split; cbn_state.
    - rewrite Ho. exact (Sem_status COut HS Hh Hs).
    - exact (Logs_send id HL Ho En Hf Hv).
  Qed.

  Lemma send_status s id c0 : status s id = Some c0 -> status (send fe clock s id) id = Some COut.
  Proof.
    intros Hs. unfold status in Hs. destruct (stat_nth _ _ _ Hs) as (c & En & _).
    rewrite (send_eq s id c En). exact (stat_upd_eq _ _ COut _ Hs).
  Qed.

  Lemma ts_try_inv s id c0 left :
    Inv s -> holder s = Some id -> status s id = Some c0 -> sent_flag c0 = false ->
    Inv (ts_try fe clock s id left true).
  Proof.
    intros HI Hh Hs Hf. destruct left as [|l]; cbn [ts_try].
    - apply (send_inv s id c0); [assumption..|lia].
    - destruct (N.ltb_spec (last_ts s) (clock (clk s))) as [El|_].
      + exact (send_inv (tick_clk s) id c0 _ HI Hh Hs Hf El).
      + destruct HI as [HS HL]. destruct (stat_nth _ _ _ Hs) as (c & En & <-). split; cbn_state.
        * rewrite (Sem_unsent HS Hh Hs Hf). exact (Sem_status (CSleep l) HS Hh Hs).
        * exact (Logs_status id (CSleep l) HL En (eq_sym Hf)).
  Qed.

  Lemma ts_try_status s id c0 l :
    status s id = Some c0 ->
    status (ts_try fe clock s id l true) id = Some COut \/
    exists l', l = S l' /\ status (ts_try fe clock s id l true) id = Some (CSleep l').
  Proof.
    intros Hs. destruct l as [|l']; cbn [ts_try].
    - left. apply (send_status _ id c0). exact Hs.
    - destruct (last_ts s <? clock (clk s)).
      + left. apply (send_status _ id c0). exact Hs.
      + right. exists l'. split; [reflexivity|]. exact (stat_upd_eq _ _ _ _ Hs).
  Qed.

  Lemma proceed_inv s id :
    Inv s -> holder s = Some id -> status s id = Some CWait -> Inv (proceed fe clock s id).
  Proof.
    intros HI Hh Hs. unfold proceed. destruct (stat_nth _ _ _ Hs) as (c & En & Hc). rewrite (proto_of_call _ _ _ En).
    destruct (proto_ok_inv _ (fe_ok (c_kind c))) as (_ & Hts & _).
    destruct (p_ts (fe (c_kind c))) as [|k b|]; [discriminate| |].
    - cbn [ts_mode_ok] in Hts. subst b. exact (ts_try_inv s id CWait k HI Hh Hs eq_refl).
    - apply (send_inv (tick_clk s) id CWait); [exact HI|exact Hh|exact Hs|reflexivity|cbn_state; lia].
  Qed.

  Lemma acquire_inv s id :
    Inv s -> status s id = Some CWait -> ~ In id (queue s) -> holder s <> Some id ->
    Inv (acquire fe clock s id).
  Proof.
    intros [HS HL] Hs Hq Hh. unfold acquire. destruct (stat_nth _ _ _ Hs) as (c & En & Hc).
    rewrite (proto_of_call _ _ _ En). destruct (proto_ok_inv _ (fe_ok (c_kind c))) as (-> & _).
    destruct (holder s) as [h|] eqn:Eh.
    - split; [cbn_state; rewrite Eh; exact (Sem_enqueue HS Hs Hq Hh)|exact HL].
    - apply proceed_inv; [|reflexivity|exact Hs]. split; [exact (Sem_take id HS Hs Hq)|exact HL].
  Qed.

  (* [pos0]: where the starting task stood before it entered this call (it has moved on already) *)
  Lemma spawn_inv s k nm a pos0 :
    Sem (calls s) (holder s) (queue s) (outst s) ->
    Logs (p_validates (fe KReg)) (log s) (calls s) (outst s) (last_ts s) (routes s) pos0 (connected s) ->
    auto_step (auto_st (routes s) pos0) (OCall (length (calls s)) k nm a) = auto_st (routes s) (st_pos s) ->
    (connected s = false -> st_pos s = None) ->
    Inv (spawn fe clock s k nm a).
  Proof.
    intros HS HL Ha Hc. unfold spawn. apply acquire_inv; unfold status; cbn_state.
    - split; [apply Sem_call; [exact HS|reflexivity]|exact (Logs_call k nm a _ Ha Hc HL)].
    - apply stat_app_new.
    - intros Hq. destruct (S_queue HS _ Hq) as [C1 _]. apply stat_lt in C1. lia.
    - intros Hh. pose proof (S_hlt HS Hh). lia.
  Qed.

  Lemma spawn_plain_inv s k nm : Inv s -> Inv (spawn fe clock s k nm false).
  Proof. intros [HS HL]. exact (spawn_inv s k nm false _ HS HL (auto_call_plain _ _ _ _) (L_conn HL)). Qed.

  Lemma spawn_frame s k nm a h c :
    holder s = Some h -> status s h = Some c ->
    holder (spawn fe clock s k nm a) = Some h /\ status (spawn fe clock s k nm a) h = Some c.
  Proof.
    intros Hh Hs. unfold spawn, acquire, proto_of, status in *. cbn_state.
    rewrite nth_error_app2 by lia. rewrite Nat.sub_diag. cbn [nth_error option_map c_kind].
    destruct (proto_ok_inv _ (fe_ok k)) as (-> & _). cbn_state. rewrite Hh. cbn_state. split; [exact Hh|].
    rewrite stat_app_old by (exact (stat_lt _ h c Hs)). exact Hs.
  Qed.

  Lemma starter_next_inv s : Inv s -> Inv (starter_next fe clock s).
  Proof.
    intros HI. unfold starter_next. destruct (st_pos s) as [i|] eqn:Ep; [|exact HI].
    destruct HI as [HS HL]. rewrite Ep in HL. destruct (nth_error (routes s) i) as [nm|] eqn:En.
    - apply (spawn_inv _ _ _ _ (Some i)); [exact HS|exact HL|exact (auto_next _ _ _ _ En)|].
      intros Hc. discriminate (L_conn HL Hc).
    - split; [exact HS|]. exact (Logs_neutral (OStarted true) _ None _ I (auto_started _ _ En) (fun _ => eq_refl) HL).
  Qed.

  Lemma starter_next_frame s h c :
    holder s = Some h -> status s h = Some c ->
    holder (starter_next fe clock s) = Some h /\ status (starter_next fe clock s) h = Some c.
  Proof.
    intros Hh Hs. unfold starter_next. destruct (st_pos s) as [i|]; [|split; assumption].
    destruct (nth_error (routes s) i) as [nm|].
    - apply spawn_frame; [exact Hh|exact Hs].
    - split; assumption.
  Qed.

  Definition starter_resume (s : state) (id : nat) : state :=
    match st_cur s with
    | Some c => if Nat.eqb c id then starter_next fe clock (set_starter s (st_pos s) None) else s
    | None => s
    end.

  Lemma complete_eq s id r b :
    complete fe clock s id r (Ret b) =
    let s1 := emit (set_outst (set_status s id (CDone (Ret b))) (remove_id id (outst s))) (ODone id r (Ret b)) in
    if match holder s with Some h => Nat.eqb h id | None => false end then
      match queue s with
      | [] => starter_resume (set_holder s1 None) id
      | w :: q => proceed fe clock (starter_resume (set_queue (set_holder s1 (Some w)) q) id) w
      end
    else starter_resume s1 id.
  Proof.
    unfold complete, starter_resume. set (s1 := emit _ _).
    change (holder s1) with (holder s). change (queue s1) with (queue s).
    destruct (match holder s with Some h => Nat.eqb h id | None => false end); [destruct (queue s)|]; reflexivity.
  Qed.

  Lemma starter_resume_inv s id : Inv s -> Inv (starter_resume s id).
  Proof.
    intros HI. unfold starter_resume. destruct (st_cur s) as [c|]; [|exact HI]. destruct (Nat.eqb c id); [|exact HI].
    apply starter_next_inv. exact HI.
  Qed.

  Lemma starter_resume_frame s id h c :
    holder s = Some h -> status s h = Some c ->
    holder (starter_resume s id) = Some h /\ status (starter_resume s id) h = Some c.
  Proof.
    intros Hh Hs. unfold starter_resume. destruct (st_cur s) as [c0|]; [|now split].
    destruct (Nat.eqb c0 id); [|now split].
    now apply starter_next_frame.
  Qed.

  Lemma complete_inv s id r :
    Inv s -> In id (outst s) ->
    Inv (complete fe clock s id r (Ret (answers_200 (p_validates (fe KReg)) r))).
  Proof.
    intros [HS HL] Hin. destruct (Sem_out id HS Hin) as (Hh & Hs & Ho).
    destruct (stat_nth _ _ _ Hs) as (c & En & Hc).
    rewrite complete_eq, Hh, Nat.eqb_refl, Ho, remove_id_single. cbn zeta.
    set (o := Ret (answers_200 (p_validates (fe KReg)) r)).
    set (s1 := emit (set_outst (set_status s id (CDone o)) []) (ODone id r o)).
    pose proof (Sem_status (CDone o) HS Hh Hs) as HS1.
    pose proof (Logs_done r HL Ho En Hc) as HL1.
    pose proof (Sem_release HS1 Hh (stat_upd_eq _ _ _ _ Hs)) as HS2.
    pose proof (S_queue HS1) as Hq. revert HS2 Hq.
    destruct (queue s) as [|w q] eqn:Eq; cbn [hd_error tl]; intros HS2 Hq.
    - apply starter_resume_inv. split; [unfold s1; cbn_state; rewrite Eq; exact HS2|exact HL1].
    - destruct (Hq w (or_introl eq_refl)) as [Sw _].
      destruct (starter_resume_frame (set_queue (set_holder s1 (Some w)) q) id w CWait eq_refl Sw) as [Hh3 Hs3].
      apply proceed_inv; [apply starter_resume_inv; split; [exact HS2|exact HL1]|exact Hh3|exact Hs3].
  Qed.

  Lemma wake_inv ids : forall s, Inv s -> Inv (wake fe clock s ids).
  Proof.
    induction ids as [|id r IH]; intros s HI; cbn [wake]; [exact HI|]. apply IH.
    destruct (status s id) as [[|l| |]|] eqn:Es; try exact HI.
    destruct (stat_nth _ _ _ Es) as (c & En & Hc). rewrite (proto_of_call _ _ _ En).
    destruct (proto_ok_inv _ (fe_ok (c_kind c))) as (_ & Hts & _).
    destruct (p_ts (fe (c_kind c))) as [|k b|]; try exact HI.
    cbn [ts_mode_ok] in Hts. subst b.
    apply (ts_try_inv s id (CSleep l)); [exact HI| |exact Es|reflexivity].
    exact (S_active (proj1 HI) id Es eq_refl).
  Qed.

  Lemma wake_app s a b : wake fe clock s (a ++ b) = wake fe clock (wake fe clock s a) b.
  Proof. revert s. induction a as [|x a IH]; intros s; cbn [app wake]; [reflexivity|apply IH]. Qed.

  Lemma wake_idle ids : forall s,
    (forall j l, In j ids -> status s j <> Some (CSleep l)) -> wake fe clock s ids = s.
  Proof.
    induction ids as [|x r IH]; intros s H; cbn [wake]; [reflexivity|].
    destruct (status s x) as [[|l| |]|] eqn:E;
      try (apply IH; intros j l0 Hj; apply H; right; exact Hj).
    exfalso. exact (H x l (or_introl eq_refl) E).
  Qed.

  Lemma init_inv : Inv init.
  Proof.
    split; constructor; try reflexivity.
    - intros [|id] c H; discriminate H.
    - intros id [].
    - constructor.
    - discriminate.
    - exists None. split; [reflexivity|discriminate].
  Qed.

  Lemma step_inv s e : Inv s -> Inv (step fe clock s e).
  Proof.
    intros HI. destruct e as [k nm|i r| | |nm| |]; cbn [step].
    - destruct (connected s); [apply spawn_plain_inv|]; exact HI.
    - destruct (nth_error (outst s) i) as [id|] eqn:Ei; [|exact HI].
      unfold proto_of. destruct (nth_error (calls s) id) as [c|]; cbn [option_map]; [|exact HI].
      rewrite (finish_ok _ r (fe_ok (c_kind c))), fe_va.
      apply complete_inv; [exact HI|]. eapply nth_error_In. exact Ei.
    - apply wake_inv. exact HI.
    - exact HI.
    - destruct (st_pos s) as [i|] eqn:Ep; [exact HI|].
      assert (I1 : Inv (emit (set_routes s (routes s ++ [nm])) (ORoute nm))).
      { destruct HI as [HS HL]. split; [exact HS|]. cbn_state. rewrite Ep in *.
        now refine (Logs_neutral (ORoute nm) _ None _ I _ (L_conn HL) HL). }
      destruct (connected s); [apply spawn_plain_inv|]; exact I1.
    - destruct (connected s) eqn:Ec; [exact HI|]. apply starter_next_inv. destruct HI as [HS HL].
      split; [exact HS|]. cbn_state. rewrite (L_conn HL Ec) in HL.
      now refine (Logs_neutral OConnect _ (Some O) true I _ _ HL).
    - destruct (connected s && idle s) eqn:Ei; [|exact HI].
      apply andb_true_iff in Ei as [_ Ei]. apply andb_true_iff in Ei as [_ Ei].
      destruct HI as [HS HL]. split; [exact HS|]. cbn_state. destruct (st_pos s); [discriminate|].
      now refine (Logs_neutral ODisconnect _ None false I _ _ HL).
  Qed.

  Theorem run_inv evs : Inv (run_events fe clock evs).
  Proof. exact (fold_left_inv Inv _ step_inv evs init init_inv). Qed.

  Theorem run_serial evs : serial_ok (log (run_events fe clock evs)) = true.
  Proof. unfold serial_ok. now rewrite (L_serial (proj2 (run_inv evs))). Qed.

  Theorem run_one_outstanding evs : (length (outst (run_events fe clock evs)) <= 1)%nat.
  Proof.
    rewrite (S_outst (proj1 (run_inv evs))). unfold out_l. destruct (holder _); [|cbn; lia].
    destruct (stat _ _) as [[| | |]|]; cbn; lia.
  Qed.

  Theorem run_timestamps evs : timestamps_ok (log (run_events fe clock evs)) = true.
  Proof. unfold timestamps_ok. destruct (L_ts (proj2 (run_inv evs))) as (m & -> & _). reflexivity. Qed.

  Theorem run_percall evs : percall_ok (log (run_events fe clock evs)) = true.
  Proof. unfold percall_ok. now rewrite (L_percall (proj2 (run_inv evs))). Qed.

  Theorem run_outcomes evs : outcomes_ok (p_validates (fe KReg)) (log (run_events fe clock evs)) = true.
  Proof. exact (L_outcomes (proj2 (run_inv evs))). Qed.

  Theorem run_autoreg evs : autoreg_ok (log (run_events fe clock evs)) = true.
  Proof. unfold autoreg_ok. now rewrite (L_auto (proj2 (run_inv evs))). Qed.

  (* Progress of the timestamp loop: the call that holds the semaphore and sleeps in the loop with [l] readings
     left puts its command on the face after at most l+1 ticks, whatever the clock does (the for-else bump).
     Together with C17_one_command_per_call: once a call has the semaphore it sends exactly one command. *)
  Section Live.
    (* the front-end chooses its timestamps with the wait loop (appv2) *)
    Hypothesis Hloop : forall k, exists n, p_ts (fe k) = TsLoop n true.

    Lemma tick_holder s id l :
      Inv s -> status s id = Some (CSleep l) -> step fe clock s ETick = ts_try fe clock s id l true.
    Proof.
      intros HI Hs. cbn [step]. pose proof (stat_lt _ _ _ Hs) as Hlt.
      replace (length (calls s)) with (id + S (length (calls s) - S id))%nat by lia.
      rewrite seq_app, wake_app, (wake_idle (seq 0 id)).
      2:{ intros j l0 Hj Hsl. apply in_seq in Hj. rewrite (Sem_one_active (proj1 HI) Hsl eq_refl Hs eq_refl) in Hj. lia. }
      cbn [seq plus wake]. rewrite Hs. destruct (stat_nth _ _ _ Hs) as (c & En & _). rewrite (proto_of_call s id c En).
      destruct (Hloop (c_kind c)) as (n & ->).
      apply wake_idle. intros j l0 Hj Hsl. apply in_seq in Hj.
      (* the holder still sleeps or has sent, so it is still the only active call *)
      pose proof (ts_try_inv s id (CSleep l) l HI (S_active (proj1 HI) id Hs eq_refl) Hs eq_refl) as HI'.
      destruct (ts_try_status s id _ l Hs) as [H|(l' & _ & H)];
        rewrite (Sem_one_active (proj1 HI') Hsl eq_refl H eq_refl) in Hj; lia.
    Qed.

    Lemma tick_status s id l :
      Inv s -> status s id = Some (CSleep l) ->
      status (step fe clock s ETick) id = Some COut \/
      exists l', l = S l' /\ status (step fe clock s ETick) id = Some (CSleep l').
    Proof. intros HI Hs. rewrite (tick_holder s id l HI Hs). exact (ts_try_status s id _ l Hs). Qed.

    Theorem holder_sends_within : forall l s id,
      Inv s -> status s id = Some (CSleep l) ->
      exists n, (n <= S l)%nat /\ status (fold_left (step fe clock) (repeat ETick n) s) id = Some COut.
    Proof.
      induction l as [|l IH]; intros s id HI Hs; destruct (tick_status s id _ HI Hs) as [H|(l' & E & H)].
      1, 3: exists 1%nat; split; [lia|exact H].
      - discriminate E.
      - injection E as <-. destruct (IH _ id (step_inv s ETick HI) H) as (n & Hn & Hst).
        exists (S n). split; [lia|exact Hst].
    Qed.
  End Live.
End Inv.
