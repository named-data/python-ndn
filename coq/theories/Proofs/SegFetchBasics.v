(* C19: segment components, name surgery, request equality, what [yields] / [asked] / [observe] make of a concatenated
   trace, the retry loop by its one equation. *)
From NDN Require Import Base.Prelude Model.TlvVar Model.Name Model.SegFetch Spec.SegFetchSpec.
From NDN Require Import Proofs.BytesLemmas Proofs.TlvVarProofs Proofs.NameWire.
Local Open Scope nat_scope.

Lemma comp_from_segment_eq n :
  comp_from_segment n = if (n <? two64)%N then Ok (comp_enc TYPE_SEGMENT (nni_enc n)) else Err EStruct.
Proof.
  unfold comp_from_segment, comp_from_number.
  replace (Z.of_N n <? 0)%Z with false by lia.
  rewrite N2Z.id. unfold nni_enc_r. destruct (n <? two64)%N; reflexivity.
Qed.

Lemma comp_from_segment_ok i :
  (N.of_nat i < two64)%N -> comp_from_segment (N.of_nat i) = Ok (seg_comp i).
Proof.
  intros H. rewrite comp_from_segment_eq. replace (N.of_nat i <? two64)%N with true by lia. reflexivity.
Qed.

Lemma comp_from_segment_big n : (two64 <= n)%N -> comp_from_segment n = Err EStruct.
Proof.
  intros H. rewrite comp_from_segment_eq. replace (n <? two64)%N with false by lia. reflexivity.
Qed.

Lemma seg_comp_type i : comp_get_type (seg_comp i) = Ok TYPE_SEGMENT.
Proof. apply comp_get_type_enc. reflexivity. Qed.

Lemma seg_comp_number i : (N.of_nat i < two64)%N -> comp_to_number (seg_comp i) = Ok (N.of_nat i).
Proof.
  intros H. unfold seg_comp. rewrite comp_to_number_enc; [|reflexivity|apply nni_enc_len_small].
  unfold nni_enc. rewrite be_to_N_to_be_small by (apply nni_width_bound; exact H). reflexivity.
Qed.

Lemma seg_comp_inj i j :
  (N.of_nat i < two64)%N -> (N.of_nat j < two64)%N -> seg_comp i = seg_comp j -> i = j.
Proof.
  intros Hi Hj E. pose proof (seg_comp_number i Hi) as A. rewrite E, (seg_comp_number j Hj) in A.
  inversion A. lia.
Qed.

Lemma last_comp_snoc (b : name) c : last_comp (b ++ [c]) = Ok c.
Proof. unfold last_comp. rewrite rev_unit. reflexivity. Qed.

Lemma last_comp_seg ob i : last_comp (seg_name ob i) = Ok (seg_comp i).
Proof. apply last_comp_snoc. Qed.

Lemma set_last_snoc (b : name) c c' : set_last (b ++ [c]) c' = Ok (b ++ [c']).
Proof.
  unfold set_last. destruct (b ++ [c]) eqn:E; [destruct b; discriminate|].
  rewrite <- E, removelast_last. reflexivity.
Qed.

Lemma seg_name_inj ob i j :
  (N.of_nat i < two64)%N -> (N.of_nat j < two64)%N -> seg_name ob i = seg_name ob j -> i = j.
Proof.
  intros Hi Hj E. unfold seg_name in E. apply app_inj_tail in E as [_ E].
  apply seg_comp_inj; assumption.
Qed.

Lemma req_eqb_spec a b : req_eqb a b = true <-> a = b.
Proof.
  destruct a as [n1 c1 m1 l1], b as [n2 c2 m2 l2]. unfold req_eqb. cbn [rq_name rq_cbp rq_mbf rq_lifetime].
  rewrite !andb_true_iff, name_eqb_spec, !Bool.eqb_true_iff, N.eqb_eq.
  split; [intros [[[-> ->] ->] ->]; reflexivity | intros E; inversion E; auto].
Qed.

Lemma shift_same o rq n : shift o rq rq n = o rq (S n).
Proof. unfold shift. rewrite (eqb_refl' _ req_eqb_spec). reflexivity. Qed.

Lemma shift_other o rq r n : req_eqb r rq = false -> shift o rq r n = o r n.
Proof. intros H. unfold shift. rewrite H. reflexivity. Qed.

Lemma yields_app a b : yields (a ++ b) = yields a ++ yields b.
Proof. induction a as [|[q r|c] a IH]; cbn; [reflexivity|exact IH|rewrite IH; reflexivity]. Qed.

Lemma asked_app a b : asked (a ++ b) = asked a ++ asked b.
Proof. induction a as [|[q r|c] a IH]; cbn; [reflexivity|rewrite IH; reflexivity|exact IH]. Qed.

Lemma asked_yield ev c : asked (ev ++ [EvYield c]) = asked ev.
Proof. rewrite asked_app. apply app_nil_r. Qed.

Lemma observe_after ev r : observe (after ev r) = (yields ev ++ fst (observe r), snd (observe r)).
Proof. unfold observe, after. cbn [fst snd]. rewrite yields_app. reflexivity. Qed.

Lemma asked_after ev r : asked (fst (after ev r)) = asked ev ++ asked (fst r).
Proof. apply asked_app. Qed.

Definition is_timeout (r : response) : bool := match r with RExc XTimeout => true | _ => false end.

Lemma retry_SS b o rq :
  retry (S (S b)) o rq =
  match o rq O with
  | RData nm c fb => (shift o rq, [EvAsk rq (o rq O)], inr (nm, c, fb))
  | RExc XTimeout =>
      let '(o2, ev, res) := retry (S b) (shift o rq) rq in (o2, EvAsk rq (o rq O) :: ev, res)
  | RExc x => (shift o rq, [EvAsk rq (o rq O)], inl x)
  end.
Proof. cbn [retry]. destruct (o rq O) as [nm c fb|[| | | |]]; reflexivity. Qed.
