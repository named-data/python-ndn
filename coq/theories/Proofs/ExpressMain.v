(* C03 — headline theorems, derived from the simulation along well-formed histories (Proofs/ExpressRefine.v) and the
   safety facts (Proofs/ExpressSafety.v). *)
From NDN Require Import Base.Prelude Spec.ExpressSpec Model.ExpressPipeline Proofs.ExpressBasics Proofs.ExpressSafety
  Proofs.ExpressInv Proofs.ExpressRefine.
Local Open Scope N_scope.

Lemma sim_init fe : sim fe [] 0 false init (fun _ => INone).
Proof.
  split; [split; [split; [constructor | split]|]|].
  - split; [constructor | split; [intros ? ? ? []| split; [constructor | intros ? ? ? []]]].
  - intros i r G. discriminate.
  - intros i. reflexivity.
  - split; [intros _; reflexivity | split; [reflexivity | split; reflexivity]].
Qed.

Lemma run_sim fe h : wf_history h -> srep fe false (run_hist fe h) (spec_state fe h).
Proof.
  intros WF. destruct (refine_from fe h init _ [] 0 false (sim_init fe) WF) as (sg' & E & R). exact (srep_ext _ _ _ _ _ E R).
Qed.

Theorem refinement fe h i : wf_history h -> abs (run_hist fe h) i = spec_state fe h i.
Proof. intros WF. apply (srep_abs fe false), run_sim, WF. Qed.

Lemma completion_abs s i :
  log_ok s -> completion s i = match abs s i with IDone o => Some o | _ => None end.
Proof.
  intros L. rewrite (completion_spec s i L). unfold abs. destruct (get_int s i) as [r|]; auto.
  unfold abs_rec. destruct (i_wait r); auto; destruct (i_val r); reflexivity.
Qed.

Theorem outcome_correct fe h i : wf_history h -> completion (run_hist fe h) i = outcome_of fe h i.
Proof.
  intros WF. rewrite (completion_abs _ i (log_ok_run fe h)), (refinement fe h i WF). reflexivity.
Qed.

(* nothing is left: the PIT holds exactly the Interests whose automaton is still Pending; every node is non-empty and
   there is one node per name *)
Theorem nothing_left fe h :
  wf_history h ->
  (forall i, In i (pit_entries (run_hist fe h)) <-> exists sp, spec_state fe h i = IPending sp) /\
  NoDup (map fst (pit (run_hist fe h))) /\
  NoDup (pit_entries (run_hist fe h)) /\
  (forall n, In n (map fst (pit (run_hist fe h))) <-> exists i sp, spec_state fe h i = IPending sp /\ s_name sp = n).
Proof.
  intros WF. pose proof (run_sim fe h WF) as SR. pose proof (fun i sp => srep_pending fe false _ _ i sp SR) as PEND.
  pose proof (srep_inv _ _ _ _ SR) as IS. set (s := run_hist fe h) in *.
  pose proof (inv_pit_ok s IS) as P. pose proof (inv_pending s IS) as M.
  assert (E1 : forall i, In i (pit_entries s) <-> exists sp, spec_state fe h i = IPending sp).
  { intros i. rewrite <- mem_In. split.
    - intros I. destruct (mem_entries_has_rec s i P I) as [r G]. exists (spec_of r). apply PEND. exists r.
      rewrite <- (M i r G). auto.
    - intros [sp E]. apply PEND in E. destruct E as [r [G [Pb _]]]. rewrite (M i r G). exact Pb. }
  destruct P as [PK [PNE [PND PE]]].
  split; [exact E1|]. split; [exact PK|]. split; [rewrite pit_entries_flat; exact PND|].
  intros n. split.
  - intros I. apply in_map_iff in I. destruct I as [[pn [nid es]] [X I]]. cbn in X; subst pn.
    destruct es as [|e es]; [exfalso; eapply PNE; eauto|].
    assert (IF : In (n, nid, e) (pflat (pit s))) by (apply pflat_In; exists (e :: es); split; [exact I | left; reflexivity]).
    destruct (PE n nid e IF) as [r [G [Nm _]]].
    assert (IE : In (e_id e) (pit_entries s)).
    { rewrite pit_entries_flat. apply in_map_iff. exists (n, nid, e); split; auto. }
    apply E1 in IE. destruct IE as [sp E]. exists (e_id e), sp. split; auto.
    apply PEND in E. destruct E as [r' [G' [_ ->]]]. rewrite G in G'. injection G' as <-. exact Nm.
  - intros [i [sp [E Nm]]]. assert (IE : In i (pit_entries s)) by (apply E1; eauto).
    rewrite pit_entries_flat in IE. apply in_map_iff in IE. destruct IE as [[[pn nid] e] [X I]].
    unfold flat_id in X; cbn in X. destruct (PE pn nid e I) as [r [G [Nr _]]]. rewrite X in G.
    apply PEND in E. destruct E as [r' [G' [_ ->]]].
    apply pflat_In in I. destruct I as [es [I _]]. apply in_map_iff. exists (pn, (nid, es)); split; auto. cbn in *. congruence.
Qed.

(* one Data: exactly the pending Interests it matches move on (to validation / to the verdict of an immediate
   validator); every other Interest is left as the deadline alone leaves it *)
Theorem one_data_all_matching fe h m d n hs t i :
  wf_history (h ++ [(m, Data d n hs t)]) ->
  abs (run_hist fe (h ++ [(m, Data d n hs t)])) i =
  let st := expire fe (match m with NoTie => false | _ => true end) t (spec_state fe h i) in
  expire fe false t
    match st with
    | IPending r =>
        if matches r n hs && (t <? s_D r)
        then match s_vm r with VImm v => IDone (verdict_outcome fe d v) | VDef => IValidating r d end
        else st
    | _ => st
    end.
Proof.
  intros WF. rewrite (refinement fe _ i WF), spec_state_snoc. unfold spec_step. cbn [fst snd ev_time]. cbv zeta.
  destruct (expire fe (match m with NoTie => false | _ => true end) t (spec_state fe h i)); reflexivity.
Qed.
