(* Rules that sign one another in a circle: the compiled model has a signing cycle between tree nodes, so building a
   Checker from it raises the schema error. *)
From NDN Require Import Base.Prelude Model.LvsAst Model.LvsChecker Model.LvsCompiler Spec.LvsSem Spec.LvsChains
  Proofs.LvsSanity Proofs.LvsFlatten Proofs.LvsGenTree Proofs.LvsCompileTree Proofs.LvsSortRules Proofs.LvsCompileStatic
  Proofs.LvsCompileAccepts Proofs.LvsCompileIff Proofs.LvsTraverse.
Local Open Scope N_scope.

Lemma realizes_subtree_reach npc pool m : mirrors m pool -> forall t t', subtree t' t -> forall id p, realizes npc pool t id p ->
  exists k p', realizes npc pool t' k p' /\ reach_from m (N.of_nat id) (N.of_nat k).
Proof.
  intros Hmir. apply (realizes_subtree_rel npc pool (fun i k => reach_from m (N.of_nat i) (N.of_nat k))); [intros i; apply rf_refl|].
  intros i g c k Hn Hin Hr. destruct (mirrors_get _ _ _ _ Hmir Hn) as (nd & Hg & _ & _ & _ & Ev & Ep).
  eapply reach_from_step; [exact Hg | | exact Hr]. unfold dests. rewrite Ev, Ep. exact Hin.
Qed.

Definition sign_edge (S : lvsfile) (x y : ident) : Prop := exists d, In d S /\ r_id d = x /\ In y (r_sign d).
Fixpoint sign_walk (S : lvsfile) (a x : ident) (l : list ident) : Prop :=
  match l with
  | [] => sign_edge S x a
  | y :: l' => sign_edge S x y /\ sign_walk S a y l'
  end.

Section Cycle.
  Variable S : lvsfile.
  Variable m : lvsmodel.
  Hypothesis Hstatic : static_ok S = true.
  Hypothesis Hwf : schema_wf S = true.
  Hypothesis Hm : compile S = Ok m.

  Definition carries (x : ident) (i : N) : Prop := reach m i /\ exists nd, get_node m i = Some nd /\ In x (n_rule nd).

  (* A signing edge between rules becomes signer links between nodes: the node where the chain of x's own definition
     ends carries x and lists every node carrying y, since _fix_signing_references replaces a signer name by all the
     nodes at which a chain of that name ends. *)
  Lemma edge_node x y : sign_edge S x y -> is_temp_rule x = false ->
    exists i nd, carries x i /\ get_node m i = Some nd /\ forall j, carries y j -> In j (n_sign nd).
  Proof.
    intros (d & Hd & Hid & Hy) Hx. subst x.
    destruct (compile_inv _ _ Hm) as (chains & st & t0 & Hc & Htree & Hmodel).
    destruct (rule_chain S chains st _ (chains_of_facts S chains st Hc) (labelled_in_renamed S _ d (labelled_plain_in S 1 d Hd Hx)))
      as (rc & Hrc & Hnr & Hrid & Hrsg). cbn [set_rule_id r_id r_sign] in Hrid, Hrsg.
    destruct (gen_tree_covers _ _ _ _ _ Htree rc Hrc (Nat.le_0_l _) Hnr) as (t' & Hst & Hend).
    pose proof (compiled_mirrors st m _ Hmodel) as Hmir.
    destruct (realizes_subtree_reach _ _ m Hmir _ _ Hst _ _ (flatten_root _ t0)) as (k & p' & Hrz & Hreach).
    destruct (compiled_node st m _ Hmodel t' k p' Hrz) as (nd & Hnd & Hnr2).
    destruct (compiled_fields st m _ Hmodel) as (_ & Hstart & _).
    exists (N.of_nat k), nd. split; [|split; [exact Hnd|]].
    - split; [apply (reach_from_start m 0 _ Hstart), Hreach|]. exists nd. split; [exact Hnd|]. rewrite Hnr2, <- Hrid. apply in_map, Hend.
    - (* j carries y: it is a node of the pool at which a chain named y ends, and y signs rc *)
      intros j (Hrj & ndj & Hgj & Hyj). apply (compiled_sign_iff st m _ Hmodel t' k p' nd j Hrz Hnd).
      exists rc, y, ndj. split; [exact Hend|]. split; [rewrite Hrsg; apply in_isort; exact Hy | auto].
  Qed.

  Lemma defined_plain x y : sign_edge S x y -> is_temp_rule y = false.
  Proof.
    intros (d & Hd & _ & Hy). destruct (proj1 (static_ok_iff S) Hstatic) as (_ & _ & _ & Hsg).
    apply (defined_spec S y), (Hsg d y Hd Hy).
  Qed.

  Theorem sign_cycle_not_acyclic a cyc : sign_walk S a a cyc -> ~ sign_acyclic m.
  Proof.
    intros Hw (rank & Hrank).
    assert (Ha : is_temp_rule a = false).
    { clear - Hw Hstatic. assert (G : forall l x, sign_walk S a x l -> exists z, sign_edge S z a).
      { induction l as [|y l IH]; intros x H; cbn in H; [eauto | destruct H as [_ H]; eapply IH; eauto]. }
      destruct (G _ _ Hw) as (z & Hz). exact (defined_plain z a Hz). }
    assert (G : forall l x, is_temp_rule x = false -> sign_walk S a x l -> exists i, carries x i /\ forall j, carries a j -> (rank j < rank i)%nat).
    { induction l as [|y l IH]; intros x Hx H; cbn in H.
      - destruct (edge_node x a H Hx) as (i & nd & Hci & Hg & Hall). exists i. split; [exact Hci|].
        intros j Hj. destruct Hci as [Hri _]. eapply Hrank; eauto.
      - destruct H as [He Hrest]. destruct (edge_node x y He Hx) as (i & nd & Hci & Hg & Hall).
        destruct (IH y (defined_plain x y He) Hrest) as (i' & Hci' & Hlt).
        exists i. split; [exact Hci|]. intros j Hj. specialize (Hlt j Hj). destruct Hci as [Hri _].
        pose proof (Hrank i nd i' Hri Hg (Hall i' Hci')). lia. }
    destruct (G cyc a Ha Hw) as (i & Hci & Hlt). specialize (Hlt i Hci). lia.
  Qed.

  Theorem checker_rejects_cyclic_signing a cyc : sign_walk S a a cyc -> sanity_check (sanity_fuel m) m = Err ESemantic.
  Proof.
    intros Hw. destruct (checker_verdict S m Hwf Hm) as [Hiff Herr].
    destruct (sanity_check (sanity_fuel m) m) as [r|e] eqn:E.
    - exfalso. apply (sign_cycle_not_acyclic a cyc Hw). apply Hiff. eauto.
    - rewrite (Herr e eq_refl). reflexivity.
  Qed.
End Cycle.
