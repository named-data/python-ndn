(* Facts about lists that mention no model, one notion after the other: [firstn] / [skipn], [nth_error], [forallb] /
   [filter] / [find] (and [find] over [seq]), [flat_map] / [concat] / [list_sum], [fold_left], [NoDup] / [Add], [Forall2];
   then what follows from a boolean equality test that decides equality: the association lists of Base/Prelude.v by
   operation ([al_get], [al_set], [al_del]), tables of buckets ([al_push]), and the test at [bytes]. *)
From NDN Require Import Base.Prelude.

Lemma firstn_app_le {A} n (a b : list A) : (n <= length a)%nat -> firstn n (a ++ b) = firstn n a.
Proof. intros H. rewrite firstn_app. replace (n - length a)%nat with O by lia. apply app_nil_r. Qed.

Lemma skipn_app_le {A} n (a b : list A) : (n <= length a)%nat -> skipn n (a ++ b) = skipn n a ++ b.
Proof. intros H. rewrite skipn_app. replace (n - length a)%nat with 0%nat by lia. reflexivity. Qed.

Lemma firstn_app_exact {A} (a b : list A) : firstn (length a) (a ++ b) = a.
Proof. rewrite firstn_app_le by apply le_n. apply firstn_all. Qed.

Lemma firstn_app_exact' {A} n (a b : list A) : n = length a -> firstn n (a ++ b) = a.
Proof. intros ->. apply firstn_app_exact. Qed.

Lemma skipn_app_exact {A} (a b : list A) : skipn (length a) (a ++ b) = b.
Proof. rewrite skipn_app_le by apply le_n. rewrite skipn_all. reflexivity. Qed.

Lemma skipn_app_exact' {A} n (a b : list A) : n = length a -> skipn n (a ++ b) = b.
Proof. intros ->. apply skipn_app_exact. Qed.

Lemma firstn_add {A} a b (l : list A) : firstn (a + b) l = firstn a l ++ firstn b (skipn a l).
Proof.
  revert l. induction a as [|a IH]; intros l; [reflexivity|].
  destruct l as [|x l]; cbn [Nat.add firstn skipn app]; [destruct b; reflexivity|]. rewrite IH. reflexivity.
Qed.

Lemma skipn_add {A} a b (l : list A) : skipn a (skipn b l) = skipn (b + a) l.
Proof.
  revert l; induction b as [|b IH]; intros l; [reflexivity|].
  destruct l as [|x l]; [destruct a; reflexivity|]. cbn [skipn Nat.add]. apply IH.
Qed.

Lemma firstn_S_nth {A} (l : list A) k v : nth_error l k = Some v -> firstn (S k) l = firstn k l ++ [v].
Proof.
  revert l; induction k as [|k IH]; intros [|x l] H; cbn in H; try discriminate.
  - injection H as ->. reflexivity.
  - cbn [firstn app]. f_equal. apply IH, H.
Qed.

Lemma skipn_cons_nth {A} {l : list A} {k v rest} :
  skipn k l = v :: rest <-> nth_error l k = Some v /\ skipn (S k) l = rest.
Proof.
  revert l; induction k as [|k IH]; intros [|x l]; cbn; try (split; [|intros [? _]]; discriminate).
  - split; [intros H; inversion H; auto | intros [H <-]; inversion H; reflexivity].
  - apply IH.
Qed.

Lemma skipn_cons_length {A} (l : list A) k v rest : skipn k l = v :: rest -> (k < length l)%nat.
Proof.
  intros H. apply skipn_cons_nth in H. destruct H as [H _].
  apply nth_error_Some. congruence.
Qed.

Lemma skipn_nil_length {A} (l : list A) k : skipn k l = [] -> (length l <= k)%nat.
Proof. intros H. rewrite <- (firstn_skipn k l), H, app_nil_r. apply firstn_le_length. Qed.

Lemma Forall_firstn {A} (P : A -> Prop) k l : Forall P l -> Forall P (firstn k l).
Proof. intros H. rewrite <- (firstn_skipn k l) in H. apply Forall_app in H. apply H. Qed.

Lemma Forall_skipn {A} (P : A -> Prop) k l : Forall P l -> Forall P (skipn k l).
Proof. intros H. rewrite <- (firstn_skipn k l) in H. apply Forall_app in H. apply H. Qed.

Lemma nth_error_in_lt {A} (l : list A) i x : nth_error l i = Some x -> In x l /\ (i < length l)%nat.
Proof. intros H. split; [exact (nth_error_In _ _ H) | apply nth_error_Some; congruence]. Qed.

Lemma nth_error_app_some {A} (l l' : list A) i x : nth_error l i = Some x -> nth_error (l ++ l') i = Some x.
Proof. intros H. rewrite nth_error_app1; [exact H | apply nth_error_Some; congruence]. Qed.

Lemma nth_error_snoc_last {A} (l : list A) x : nth_error (l ++ [x]) (length l) = Some x.
Proof. rewrite nth_error_app2, Nat.sub_diag by lia. reflexivity. Qed.

Lemma nth_error_snoc {A} (l : list A) x i y : nth_error (l ++ [x]) i = Some y ->
  (nth_error l i = Some y /\ (i < length l)%nat) \/ (i = length l /\ y = x).
Proof.
  intros H. destruct (Nat.lt_ge_cases i (length l)) as [Hlt|Hge].
  - left. rewrite nth_error_app1 in H by exact Hlt. auto.
  - right. rewrite nth_error_app2 in H by exact Hge. destruct (i - length l)%nat as [|[|n]] eqn:E; try discriminate H.
    injection H as <-. split; [lia | reflexivity].
Qed.

Lemma forallb_in {A} (f : A -> bool) l x : forallb f l = true -> In x l -> f x = true.
Proof. intros H. apply forallb_forall, H. Qed.

Lemma forallb_impl {A} (P Q : A -> bool) l :
  (forall x, P x = true -> Q x = true) -> forallb P l = true -> forallb Q l = true.
Proof. intros H. induction l; cbn; [auto|]. rewrite !andb_true_iff. intros [H1 H2]; auto. Qed.

Lemma forallb_orb_l {A} (p q : A -> bool) l : forallb p l = true -> forallb (fun x => p x || q x) l = true.
Proof. apply forallb_impl. intros x ->. reflexivity. Qed.

Lemma forallb_orb_r {A} (p q : A -> bool) l : forallb q l = true -> forallb (fun x => p x || q x) l = true.
Proof. apply forallb_impl. intros x ->. apply orb_true_r. Qed.

Lemma forallb_andb {A} (p q : A -> bool) l : forallb (fun x => p x && q x) l = forallb p l && forallb q l.
Proof.
  induction l as [|x l IH]; [reflexivity|]. cbn [forallb]. rewrite IH.
  destruct (p x), (q x), (forallb p l); reflexivity.
Qed.

Lemma forallb_rev {A} (p : A -> bool) l : forallb p (rev l) = forallb p l.
Proof.
  induction l as [|x l IH]; [reflexivity|]. cbn [rev forallb].
  rewrite forallb_app, IH. cbn [forallb]. rewrite andb_true_r. apply andb_comm.
Qed.

Lemma filter_all {A} (f : A -> bool) l : (forall x, In x l -> f x = true) -> filter f l = l.
Proof.
  induction l as [|x l IH]; cbn; intros H; [reflexivity|].
  rewrite (H x (or_introl eq_refl)). f_equal. apply IH. intros y Hy. apply H. right. assumption.
Qed.

Lemma filter_id {A} (p : A -> bool) l : forallb p l = true -> filter p l = l.
Proof. intros H. apply filter_all. intros x. apply forallb_in, H. Qed.

Lemma filter_filter {A} (f g : A -> bool) l : filter f (filter g l) = filter (fun x => g x && f x) l.
Proof. induction l as [|x l IH]; cbn; [reflexivity|]. destruct (g x); cbn; [destruct (f x); cbn; congruence | assumption]. Qed.

Lemma filter_nil_iff {A} (p : A -> bool) l : filter p l = [] <-> forall x, In x l -> p x = false.
Proof.
  induction l as [|y l IH]; cbn; [split; [intros _ x [] | reflexivity]|]. destruct (p y) eqn:E.
  - split; [discriminate | intros H; rewrite (H y (or_introl eq_refl)) in E; discriminate].
  - rewrite IH. split; [intros H x [<-|Hx]; auto | intros H x Hx; apply H; right; exact Hx].
Qed.

Lemma find_app {A} (f : A -> bool) l1 l2 : find f (l1 ++ l2) = match find f l1 with Some x => Some x | None => find f l2 end.
Proof. induction l1 as [|x l1 IH]; cbn; [reflexivity|]. destruct (f x); auto. Qed.

Lemma seq_S_head n : 1 <= n -> seq 0 n = 0 :: seq 1 (n - 1).
Proof. intros H. destruct n; [lia|]. cbn [seq]. f_equal. f_equal. lia. Qed.

Lemma find_seq_some (P : nat -> bool) j : forall n s,
  s <= j < s + n -> P j = true -> (forall i, s <= i < j -> P i = false) -> find P (seq s n) = Some j.
Proof.
  induction n as [|n IH]; intros s H Hj Hlt; [lia|]. cbn [seq find].
  destruct (Nat.eq_dec s j) as [->|Hne]; [rewrite Hj; reflexivity|].
  rewrite Hlt by lia. apply IH; [lia|exact Hj|intros i Hi; apply Hlt; lia].
Qed.

Lemma find_seq_none (P : nat -> bool) : forall n s,
  (forall i, s <= i < s + n -> P i = false) -> find P (seq s n) = None.
Proof.
  induction n as [|n IH]; intros s H; [reflexivity|]. cbn [seq find].
  rewrite H by lia. apply IH. intros i Hi. apply H. lia.
Qed.

Lemma least_bad (P : nat -> Prop) (dec : forall t, P t \/ ~ P t) : forall n s,
  (forall t, s <= t < s + n -> P t) \/
  exists j, s <= j < s + n /\ ~ P j /\ forall t, s <= t < j -> P t.
Proof.
  induction n as [|n IH]; intros s; [left; intros; lia|].
  destruct (dec s) as [Hs|Hs].
  - destruct (IH (S s)) as [H|(j & Hj & Hb & Hp)].
    + left. intros t Ht. destruct (Nat.eq_dec t s) as [->|]; [exact Hs|apply H; lia].
    + right. exists j. split; [lia|]. split; [exact Hb|].
      intros t Ht. destruct (Nat.eq_dec t s) as [->|]; [exact Hs|apply Hp; lia].
  - right. exists s. split; [lia|]. split; [exact Hs|]. intros; lia.
Qed.

Lemma flat_map_ext_in {A B} (f g : A -> list B) l : (forall a, In a l -> f a = g a) -> flat_map f l = flat_map g l.
Proof. induction l as [|a l IH]; intros H; cbn; [reflexivity|]. rewrite (H a (or_introl eq_refl)), IH; [reflexivity|]. intros b Hb. apply H. right. exact Hb. Qed.

Lemma flat_map_all_nil {A B} (f : A -> list B) l : (forall a, In a l -> f a = []) -> flat_map f l = [].
Proof. induction l; cbn; auto. intros H. rewrite H, IHl; auto. Qed.

Lemma flat_map_single {A} (l : list A) : flat_map (fun x => [x]) l = l.
Proof. induction l as [|x l IH]; [reflexivity|]. cbn. rewrite IH. reflexivity. Qed.

Lemma flat_map_map {A B C} (f : B -> list C) (g : A -> B) l : flat_map f (map g l) = flat_map (fun x => f (g x)) l.
Proof. induction l as [|x l IH]; [reflexivity|]. cbn. rewrite IH. reflexivity. Qed.

Lemma flat_map_split {A B} (f : A -> list B) : forall o l1 r l2, flat_map f o = l1 ++ r :: l2 ->
  exists o1 x o2 p1 p2, o = o1 ++ x :: o2 /\ f x = p1 ++ r :: p2 /\ l1 = flat_map f o1 ++ p1.
Proof.
  induction o as [|x o IH]; intros l1 r l2 E; cbn in E; [destruct l1; discriminate|].
  destruct (app_eq_app _ _ _ _ E) as (l & [[Ef Eq]|[-> Eq]]); [destruct l as [|r' l]; cbn in Eq|].
  - rewrite app_nil_r in Ef. subst l1. destruct (IH [] r l2 (eq_sym Eq)) as (o1 & x' & o2 & p1 & p2 & -> & Ef' & Ep).
    exists (x :: o1), x', o2, p1, p2. cbn. rewrite <- app_assoc, <- Ep, app_nil_r. auto.
  - injection Eq as <- ->. exists [], x, o, l1, l. auto.
  - destruct (IH _ _ _ Eq) as (o1 & x' & o2 & p1 & p2 & -> & Ef & ->).
    exists (x :: o1), x', o2, p1, p2. cbn. rewrite app_assoc. auto.
Qed.

Lemma concat_snoc_length {A} (pre : list (list A)) (c : list A) :
  length (concat (pre ++ [c])) = (length (concat pre) + length c)%nat.
Proof. rewrite concat_app, app_length. cbn [concat]. rewrite app_nil_r. reflexivity. Qed.

Lemma concat_length_ge {A} k (l : list (list A)) :
  Forall (fun c => (k <= length c)%nat) l -> (k * length l <= length (concat l))%nat.
Proof. induction 1 as [|c l Hc _ IH]; [cbn; lia|]. cbn [concat length]. rewrite app_length. lia. Qed.

Lemma list_sum_cons x l : list_sum (x :: l) = (x + list_sum l)%nat.
Proof. reflexivity. Qed.

Lemma list_sum_in {A} (g : A -> nat) (l : list A) x : In x l -> (g x <= list_sum (map g l))%nat.
Proof.
  induction l as [|y l IH]; intros H; [destruct H|]. cbn [map]. rewrite list_sum_cons.
  destruct H as [->|H]; [lia|]. specialize (IH H). lia.
Qed.

Lemma fold_left_cons {A B} (f : A -> B -> A) b l a : fold_left f (b :: l) a = fold_left f l (f a b).
Proof. reflexivity. Qed.

Lemma fold_left_inv {A B} (P : A -> Prop) (f : A -> B -> A) :
  (forall a b, P a -> P (f a b)) -> forall l a, P a -> P (fold_left f l a).
Proof. intros H l. induction l as [|b l IH]; cbn; auto. Qed.

Lemma fold_left_fixed {A B} (f : A -> B -> A) z : (forall b, f z b = z) -> forall l, fold_left f l z = z.
Proof. intros H l. induction l as [|b l IH]; cbn [fold_left]; [reflexivity|]. rewrite H. exact IH. Qed.

Lemma fold_left_keeps {A B} (I : A -> Prop) (R : A -> A -> Prop) (f : A -> B -> A) :
  (forall a, R a a) -> (forall a b d, R a b -> R b d -> R a d) ->
  (forall a x, I a -> I (f a x) /\ R a (f a x)) ->
  forall l a, I a -> I (fold_left f l a) /\ R a (fold_left f l a).
Proof.
  intros Rr Rt Hf. induction l as [|x l IH]; intros a Ha; cbn; [auto|].
  destruct (Hf a x Ha) as [H1 E1]. destruct (IH _ H1) as [H2 E2]. eauto.
Qed.

Lemma NoDup_snoc {A} (l : list A) x : NoDup l -> ~ In x l -> NoDup (l ++ [x]).
Proof. intros ND NI. apply (NoDup_Add (Add_app x l [])). rewrite app_nil_r. auto. Qed.

Lemma NoDup_app_l {A} (a b : list A) x : NoDup (a ++ b) -> In x b -> ~ In x a.
Proof.
  induction a as [|y a IH]; intros Hnd Hb; [auto|]. cbn in Hnd. inversion Hnd; subst. intros [->|Ha].
  - apply H1. apply in_or_app. right. exact Hb.
  - eapply IH; eauto.
Qed.

Lemma NoDup_map_filter {A B} (f : A -> B) (g : A -> bool) l : NoDup (map f l) -> NoDup (map f (filter g l)).
Proof.
  induction l as [|x l IH]; cbn; intros ND; [constructor|].
  inversion ND; subst. destruct (g x); cbn; [constructor|]; auto.
  intros H. apply H1. apply in_map_iff in H. destruct H as [y [E Hy]]. apply filter_In in Hy.
  apply in_map_iff. exists y. tauto.
Qed.

Lemma NoDup_map_inj {A B} (f : A -> B) l a b : NoDup (map f l) -> In a l -> In b l -> f a = f b -> a = b.
Proof.
  induction l as [|x l IH]; cbn; intros ND Ha Hb E; [contradiction|].
  inversion ND; subst.
  destruct Ha as [-> | Ha], Hb as [-> | Hb]; auto.
  - exfalso. apply H1. rewrite E. apply in_map. assumption.
  - exfalso. apply H1. rewrite <- E. apply in_map. assumption.
Qed.

Lemma Add_map {A B} (f : A -> B) x l l' : Add x l l' -> Add (f x) (map f l) (map f l').
Proof. induction 1; cbn; constructor; auto. Qed.

Lemma Add_app_l {A} (x : A) a l l' : Add x l l' -> Add x (a ++ l) (a ++ l').
Proof. intros H. induction a; cbn; auto. constructor; auto. Qed.

Lemma forall2_impl_in {A B} (R R' : A -> B -> Prop) l l' : (forall x y, In x l -> In y l' -> R x y -> R' x y) -> Forall2 R l l' -> Forall2 R' l l'.
Proof.
  intros Himp F. induction F as [|x y l l' Hxy _ IH]; constructor.
  - apply Himp; [left; reflexivity | left; reflexivity | exact Hxy].
  - apply IH. intros a b Ha Hb Hab. apply Himp; [right; exact Ha | right; exact Hb | exact Hab].
Qed.

Lemma forall2_impl {A B} (R R' : A -> B -> Prop) l l' :
  (forall a b, R a b -> R' a b) -> Forall2 R l l' -> Forall2 R' l l'.
Proof. intros H. apply forall2_impl_in. intros a b _ _. apply H. Qed.

Lemma forall2_in_l {A B} (R : A -> B -> Prop) l l' x : Forall2 R l l' -> In x l -> exists y, In y l' /\ R x y.
Proof.
  induction 1 as [|a b l l' Hab _ IH]; intros Hin; [destruct Hin|].
  destruct Hin as [->|Hin]; [exists b; split; [left; reflexivity | exact Hab]|].
  destruct (IH Hin) as (y & Hy & Hr). exists y. split; [right; exact Hy | exact Hr].
Qed.

Lemma forall2_in_r {A B} (R : A -> B -> Prop) l l' y : Forall2 R l l' -> In y l' -> exists x, In x l /\ R x y.
Proof.
  induction 1 as [|a b l l' Hab _ IH]; intros Hin; [destruct Hin|].
  destruct Hin as [->|Hin]; [exists a; split; [left; reflexivity | exact Hab]|].
  destruct (IH Hin) as (x & Hx & Hr). exists x. split; [right; exact Hx | exact Hr].
Qed.

Lemma forall2_nth {A B} (R : A -> B -> Prop) l l' : Forall2 R l l' -> forall j x y, nth_error l j = Some x -> nth_error l' j = Some y -> R x y.
Proof.
  induction 1 as [|a b l l' Hab _ IH]; intros j x y Hx Hy; [destruct j; discriminate|].
  destruct j as [|j]; cbn in Hx, Hy; [injection Hx as <-; injection Hy as <-; exact Hab | eapply IH; eauto].
Qed.

Lemma forall2_snoc {A B} (R : A -> B -> Prop) l l' x y : Forall2 R l l' -> R x y -> Forall2 R (l ++ [x]) (l' ++ [y]).
Proof. intros H Hxy. apply Forall2_app; [exact H | constructor; [exact Hxy | constructor]]. Qed.

Lemma forall2_snoc_inv {A B} (R : A -> B -> Prop) l x l' : Forall2 R (l ++ [x]) l' ->
  exists l1 y, l' = l1 ++ [y] /\ Forall2 R l l1 /\ R x y.
Proof.
  intros H. apply Forall2_app_inv_l in H. destruct H as (l1 & l2 & H1 & H2 & ->).
  inversion H2 as [|? y ? ? Hxy Hnil]; subst. inversion Hnil; subst. exists l1, y. auto.
Qed.

Lemma forall2_map_l {A B C} (R : B -> C -> Prop) (g : A -> B) l l' : Forall2 R (map g l) l' <-> Forall2 (fun x y => R (g x) y) l l'.
Proof.
  revert l'; induction l as [|x l IH]; intros l'; cbn.
  - split; intros H; inversion H; constructor.
  - split; intros H; inversion H; subst; constructor; auto; apply IH; auto.
Qed.

Lemma forall2_map_r {A B C} (R : A -> C -> Prop) (g : B -> C) l l' : Forall2 (fun x y => R x (g y)) l l' -> Forall2 R l (map g l').
Proof. intros F. induction F; cbn; constructor; assumption. Qed.

Lemma forall2_ex {A B} (R : A -> B -> Prop) l : Forall (fun x => exists y, R x y) l -> exists l', Forall2 R l l'.
Proof. induction 1 as [|x l (y & Hy) _ (l' & IH)]; [exists []|exists (y :: l')]; now constructor. Qed.

Lemma forall2_in_combine {A B} (R : A -> B -> Prop) l l' x y : Forall2 R l l' -> In (x, y) (combine l l') -> R x y.
Proof. intros F. induction F as [|a b l l' Hab _ IH]; cbn; [intros []|]. intros [H|H]; [inversion H; subst; exact Hab | apply IH, H]. Qed.

Lemma forall2_combine_l {A B} (R : A -> B -> Prop) l l' x : Forall2 R l l' -> In x l -> exists y, In (x, y) (combine l l').
Proof. intros F. induction F as [|a b l l' _ _ IH]; cbn; [intros []|]. intros [<-|H]; [exists b; left; reflexivity | destruct (IH H) as (y & Hy); exists y; right; exact Hy]. Qed.

Lemma forall2_combine3 {A B C} (R : A -> B -> Prop) (T : A * B -> C -> Prop) l l' l'' :
  Forall2 R l l' -> Forall2 T (combine l l') l'' -> Forall2 (fun x z => exists y, R x y /\ T (x, y) z) l l''.
Proof. intros H. revert l''. induction H; cbn [combine]; intros l'' HT; inversion HT; subst; constructor; eauto. Qed.

Section Eqb.
  Context {K : Type} (eqb : K -> K -> bool) (eqb_spec : forall a b, eqb a b = true <-> a = b).

  Lemma eqb_refl' a : eqb a a = true. Proof. apply eqb_spec. reflexivity. Qed.

  Lemma eqb_neq' a b : a <> b -> eqb a b = false.
  Proof. intros H. destruct (eqb a b) eqn:E; [apply eqb_spec in E; contradiction | reflexivity]. Qed.

  Lemma eqb_sym' a b : eqb a b = eqb b a.
  Proof.
    destruct (eqb a b) eqn:E.
    - apply eqb_spec in E. subst. symmetry. apply eqb_refl'.
    - symmetry. apply eqb_neq'. intros ->. rewrite eqb_refl' in E. discriminate.
  Qed.

  Lemma eqb_dec' (a b : K) : {a = b} + {a <> b}.
  Proof.
    destruct (eqb a b) eqn:E; [left; apply eqb_spec; exact E|].
    right. intros ->. rewrite eqb_refl' in E. discriminate.
  Qed.

  Lemma existsb_eqb_in x l : existsb (eqb x) l = true <-> In x l.
  Proof.
    rewrite existsb_exists. split.
    - intros (y & Hy & E). apply eqb_spec in E. subst. exact Hy.
    - intros H. exists x. split; [exact H | apply eqb_refl'].
  Qed.

  Lemma list_eqb_refl l : list_eqb eqb l l = true.
  Proof. apply (list_eqb_spec eqb eqb_spec). reflexivity. Qed.

  Context {V : Type}.
  Implicit Types (l : list (K * V)) (k : K) (v : V).

  Lemma al_get_none l k : al_get eqb l k = None <-> ~ In k (map fst l).
  Proof.
    induction l as [|[k' v] l IH]; cbn; [tauto|].
    destruct (eqb k k') eqn:E.
    - apply eqb_spec in E. subst. split; [discriminate | intros H; exfalso; apply H; auto].
    - rewrite IH. split; [intros H [H1 | H1]; [subst; rewrite eqb_refl' in E; discriminate | auto] | tauto].
  Qed.

  Lemma al_get_some_in l k v : al_get eqb l k = Some v -> In (k, v) l.
  Proof.
    induction l as [|[k' v'] l IH]; cbn; [discriminate|].
    destruct (eqb k k') eqn:E; [apply eqb_spec in E; subst; intros H; inversion H; auto | auto].
  Qed.

  Lemma al_get_nth l k v : al_get eqb l k = Some v -> exists i, nth_error l i = Some (k, v).
  Proof. intros H. apply In_nth_error, al_get_some_in, H. Qed.

  Lemma al_get_of_in l k v : NoDup (map fst l) -> In (k, v) l -> al_get eqb l k = Some v.
  Proof.
    induction l as [|[k' v'] l IH]; cbn; [intros _ []|]. intros Hnd [E|Hin].
    - injection E as -> ->. rewrite eqb_refl'. reflexivity.
    - inversion Hnd as [|? ? Hk Hnd']; subst. rewrite eqb_neq'; [exact (IH Hnd' Hin)|].
      intros ->. apply Hk, in_map_iff. exists (k', v). auto.
  Qed.

  Lemma al_get_in l k : In k (map fst l) <-> exists v, al_get eqb l k = Some v.
  Proof.
    destruct (al_get eqb l k) as [v|] eqn:E.
    - split; [eauto|]. intros _. exact (in_map fst _ _ (al_get_some_in _ _ _ E)).
    - split; [intros H; apply al_get_none in E; contradiction | intros [v Hv]; discriminate].
  Qed.

  Lemma al_mem_get l k : al_mem eqb l k = false <-> al_get eqb l k = None.
  Proof. unfold al_mem. destruct (al_get eqb l k); split; congruence. Qed.

  Lemma al_get_app l1 l2 k :
    al_get eqb (l1 ++ l2) k = match al_get eqb l1 k with Some v => Some v | None => al_get eqb l2 k end.
  Proof. induction l1 as [|[k0 v0] l1 IH]; cbn; [reflexivity|]. destruct (eqb k k0); [reflexivity | exact IH]. Qed.

  Lemma al_get_app_some l k v l' : al_get eqb l k = Some v -> al_get eqb (l ++ l') k = Some v.
  Proof. intros H. rewrite al_get_app, H. reflexivity. Qed.

  Lemma al_get_map {W} (g : K -> V -> W) l k :
    al_get eqb (map (fun kv : K * V => (fst kv, g (fst kv) (snd kv))) l) k = option_map (g k) (al_get eqb l k).
  Proof.
    induction l as [|[k0 v] l IH]; cbn; [reflexivity|].
    destruct (eqb k k0) eqn:E; [|exact IH]. apply eqb_spec in E. subst. reflexivity.
  Qed.

  Lemma al_get_set_eq l k v : al_get eqb (al_set eqb l k v) k = Some v.
  Proof.
    induction l as [|[k' v'] l IH]; cbn; [rewrite eqb_refl'; reflexivity|].
    destruct (eqb k k') eqn:E; cbn; rewrite E; auto.
  Qed.

  Lemma al_get_set_neq l k v k' : k' <> k -> al_get eqb (al_set eqb l k v) k' = al_get eqb l k'.
  Proof.
    intros NE. induction l as [|[k0 v0] l IH]; cbn; [rewrite (eqb_neq' _ _ NE); reflexivity|].
    destruct (eqb k k0) eqn:E; cbn.
    - apply eqb_spec in E. subst k0. rewrite (eqb_neq' _ _ NE). reflexivity.
    - destruct (eqb k' k0); auto.
  Qed.

  Lemma al_get_set l k v k' : al_get eqb (al_set eqb l k v) k' = if eqb k' k then Some v else al_get eqb l k'.
  Proof.
    destruct (eqb k' k) eqn:E.
    - apply eqb_spec in E. subst. apply al_get_set_eq.
    - apply al_get_set_neq. intros ->. rewrite eqb_refl' in E. discriminate.
  Qed.

  (* a new key goes to the end (Python dict order) *)
  Lemma al_set_fresh l k v : al_get eqb l k = None -> al_set eqb l k v = l ++ [(k, v)].
  Proof.
    induction l as [|[k0 v0] l IH]; cbn; [reflexivity|]. destruct (eqb k k0); [discriminate|].
    intros H. rewrite IH by exact H. reflexivity.
  Qed.

  Lemma al_set_same l k v : al_get eqb l k = Some v -> al_set eqb l k v = l.
  Proof.
    induction l as [|[k0 v0] l IH]; cbn; [discriminate|]. destruct (eqb k k0) eqn:E.
    - intros H. injection H as ->. apply eqb_spec in E. subst. reflexivity.
    - intros H. f_equal. auto.
  Qed.

  Lemma al_set_set l k v v' : al_set eqb (al_set eqb l k v) k v' = al_set eqb l k v'.
  Proof.
    induction l as [|[k0 v0] l IH]; cbn; [rewrite eqb_refl'; reflexivity|].
    destruct (eqb k k0) eqn:E; cbn; rewrite E; [reflexivity|]. rewrite IH. reflexivity.
  Qed.

  Lemma al_set_in l k v x w : In (x, w) (al_set eqb l k v) -> In (x, w) l \/ (x = k /\ w = v).
  Proof.
    induction l as [|[k' v'] l IH]; cbn [al_set].
    - intros [H|[]]. injection H as <- <-. auto.
    - destruct (eqb k k') eqn:E; intros [H|H].
      + injection H as <- <-. apply eqb_spec in E. auto.
      + left. right. exact H.
      + left. left. exact H.
      + destruct (IH H) as [H1|H1]; [left; right; exact H1 | right; exact H1].
  Qed.

  Lemma al_set_keys l k v x : In x (map fst (al_set eqb l k v)) <-> In x (map fst l) \/ x = k.
  Proof.
    induction l as [|[k0 v0] l IH]; cbn; [intuition|].
    destruct (eqb k k0) eqn:E; cbn.
    - apply eqb_spec in E. subst. intuition.
    - rewrite IH. intuition.
  Qed.

  Lemma al_set_keys_same l k v : In k (map fst l) -> map fst (al_set eqb l k v) = map fst l.
  Proof.
    induction l as [|[k0 v0] l IH]; cbn; [intros []|].
    destruct (eqb k k0) eqn:E; cbn; [reflexivity|].
    intros [->|H]; [rewrite eqb_refl' in E; discriminate | rewrite IH by exact H; reflexivity].
  Qed.

  Lemma al_set_nodup l k v : NoDup (map fst l) -> NoDup (map fst (al_set eqb l k v)).
  Proof.
    induction l as [|[k0 v0] l IH]; cbn; intros ND; [constructor; [tauto | constructor]|].
    inversion ND; subst. destruct (eqb k k0) eqn:E; cbn; constructor; auto.
    rewrite al_set_keys. intros [H | H]; [contradiction|]. subst. rewrite eqb_refl' in E. discriminate.
  Qed.

  Lemma fold_al_set_distinct {A} (kf : A -> K) (vf : A -> V) :
    forall xs d0, NoDup (map kf xs) -> (forall a, In a xs -> ~ In (kf a) (map fst d0)) ->
      fold_left (fun d s => al_set eqb d (kf s) (vf s)) xs d0 = d0 ++ map (fun s => (kf s, vf s)) xs.
  Proof.
    induction xs as [|a xs IH]; intros d0 Hnd Hd; cbn [fold_left map]; [rewrite app_nil_r; reflexivity|].
    inversion Hnd as [|? ? Hna Hnd']; subst.
    rewrite al_set_fresh by (apply al_get_none, Hd; left; reflexivity).
    rewrite IH; [rewrite <- app_assoc; reflexivity | exact Hnd' |].
    intros b Hb. rewrite map_app, in_app_iff. cbn. intros [H|[H|[]]]; [eapply Hd; [right; exact Hb | exact H]|].
    apply Hna. rewrite H. apply in_map. exact Hb.
  Qed.

  Lemma al_get_del_eq l k : NoDup (map fst l) -> al_get eqb (al_del eqb l k) k = None.
  Proof.
    induction l as [|[k0 v0] l IH]; cbn; intros ND; [reflexivity|]. inversion ND; subst.
    destruct (eqb k k0) eqn:E; cbn.
    - apply eqb_spec in E. subst. apply al_get_none. assumption.
    - rewrite E. auto.
  Qed.

  Lemma al_get_del_neq l k k' : k' <> k -> al_get eqb (al_del eqb l k) k' = al_get eqb l k'.
  Proof.
    intros NE. induction l as [|[k0 v0] l IH]; cbn; [reflexivity|].
    destruct (eqb k k0) eqn:E; cbn.
    - apply eqb_spec in E. subst k0. rewrite (eqb_neq' _ _ NE). reflexivity.
    - destruct (eqb k' k0); auto.
  Qed.

  Lemma al_del_in l k x : In x (al_del eqb l k) -> In x l.
  Proof.
    induction l as [|[k0 v0] l IH]; cbn [al_del]; [intros []|].
    destruct (eqb k k0); intros H; [right; exact H|].
    destruct H as [H|H]; [left; exact H | right; apply IH; exact H].
  Qed.

  Lemma al_del_keys_incl l k x : In x (map fst (al_del eqb l k)) -> In x (map fst l).
  Proof. intros (p & <- & H)%in_map_iff. exact (in_map fst _ _ (al_del_in _ _ _ H)). Qed.

  Lemma al_del_nodup l k : NoDup (map fst l) -> NoDup (map fst (al_del eqb l k)).
  Proof.
    induction l as [|[k0 v0] l IH]; cbn; intros ND; [constructor|].
    inversion ND; subst. destruct (eqb k k0); cbn; [assumption|]. constructor; auto.
    intros H. apply al_del_keys_incl in H. contradiction.
  Qed.

  Lemma al_del_absent l k : al_get eqb l k = None -> al_del eqb l k = l.
  Proof.
    induction l as [|[k0 v0] l IH]; cbn; [reflexivity|].
    destruct (eqb k k0) eqn:E; [discriminate|]. intros H. f_equal. auto.
  Qed.

  Lemma al_del_idem l k : NoDup (map fst l) -> al_del eqb (al_del eqb l k) k = al_del eqb l k.
  Proof. intros ND. apply al_del_absent, al_get_del_eq, ND. Qed.

  Lemma al_del_set_fresh l k v : al_get eqb l k = None -> al_del eqb (al_set eqb l k v) k = l.
  Proof.
    induction l as [|[k0 v0] l IH]; cbn; [rewrite eqb_refl'; reflexivity|].
    destruct (eqb k k0) eqn:E; [discriminate|]. cbn. rewrite E. intros H. f_equal. auto.
  Qed.
End Eqb.

(* a table of buckets: [al_push] appends to the bucket of a key; the bucket of a new key goes to the end *)
Definition al_push {K V} (eqb : K -> K -> bool) (l : list (K * list V)) (k : K) (new : list V) : list (K * list V) :=
  match al_get eqb l k with
  | Some old => al_set eqb l k (old ++ new)
  | None => l ++ [(k, new)]
  end.

Section Push.
  Context {K V : Type} (eqb : K -> K -> bool) (eqb_spec : forall a b, eqb a b = true <-> a = b).
  Implicit Type l : list (K * list V).

  Definition bucket l k : list V := match al_get eqb l k with Some b => b | None => [] end.

  Lemma al_get_push l k new k' :
    al_get eqb (al_push eqb l k new) k' = if eqb k' k then Some (bucket l k ++ new) else al_get eqb l k'.
  Proof.
    unfold al_push, bucket. destruct (al_get eqb l k) eqn:El; [apply (al_get_set eqb eqb_spec)|].
    rewrite (al_get_app eqb). cbn. destruct (eqb k' k) eqn:E.
    - apply eqb_spec in E. subst k'. rewrite El. reflexivity.
    - destruct (al_get eqb l k'); reflexivity.
  Qed.

  Lemma al_push_keys l k new x : In x (map fst (al_push eqb l k new)) <-> In x (map fst l) \/ x = k.
  Proof.
    unfold al_push. destruct (al_get eqb l k) eqn:El.
    - apply (al_set_keys eqb eqb_spec).
    - rewrite map_app, in_app_iff. cbn. intuition.
  Qed.

  Lemma bucket_in l k v : In v (bucket l k) -> exists b, In (k, b) l /\ In v b.
  Proof.
    unfold bucket. destruct (al_get eqb l k) as [b|] eqn:E; [|intros []].
    intros Hv. exists b. split; [apply (al_get_some_in eqb eqb_spec); exact E | exact Hv].
  Qed.

  Lemma al_push_in l k new x v :
    In (x, v) (al_push eqb l k new) -> In (x, v) l \/ (x = k /\ v = bucket l k ++ new).
  Proof.
    unfold al_push, bucket. destruct (al_get eqb l k) as [old|]; [apply (al_set_in eqb eqb_spec)|].
    intros H. apply in_app_or in H. destruct H as [H|[H|[]]]; [left; exact H|]. injection H as <- <-. auto.
  Qed.
End Push.

Lemma bytes_eqb_refl (b : bytes) : bytes_eqb b b = true.
Proof. apply (eqb_refl' _ bytes_eqb_spec). Qed.

Lemma bytes_eqb_neq c c' : c <> c' -> bytes_eqb c c' = false.
Proof. apply (eqb_neq' _ bytes_eqb_spec). Qed.

Lemma bytes_eqbP (a b : bytes) : reflect (a = b) (bytes_eqb a b).
Proof. apply iff_reflect. symmetry. apply bytes_eqb_spec. Qed.

Lemma bytes_dec (c c' : bytes) : {c = c'} + {c <> c'}.
Proof. apply (eqb_dec' _ bytes_eqb_spec). Qed.
