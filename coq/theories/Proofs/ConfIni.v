(* C20 — the configparser model reads a well-formed client.conf ([wf_conf] of Spec/ClientConfSpec.v) to exactly
   the entries its author wrote: parse (render lines) = entries, whatever comments, blank lines and
   padding surround them and whatever the values contain other than a newline or white space at
   their ends. *)
From NDN Require Import Base.Prelude Base.Text Model.ConfBase Spec.ClientConfSpec
  Proofs.ListLemmas Proofs.TextProofs Proofs.ConfBaseLemmas.
From Coq Require Strings.String Strings.Ascii.
Import Coq.Strings.String.StringSyntax Coq.Strings.Ascii.AsciiSyntax.
Local Open Scope N_scope.

Fixpoint entries_of (ls : list conf_line) : list (str * str) :=
  match ls with
  | [] => []
  | Entry k _ _ _ v _ :: r => (lower k, v) :: entries_of r
  | _ :: r => entries_of r
  end.

Lemma file_lookup_entries key ls : file_lookup key ls = al_get str_eqb (entries_of ls) (lower key).
Proof.
  induction ls as [|[k w1 d w2 v w3|w m t|w] r IH]; cbn [file_lookup entries_of al_get]; auto.
  destruct (str_eqb (lower key) (lower k)); auto.
Qed.

Lemma keys_of_entries ls : keys_of ls = map fst (entries_of ls).
Proof. induction ls as [|[k w1 d w2 v w3|w m t|w] r IH]; cbn; congruence. Qed.

Lemma blank_ws_space ws : blank_ws ws = true -> forallb is_space ws = true.
Proof. unfold blank_ws. intros H. apply andb_true_iff in H. apply H. Qed.
Lemma blank_ws_no_nl ws : blank_ws ws = true -> no_nl ws = true.
Proof. unfold blank_ws. intros H. apply andb_true_iff in H. apply H. Qed.

Lemma strip_pad a v : edge_ok v = true -> forallb is_space a = true -> strip (a ++ v) = v.
Proof.
  intros [H1 H2]%andb_prop Ha. unfold strip. rewrite lstrip_by_app_all, lstrip_by_id by assumption.
  apply rstrip_by_id, H2.
Qed.

(* the same when the right end has been stripped before, as it is for the text after the delimiter *)
Lemma strip_rstrip_pad a v b :
  edge_ok v = true -> forallb is_space a = true -> forallb is_space b = true -> strip (rstrip (a ++ v ++ b)) = v.
Proof.
  intros Hv Ha Hb. unfold rstrip. rewrite app_assoc, rstrip_by_app_all by exact Hb. destruct v as [|c r].
  - rewrite app_nil_r, rstrip_by_all by exact Ha. reflexivity.
  - (* the last character of the value stops rstrip *)
    rewrite rstrip_by_id; [apply strip_pad; assumption|]. rewrite rev_app_distr.
    apply andb_prop in Hv as [_ H2]. revert H2.
    destruct (rev (c :: r)) as [|z m] eqn:E; [|trivial].
    apply (f_equal (@rev N)) in E. rewrite rev_involutive in E. discriminate.
Qed.

(* configparser appends the blank lines that follow an option to its value; joining the value strips them again:
   the entries read so far are what [defaults_of] makes of the store *)
Lemma join_value_blank vs : join_value (vs ++ [[]]) = join_value vs.
Proof.
  destruct vs as [|x r]; [reflexivity|]. unfold join_value, rstrip. rewrite join_with_snoc by discriminate.
  apply rstrip_by_app_all. reflexivity.
Qed.

Lemma defaults_of_app a b : defaults_of (a ++ b) = defaults_of a ++ defaults_of b.
Proof.
  induction a as [|[[sn o] vs] a IH]; [reflexivity|]. cbn [app defaults_of]. rewrite IH.
  destruct (str_eqb sn default_sect); reflexivity.
Qed.

Lemma defaults_of_blank store k vs :
  al_get skey_eqb store k = Some vs -> defaults_of (al_set skey_eqb store k (vs ++ [[]])) = defaults_of store.
Proof.
  induction store as [|[[sn o] vs'] store IH]; cbn [al_get al_set]; [discriminate|].
  destruct (skey_eqb k (sn, o)); intros H; cbn [defaults_of].
  - injection H as ->. rewrite join_value_blank. reflexivity.
  - rewrite IH by exact H. reflexivity.
Qed.

Lemma defaults_of_fresh store key :
  ~ In key (map fst (defaults_of store)) -> al_get skey_eqb store (default_sect, key) = None.
Proof.
  induction store as [|[[sn o] vs] store IH]; cbn [defaults_of al_get]; [reflexivity|]. intros Hn.
  destruct (skey_eqb (default_sect, key) (sn, o)) eqn:E.
  - apply skey_eqb_eq in E. injection E as <- <-. rewrite str_eqb_refl in Hn. destruct Hn. now left.
  - apply IH. destruct (str_eqb sn default_sect); [intros Hi; apply Hn; now right|exact Hn].
Qed.

Definition ini_inv (st : ini_st) (es : list (str * str)) : Prop :=
  i_sect st = Some default_sect /\ i_indent st = O /\ i_sects st = [] /\ defaults_of (i_store st) = es.

Lemma store_append_inv st es k : ini_inv st es -> ini_inv (store_append st k []) es.
Proof.
  intros (H1 & H2 & H3 & H4). unfold store_append.
  destruct (al_get skey_eqb (i_store st) k) as [vs|] eqn:E; [|repeat split; assumption].
  repeat split; cbn; try assumption. rewrite defaults_of_blank; assumption.
Qed.

Lemma step_blank st es ws :
  ini_inv st es -> blank_ws ws = true -> exists st', ini_step st ws = Ok st' /\ ini_inv st' es.
Proof.
  intros Hi Hw. unfold ini_step, strip. rewrite lstrip_by_all by (apply blank_ws_space; exact Hw).
  change (is_comment_line (rstrip_by is_space [])) with false. cbv iota.
  destruct (open_opt st) as [k|]; eexists; (split; [reflexivity|]); [apply store_append_inv|]; exact Hi.
Qed.

Lemma step_comment st ws mark text :
  blank_ws ws = true -> (mark =? ch_hash) || (mark =? ch_semi) = true -> ini_step st (ws ++ mark :: text) = Ok st.
Proof.
  intros Hw Hm. unfold ini_step, strip. rewrite lstrip_by_app_all by (apply blank_ws_space; exact Hw).
  apply orb_true_iff in Hm as [Hm|Hm]; apply N.eqb_eq in Hm; subst mark;
    rewrite lstrip_by_head, rstrip_by_head by reflexivity; reflexivity.
Qed.

(* the last two conjuncts are what ini_item asks of the key and the value *)
Lemma entry_stripped k ws1 d ws2 v ws3 :
  line_ok (Entry k ws1 d ws2 v ws3) = true ->
  count_while is_space (line_text (Entry k ws1 d ws2 v ws3)) = O /\
  exists c r, strip (line_text (Entry k ws1 d ws2 v ws3)) = c :: r /\ is_comment_line (c :: r) = false /\
              sect_header (c :: r) = None /\ opt_match (c :: r) = Some (k, v) /\ nonempty k = true /\
              edge_ok v = true.
Proof.
  cbn [line_ok line_text].
  intros [[[[[[Hk Hc]%andb_prop Hw1]%andb_prop Hd]%andb_prop Hw2]%andb_prop Hv]%andb_prop Hw3]%andb_prop.
  apply blank_ws_space in Hw1, Hw2, Hw3. apply andb_prop, proj2 in Hv.
  rewrite forallb_andb in Hk. apply andb_prop in Hk as [Hns Hnd].
  destruct k as [|c k']; [discriminate|].
  assert (Hsp : is_space c = false) by (cbn in Hns; apply andb_true_iff in Hns; apply negb_true_iff, Hns).
  split; [cbn; rewrite Hsp; reflexivity|].
  exists c, (k' ++ ws1 ++ d :: rstrip (ws2 ++ v ++ ws3)). repeat split; [| | | |exact Hv].
  - unfold strip. cbn [app]. rewrite lstrip_by_head by exact Hsp.
    rewrite app_comm_cons, app_assoc, rstrip_by_stop by (revert Hd; charc; lia). rewrite <- app_assoc. reflexivity.
  - revert Hc. unfold is_comment_line, starts_with. cbn [is_prefixb]. charc. lia.
  - cbn [sect_header]. replace (c =? ch_lbr) with false by (revert Hc; charc; lia). reflexivity.
  - unfold opt_match. rewrite app_comm_cons, app_assoc, break_on_app; [| |exact Hd].
    + unfold rstrip at 1. rewrite rstrip_by_app_all, rstrip_by_none, strip_rstrip_pad by assumption. reflexivity.
    + rewrite forallb_app, Hnd. by_chars Hw1.
Qed.

Lemma item_entry st es value k v :
  ini_inv st es -> sect_header value = None -> opt_match value = Some (k, v) -> nonempty k = true ->
  edge_ok v = true -> ~ In (lower k) (map fst es) ->
  exists st', ini_item st 0 value = Ok st' /\ ini_inv st' (es ++ [(lower k, v)]).
Proof.
  intros (I1 & I2 & I3 & <-) Hsh Hom Hk Hv Hnin. unfold ini_item. rewrite Hsh, I1, Hom, Hk. cbn [negb].
  pose proof (defaults_of_fresh _ _ Hnin) as Hget. unfold al_mem. rewrite Hget.
  eexists. split; [reflexivity|]. repeat split; cbn; try assumption.
  rewrite (al_set_fresh skey_eqb), defaults_of_app by exact Hget. cbn [defaults_of]. rewrite str_eqb_refl.
  unfold join_value. cbn [join_with]. apply andb_prop in Hv as [_ Hv]. unfold rstrip. now rewrite (rstrip_by_id _ _ Hv).
Qed.

Lemma step_entry st es k ws1 d ws2 v ws3 :
  ini_inv st es -> line_ok (Entry k ws1 d ws2 v ws3) = true -> ~ In (lower k) (map fst es) ->
  exists st', ini_step st (line_text (Entry k ws1 d ws2 v ws3)) = Ok st' /\ ini_inv st' (es ++ [(lower k, v)]).
Proof.
  intros Hi Hok Hnin.
  destruct (entry_stripped _ _ _ _ _ _ Hok) as (Hcw & c & r & Es & Hcm & Hsh & Hom & Hk & Hv).
  destruct (item_entry st es (c :: r) k v Hi Hsh Hom Hk Hv Hnin) as (st' & E & Hi').
  exists st'. split; [|exact Hi']. unfold ini_step. rewrite Es, Hcm, Hcw.
  (* an option left open by the previous line does not matter: the line is not indented beyond it *)
  destruct Hi as (_ & I2 & _). destruct (open_opt st); [rewrite I2|]; exact E.
Qed.

Lemma nodupb_app_not_in a x b : nodupb (a ++ x :: b) = true -> ~ In x a.
Proof.
  induction a as [|y a IH]; cbn [app nodupb In]; [tauto|]. intros [Hy Ha]%andb_prop [<-|Hi]; [|exact (IH Ha Hi)].
  apply negb_true_iff in Hy. rewrite existsb_app in Hy. cbn in Hy. rewrite str_eqb_refl, orb_true_r in Hy. discriminate.
Qed.

(* [es]: the entries read so far *)
Lemma ini_lines_render ls : forall st es,
  ini_inv st es -> forallb line_ok ls = true -> nodupb (map fst es ++ keys_of ls) = true ->
  exists st', ini_lines st (map line_text ls) = Ok st' /\ ini_inv st' (es ++ entries_of ls).
Proof.
  induction ls as [|l r IH]; intros st es Hi Hok Hnd.
  - exists st. cbn. rewrite app_nil_r. auto.
  - cbn [forallb] in Hok. apply andb_prop in Hok as [Hl Hr].
    destruct l as [k w1 d w2 v w3|w m t|w]; cbn [map ini_lines line_text entries_of keys_of] in *.
    + destruct (step_entry st es k w1 d w2 v w3 Hi Hl (nodupb_app_not_in _ _ _ Hnd)) as (st1 & E1 & Hi1).
      cbn [line_text] in E1. rewrite E1. cbn [bind].
      destruct (IH st1 (es ++ [(lower k, v)]) Hi1 Hr) as (st2 & E2 & Hi2); [rewrite map_app, <- app_assoc; exact Hnd|].
      rewrite <- app_assoc in Hi2. eauto.
    + cbn [line_ok] in Hl. apply andb_prop, proj1, andb_prop in Hl. rewrite step_comment by apply Hl.
      apply IH; assumption.
    + destruct (step_blank st es w Hi Hl) as (st1 & E1 & Hi1). rewrite E1. apply IH; assumption.
Qed.

Lemma no_nl_app a b : no_nl (a ++ b) = no_nl a && no_nl b.
Proof. unfold no_nl. apply forallb_app. Qed.

Lemma line_ok_no_nl l : line_ok l = true -> no_nl (line_text l) = true.
Proof.
  destruct l as [k w1 d w2 v w3|w m t|w]; cbn [line_ok line_text].
  - intros [[[[[[Hk _]%andb_prop H1]%andb_prop Hd]%andb_prop H2]%andb_prop [Hv _]%andb_prop]%andb_prop H3]%andb_prop.
    rewrite !no_nl_app. change (no_nl (d :: w2 ++ v ++ w3)) with (negb (d =? ch_nl) && no_nl (w2 ++ v ++ w3)).
    rewrite !no_nl_app, (blank_ws_no_nl w1), (blank_ws_no_nl w2), (blank_ws_no_nl w3), Hv by assumption.
    replace (no_nl k) with true by (symmetry; exact (forallb_avoid ch_nl Hk eq_refl)).
    replace (d =? ch_nl) with false by (revert Hd; charc; lia). reflexivity.
  - intros [[Hw Hm]%andb_prop Ht]%andb_prop.
    rewrite no_nl_app. change (no_nl (m :: t)) with (negb (m =? ch_nl) && no_nl t).
    rewrite (blank_ws_no_nl w Hw), Ht. replace (m =? ch_nl) with false by (revert Hm; charc; lia). reflexivity.
  - apply blank_ws_no_nl.
Qed.

Lemma py_lines_render ls : forallb line_ok ls = true -> py_lines (render ls) = map line_text ls.
Proof.
  induction ls as [|l r IH]; intros H; [reflexivity|].
  cbn [forallb] in H. apply andb_true_iff in H as [Hl Hr].
  unfold render. cbn [flat_map map]. rewrite <- app_assoc. cbn [app].
  rewrite py_lines_cons by (apply line_ok_no_nl; exact Hl). fold (render r). rewrite IH by exact Hr. reflexivity.
Qed.

Theorem ini_read_render ls :
  wf_conf ls = true ->
  ini_read (slit "[DEFAULT]" ++ ch_nl :: render ls) = Ok (entries_of ls).
Proof.
  intros [Hok Hnd]%andb_prop. unfold ini_read. rewrite py_lines_cons by reflexivity. rewrite py_lines_render by exact Hok.
  pose (st0 := mk_ini (Some default_sect) None O [] []).
  cbn [ini_lines]. change (ini_step ini_init (slit "[DEFAULT]")) with (Ok st0). cbn [bind].
  destruct (ini_lines_render ls st0 []) as (st' & E & (_ & _ & _ & Hst)); [repeat split | assumption..|].
  rewrite E. cbn [bind app] in *. rewrite Hst. reflexivity.
Qed.

Theorem ini_get_render ls key :
  wf_conf ls = true ->
  exists d, ini_read (slit "[DEFAULT]" ++ ch_nl :: render ls) = Ok d /\ ini_get d key = file_lookup key ls.
Proof.
  intros H. exists (entries_of ls). split; [apply ini_read_render; exact H|].
  unfold ini_get. symmetry. apply file_lookup_entries.
Qed.
