(* C04, registration API of the legacy front-end: the table steps of register / unregister refine the
   specification; frame properties; every statement about "the state after any history" extends to
   histories with these events. *)
From NDN Require Import Base.Prelude Model.Dispatch Spec.DispatchSpec
  Model.DispatchV1 Spec.DispatchV1Spec Proofs.DispatchProofs.
Local Open Scope N_scope.

Lemma wf_desugar o : wf_vop o -> Forall wf_op (desugar o).
Proof.
  destruct o as [o|k [h|] v ex|k]; cbn; intros W; repeat constructor; try exact W.
Qed.

Lemma vstep_state fe s o : fst (vstep fe s o) = exec fe s (desugar o).
Proof. destruct o as [o|k [h|] v ex|k]; reflexivity. Qed.

Lemma vexec_desugar fe l s : vexec fe s l = exec fe s (flat_map desugar l).
Proof.
  revert s. induction l as [|o l IH]; intros s; [reflexivity|].
  cbn [vexec fold_left flat_map]. rewrite exec_app, <- vstep_state. apply IH.
Qed.

Lemma wf_flat l : Forall wf_vop l -> Forall wf_op (flat_map desugar l).
Proof.
  induction 1 as [|o l W _ IH]; cbn; [constructor|]. apply Forall_app. split; [apply wf_desugar; exact W|exact IH].
Qed.

Lemma vrun_from_vexec fe s l : fst (vrun_from fe s l) = vexec fe s l.
Proof.
  revert s. induction l as [|o l IH]; intros s; [reflexivity|]. cbn.
  destruct (vstep fe s o) as [s1 b] eqn:E. specialize (IH s1). destruct (vrun_from fe s1 l) as [s2 bs].
  cbn in *. exact IH.
Qed.

Lemma vreach_all_cb fe l : Forall wf_vop l -> all_cb (s_fib (vexec fe st0 l)).
Proof. intros W. rewrite vexec_desugar. apply reach_all_cb, wf_flat, W. Qed.

Theorem v1_unregister_frame fe s k :
  let r := vstep fe s (VUnregister k) in
  snd r = ObOk /\ attached (s_fib (fst r)) k = None /\
  (forall q, q <> k -> attached (s_fib (fst r)) q = attached (s_fib s) q) /\
  s_pending (fst r) = s_pending s /\ s_calls (fst r) = s_calls s.
Proof.
  cbn [vstep step fst snd]. pose proof (attached_detach (s_fib s) k) as A.
  destruct (fib_detach (s_fib s) k) as [t r]. cbn [fst s_fib s_pending s_calls] in *. repeat split.
  - rewrite A. apply a_upd_same.
  - intros q N. rewrite A. apply a_upd_other, N.
Qed.

Lemma vstep_refines fe s ss o so :
  reads_as s ss -> svop_of fe o = Some so ->
  reads_as (fst (vstep fe s o)) (fst (svstep fe ss so)) /\ abs_obs (snd (vstep fe s o)) = Some (snd (svstep fe ss so)).
Proof.
  intros HR Ho. destruct o as [o|k [h|] v ex|k]; cbn [svop_of] in Ho.
  - destruct (sop_of fe o) as [so'|] eqn:Eo; [|discriminate]. inversion Ho; subst so. cbn [vstep svstep].
    apply step_refines; assumption.
  - inversion Ho; subst so. cbn [vstep svstep]. apply step_refines; [exact HR|reflexivity].
  - inversion Ho; subst so. cbn [vstep svstep fst snd abs_obs]. split; [exact HR|reflexivity].
  - inversion Ho; subst so. cbn [vstep svstep fst snd abs_obs]. split; [apply reads_as_detach, HR|reflexivity].
Qed.

Theorem vrun_refines fe l sl s ss :
  reads_as s ss -> svops_of fe l = Some sl ->
  reads_as (fst (vrun_from fe s l)) (fst (svrun_from fe ss sl)) /\
  map abs_obs (snd (vrun_from fe s l)) = map Some (snd (svrun_from fe ss sl)).
Proof.
  revert sl s ss. induction l as [|o l IH]; intros sl s ss HR Hs.
  - inversion Hs; subst. cbn. auto.
  - cbn [svops_of] in Hs. destruct (svop_of fe o) as [so|] eqn:Eo; [|discriminate].
    destruct (svops_of fe l) as [sos|] eqn:Es; [|discriminate]. inversion Hs; subst sl. clear Hs.
    destruct (vstep_refines fe s ss o so HR Eo) as [HR1 Hob].
    cbn [vrun_from svrun_from]. destruct (vstep fe s o) as [s1 b]. destruct (svstep fe ss so) as [ss1 sb]. cbn in HR1, Hob.
    specialize (IH sos s1 ss1 HR1 eq_refl).
    destruct (vrun_from fe s1 l) as [s2 bs]. destruct (svrun_from fe ss1 sos) as [ss2 sbs]. cbn in *.
    destruct IH as [IH1 IH2]. split; [exact IH1|]. rewrite Hob, IH2. reflexivity.
Qed.
