(* On a value that is a sequence of well-formed elements, the lenient split of the decoder (with raw bytes)
   is that sequence; what SignatureValueField.parse_from then reports, in terms of those elements, over any
   declared order.  At the end: slots written in declared order are such a sequence, and one the walk accepts
   ([slots_split]). *)
From NDN Require Import Base.Prelude Model.TlvVar Model.Tlv Model.PacketPtrs Spec.SignedPortion
  Proofs.BytesLemmas Proofs.TlvSplit Proofs.TlvRoundtrip2 Proofs.PtrsSpecView Proofs.PtrsWalk.
Local Open Scope N_scope.

Definition agrees (er : elem * bytes) (tr : N * bytes) : Prop :=
  e_type (fst er) = fst tr /\ snd er = snd tr /\ el_value (snd tr) = Some (e_payload (fst er)).

Lemma elements_raw_el t e rest f : is_el (t, e) ->
  exists er, agrees er (t, e) /\ elements_raw (S f) (e ++ rest) = do r <- elements_raw f rest ;; Ok (er :: r).
Proof.
  intros H. destruct (is_el_unfold t e H) as (st & l & sl & E & Hl & S1 & S2 & Hval). destruct (E rest) as (E1 & E2).
  exists (Elem t l (skipn (st + sl) e), e). split; [split; [reflexivity|split; [reflexivity|exact Hval]]|]. clear H E Hval.
  (* e is not empty: the scan takes a step *)
  destruct e as [|b e']; [cbn in Hl; lia|]. cbn [app elements_raw].
  change (b :: e' ++ rest) with ((b :: e') ++ rest). set (e := b :: e') in *.
  rewrite E1. cbn [bind]. rewrite E2. cbn [bind]. cbv zeta.
  assert (Hbody : skipn (st + sl) (e ++ rest) = skipn (st + sl) e ++ rest).
  { rewrite skipn_app. replace (st + sl - length e)%nat with O by lia. reflexivity. }
  assert (Hv : length (skipn (st + sl) e) = N.to_nat l) by (rewrite skipn_length; lia).
  rewrite Hbody, app_length, Hv.
  replace (N.to_nat (N.min l (N.of_nat (N.to_nat l + length rest)))) with (N.to_nat l) by lia.
  rewrite firstn_app_exact', skipn_app_exact' by (symmetry; exact Hv).
  replace (st + sl + N.to_nat l)%nat with (length e) by lia. rewrite firstn_app_exact. reflexivity.
Qed.

Lemma elements_raw_strict : forall sel fuel, Forall is_el sel -> (length sel < fuel)%nat ->
  exists rs, elements_raw fuel (concat (raws sel)) = Ok rs /\ Forall2 agrees rs sel.
Proof.
  induction sel as [|[t e] s IH]; intros fuel Hel Hf; (destruct fuel; [destruct (Nat.nlt_0_r _ Hf)|]).
  - exists []. split; [reflexivity|constructor].
  - inversion Hel as [|? ? H1 H2]; subst. destruct (IH fuel H2 (proj2 (Nat.succ_lt_mono _ _) Hf)) as (rs & Ers & Hrs).
    destruct (elements_raw_el t e (concat (raws s)) fuel H1) as (er & Ha & Es).
    exists (er :: rs). cbn [raws map concat snd]. fold (raws s). rewrite Es, Ers.
    split; [reflexivity|constructor; assumption].
Qed.

Theorem split_raw_strict v sel : strict_split (S (length v)) v = Some sel ->
  exists rs, split_raw v = Ok rs /\ Forall2 agrees rs sel.
Proof.
  intros H. destruct (strict_split_view _ _ H) as (Ev & Hel & Hf).
  pose proof (elements_raw_strict sel (S (length v)) Hel Hf) as G. rewrite <- Ev in G. exact G.
Qed.

Lemma agrees_types rs sel : Forall2 agrees rs sel -> map (fun er => e_type (fst er)) rs = types sel.
Proof. induction 1 as [|er tr rs sel (A & _) _ IH]; [reflexivity|]. cbn [map types]. f_equal; [exact A|exact IH]. Qed.
Lemma agrees_raws rs sel : Forall2 agrees rs sel -> map snd rs = raws sel.
Proof. induction 1 as [|er tr rs sel (_ & A & _) _ IH]; [reflexivity|]. cbn [map raws]. f_equal; [exact A|exact IH]. Qed.
Lemma agrees_value rs sel : Forall2 agrees rs sel -> forall k,
  option_map (fun er => e_payload (fst er)) (nth_error rs k) = value_at sel k.
Proof.
  induction 1 as [|er tr rs sel (_ & _ & A) _ IH]; intros [|k]; [reflexivity|reflexivity| |apply IH].
  cbn. symmetry. exact A.
Qed.

Lemma sig_part_view tsig rs sel ev : Forall2 agrees rs sel ->
  sig_part tsig rs ev =
  match event_of tsig ev with
  | Some (i, m) =>
      (match get_mark MARK_SIG_START m with Some a => [raws_between (raws sel) a i] | None => [] end,
       value_at sel i)
  | None => ([], None)
  end.
Proof.
  intros Hag. unfold sig_part. destruct (event_of tsig ev) as [[i m]|]; [|reflexivity].
  rewrite (agrees_value _ _ Hag), (agrees_raws _ _ Hag). reflexivity.
Qed.

Lemma agrees_value_some rs sel k : Forall2 agrees rs sel -> (k < length sel)%nat -> value_at sel k <> None.
Proof.
  intros Hag Hk. rewrite <- (agrees_value _ _ Hag).
  assert (L : length rs = length sel)
    by (rewrite <- (map_length (fun er => e_type (fst er)) rs), (agrees_types _ _ Hag); apply map_length).
  destruct (nth_error rs k) eqn:E; [discriminate|]. apply nth_error_None in E. lia.
Qed.

(* What SignatureValueField.parse_from reports for a signature element [tb] that is critical or declared last, over any
   declared order: the value of the first [tb]; and, when the start marker sits at [q] before the field of [ta],
   the elements from the first [ta] before the first [tb] up to that [tb], provided none of the elements before that
   [ta] can be assigned beyond the marker.  Why they cannot differs: the Name is critical and the first field
   (Data), ApplicationParameters precedes the signature elements (Interest). *)
Section Reported.
Variable lay : layout.
Hypothesis Hnd : NoDup (lfields lay).
Variables (tb : N) (jb : nat).
Hypothesis Hjb : lay_index lay 0 tb = Some jb.
Hypothesis Hfirst : N.odd tb = true \/ (forall t' j', lay_index lay 0 t' = Some j' -> (j' <= jb)%nat).

Lemma sig_part_value rs sel ev : Forall2 agrees rs sel -> walk lay 0 (types sel) 0 [] = Ok ev ->
  snd (sig_part tb rs ev) = match idx_of tb (types sel) with Some kb => value_at sel kb | None => None end /\
  (idx_of tb (types sel) = None -> fst (sig_part tb rs ev) = []).
Proof.
  intros Hag W. rewrite (sig_part_view _ _ _ _ Hag).
  pose proof (walk_first_event lay Hnd tb jb Hjb Hfirst _ _ _ _ _ W (or_introl (Nat.le_0_l _))) as Hev.
  destruct (idx_of tb (types sel)) as [kb|].
  - destruct Hev as (m & ->). split; [reflexivity|discriminate].
  - rewrite Hev. split; reflexivity.
Qed.

Variables (q : nat) (ta : N) (ja : nat).
Hypothesis Hc : mark_index lay 0 MARK_SIG_START = [q].
Hypothesis Hja : lay_index lay 0 ta = Some ja.
Hypothesis Hqa : (q < ja)%nat.
Hypothesis Hqb : (q <= jb)%nat.

Lemma sig_part_between rs sel ev ka kb :
  Forall2 agrees rs sel -> walk lay 0 (types sel) 0 [] = Ok ev ->
  idx_of tb (types sel) = Some kb -> idx_of ta (firstn kb (types sel)) = Some ka ->
  Forall (before lay q) (firstn ka (types sel)) ->
  fst (sig_part tb rs ev) = [raws_between (raws sel) ka kb].
Proof.
  intros Hag W Ib Ia HA. rewrite (sig_part_view _ _ _ _ Hag).
  pose proof (walk_first_event lay Hnd tb jb Hjb Hfirst _ _ _ _ _ W (or_introl (Nat.le_0_l _))) as Hev.
  rewrite Ib in Hev. destruct Hev as (m & Hm). cbn [Nat.add] in Hm. rewrite Hm.
  destruct (idx_of_firstn _ _ _ _ Ia) as (Ia' & _). destruct (idx_of_split _ _ _ Ia') as (E & L & _).
  rewrite E in W.
  pose proof (proj1 (walk_mark_set lay Hnd MARK_SIG_START q Hc ta ja Hja Hqa _ _ 0 0 [] ev HA W (Nat.le_0_l _))
                tb jb kb m Hjb Hqb Hm) as G.
  cbn [Nat.add] in G. rewrite L in G. rewrite G. reflexivity.
Qed.
End Reported.

Lemma ptrs_data_of_walk lay v rs ev :
  split_raw v = Ok rs -> walk lay 0 (map (fun er => e_type (fst er)) rs) 0 [] = Ok ev -> exists p, ptrs_data_with lay v = Ok p.
Proof.
  intros Ers W. unfold ptrs_data_with. rewrite Ers. cbn [bind]. rewrite W. cbn [bind]. destruct (sig_part 23 rs ev). eexists; reflexivity.
Qed.

Lemma ptrs_data_of_strict lay v sel ev : strict_split (S (length v)) v = Some sel -> walk lay 0 (types sel) 0 [] = Ok ev ->
  exists p, ptrs_data_with lay v = Ok p.
Proof.
  intros Hs W. destruct (split_raw_strict _ _ Hs) as (rs & Ers & Hag). apply (ptrs_data_of_walk lay v rs ev Ers).
  rewrite (agrees_types _ _ Hag). exact W.
Qed.

(* Slots in declared order: the fields a maker writes, each nothing or one element of its Type, are a run of elements
   that splits strictly and that the walk accepts. *)
Lemma slots_sel lay : forall ts segs, Forall2 slot ts segs -> forall pos,
  Forall (fun t => t < two64) ts -> N.of_nat (length (concat segs)) < two64 -> ascending lay pos ts = true ->
  exists sel, concat (raws sel) = concat segs /\ Forall is_el sel /\ ascending lay pos (types sel) = true.
Proof.
  induction 1 as [|t s ts segs Hs _ IH]; intros pos Hts Hl Ha; [exists []; repeat split; constructor|].
  inversion Hts as [|? ? Ht Hts']; subst. cbn [concat] in Hl |- *. rewrite app_length in Hl. cbn [ascending] in Ha.
  destruct (lay_index lay 0 t) as [j|] eqn:Ej; [|discriminate]. apply andb_prop in Ha. destruct Ha as [Hp Ha].
  destruct (IH (S j) Hts' ltac:(lia) Ha) as (sel & Ec & Hel & Hasc). destruct Hs as [->|[p ->]].
  - exists sel. split; [exact Ec|]. split; [exact Hel|]. apply Nat.leb_le in Hp. apply (ascending_le _ _ (S j)); [lia|exact Hasc].
  - exists ((t, tlv t p) :: sel). cbn [raws map snd concat types fst ascending]. fold (raws sel) (types sel). rewrite Ec, Ej, Hp.
    split; [reflexivity|]. split; [|exact Hasc]. constructor; [|exact Hel].
    intros rest. apply next_element_tlv; [exact Ht|]. rewrite tlv_length in Hl. lia.
Qed.

Lemma slots_split lay ts segs : Forall2 slot ts segs -> Forall (fun t => t < two64) ts -> NoDup (lfields lay) ->
  N.of_nat (length (concat segs)) < two64 -> ascending lay 0 ts = true ->
  exists sel ev, strict_split (S (length (concat segs))) (concat segs) = Some sel /\ walk lay 0 (types sel) 0 [] = Ok ev /\
                 ascending lay 0 (types sel) = true.
Proof.
  intros Hs Hts Hnd Hl Ha. destruct (slots_sel lay ts segs Hs 0%nat Hts Hl Ha) as (sel & Ec & Hel & Hasc).
  destruct (walk_ascending lay Hnd _ 0%nat 0%nat [] Hasc) as (ev & W). exists sel, ev.
  split; [|split; assumption]. rewrite <- Ec. apply strict_split_concat; [exact Hel|]. pose proof (length_le_concat sel Hel). lia.
Qed.
