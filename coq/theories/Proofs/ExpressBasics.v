(* C03 / C05 — facts about the specification automaton alone ([due], [expire], [react], [spec_step] of
   Spec/ExpressSpec.v); generic lemmas about the batch operations of Model/ExpressPipeline.v: [upd_all] (per-record map),
   [pit_map]/[pit_hits] read over the flattened PIT ([pflat]); what [do_express] changes; a predicate kept by the
   phases of a step holds of every run. *)
From NDN Require Import Base.Prelude Proofs.ListLemmas Spec.ExpressSpec Model.ExpressPipeline.
Local Open Scope N_scope.

Lemma name_eqb_eq a b : name_eqb a b = true <-> a = b.
Proof. apply list_eqb_spec. intros; apply N.eqb_eq. Qed.
Lemma name_eqb_refl a : name_eqb a a = true.
Proof. apply name_eqb_eq; reflexivity. Qed.
Lemma name_eqb_sym a b : name_eqb a b = name_eqb b a.
Proof. apply (eqb_sym' name_eqb name_eqb_eq). Qed.
Lemma is_prefix_refl a : is_prefix a a = true.
Proof. induction a; cbn; auto. rewrite N.eqb_refl; auto. Qed.

Lemma due_weaken dl t : due false dl t = false -> due true dl t = false.
Proof. unfold due. intros H. apply N.leb_gt in H. apply N.ltb_ge. lia. Qed.

Lemma strict_due dl t : due true dl t = false -> (t <? dl) = negb (due false dl t).
Proof.
  unfold due. intros H. apply N.ltb_ge in H. destruct (N.leb_spec dl t); cbn; [apply N.ltb_ge | apply N.ltb_lt]; lia.
Qed.

Lemma expire_idem fe t st : expire fe false t (expire fe false t st) = expire fe false t st.
Proof.
  destruct st as [|r|r d|o]; unfold expire, due; auto.
  - destruct (s_D r <=? t) eqn:D; auto. rewrite D. reflexivity.
  - destruct fe; auto. destruct (s_D r <=? t) eqn:D; auto. rewrite D. reflexivity.
Qed.

Lemma react_vdone_other fe i j st v t : i <> j -> react fe i st (VDone j v t) = st.
Proof. intros NE. apply N.eqb_neq in NE. rewrite N.eqb_sym in NE. destruct st; cbn; rewrite ?NE; reflexivity. Qed.
Lemma react_cancel_other fe i j st t : i <> j -> react fe i st (Cancel j t) = st.
Proof. intros NE. apply N.eqb_neq in NE. rewrite N.eqb_sym in NE. destruct st; cbn; rewrite ?NE; reflexivity. Qed.

Lemma spec_step_done fe i o x : spec_step fe i (IDone o) x = IDone o.
Proof. unfold spec_step. cbn [expire]. destruct (snd x); reflexivity. Qed.
Lemma spec_run_done fe i o h : fold_left (spec_step fe i) h (IDone o) = IDone o.
Proof. apply fold_left_fixed. intros x. apply spec_step_done. Qed.

Lemma spec_express_await fe i n cbp dig life vm t j st :
  0 < life -> (j = i -> st = INone) ->
  spec_step fe j (spec_step fe j st (NoTie, Express i n cbp dig life vm t)) (NoTie, Await i t)
  = expire fe false t (if j =? i then IPending (mkSp n cbp dig (t + life) vm) else expire fe false t st).
Proof.
  intros L Z. unfold spec_step. cbn [fst snd ev_time].
  assert (RA : forall st, react fe j st (Await i t) = st) by (intros []; reflexivity). rewrite RA, !expire_idem.
  destruct (N.eqb_spec j i) as [E|NE].
  - rewrite (Z E). cbn [expire react]. rewrite E, N.eqb_refl. reflexivity.
  - assert (RE : forall st, react fe j st (Express i n cbp dig life vm t) = st).
    { intros []; cbn; auto. apply N.eqb_neq in NE. rewrite N.eqb_sym, NE. reflexivity. }
    rewrite RE, expire_idem. reflexivity.
Qed.

Lemma get_int_upd_all f s i : get_int (upd_all f s) i = option_map (fun r => f_rec (f i r)) (get_int s i).
Proof. unfold get_int, upd_all; cbn. apply (al_get_map N.eqb N.eqb_eq (fun k r => f_rec (f k r))). Qed.

Lemma get_int_set_pit s p i : get_int (set_pit s p) i = get_int s i. Proof. reflexivity. Qed.

Lemma get_int_snoc s s' i r :
  get_int s i = None -> ints s' = ints s ++ [(i, r)] ->
  forall j, get_int s' j = if j =? i then Some r else get_int s j.
Proof.
  intros G Ei j. unfold get_int in *. rewrite Ei, al_get_app. destruct (N.eqb_spec j i) as [->|NE].
  - rewrite G. cbn. rewrite N.eqb_refl. reflexivity.
  - destruct (al_get N.eqb (ints s) j); [reflexivity|]. cbn. rewrite (proj2 (N.eqb_neq j i) NE). reflexivity.
Qed.

Lemma ids_upd_all f s : map fst (ints (upd_all f s)) = map fst (ints s).
Proof. unfold upd_all; cbn. rewrite map_map; cbn. reflexivity. Qed.

Lemma settle_ids fe s : map fst (ints (settle fe s)) = map fst (ints s).
Proof. unfold settle. rewrite ids_upd_all. cbn [ints set_pit]. rewrite ids_upd_all. reflexivity. Qed.
Lemma fire_ids b t s : map fst (ints (fire b t s)) = map fst (ints s).
Proof. unfold fire. apply ids_upd_all. Qed.

Lemma set_pit_id s : set_pit s (pit s) = s. Proof. destruct s; reflexivity. Qed.
Lemma set_now_id s : set_now s (now s) = s. Proof. destruct s; reflexivity. Qed.

Lemma upd_all_pit f s : pit (upd_all f s) = pit s. Proof. reflexivity. Qed.
Lemma upd_all_shut f s : shut (upd_all f s) = shut s. Proof. reflexivity. Qed.
Lemma upd_all_fib f s : fib (upd_all f s) = fib s. Proof. reflexivity. Qed.
Lemma upd_all_hcalls f s : hcalls (upd_all f s) = hcalls s. Proof. reflexivity. Qed.

Lemma upd_all_id f s : (forall i r, In (i, r) (ints s) -> f i r = keep r) -> upd_all f s = s.
Proof.
  intros H. unfold upd_all.
  rewrite !flat_map_all_nil, !app_nil_r by (intros [k r] I; cbn; rewrite (H k r I); reflexivity).
  rewrite (map_ext_in _ (fun kr => kr)), map_id by (intros [k r] I; cbn; rewrite (H k r I); reflexivity).
  destruct s; reflexivity.
Qed.

Lemma upd_all_keep s : upd_all (fun _ r => keep r) s = s.
Proof. apply upd_all_id. reflexivity. Qed.

Definition pflat (p : pit_t) : list (name * N * entry) :=
  flat_map (fun kv : name * pnode => map (fun e => (fst kv, fst (snd kv), e)) (snd (snd kv))) p.
Definition flat_test (h : name -> N -> entry -> bool) (x : name * N * entry) : bool := h (fst (fst x)) (snd (fst x)) (snd x).
Definition flat_id (x : name * N * entry) : N := e_id (snd x).

Lemma filter_flat_test h pn nid es :
  filter (flat_test h) (map (fun e => (pn, nid, e)) es) = map (fun e => (pn, nid, e)) (filter (h pn nid) es).
Proof.
  induction es as [|e es IH]; cbn; [reflexivity|]. unfold flat_test at 1; cbn. destruct (h pn nid e); cbn; rewrite IH; reflexivity.
Qed.

Lemma pit_hits_flat h p : pit_hits h p = map flat_id (filter (flat_test h) (pflat p)).
Proof.
  unfold pit_hits, pflat. induction p as [|[pn [nid es]] p IH]; cbn; [reflexivity|].
  rewrite filter_app, map_app, IH, filter_flat_test, map_map. reflexivity.
Qed.

Lemma pflat_pit_map kp p : pflat (pit_map kp p) = filter (flat_test kp) (pflat p).
Proof.
  unfold pit_map, pflat. induction p as [|[pn [nid es]] p IH]; cbn; [reflexivity|].
  rewrite filter_app, <- IH, filter_flat_test. unfold nonempty at 1; cbn.
  destruct (filter (kp pn nid) es) eqn:F; cbn; reflexivity.
Qed.

Lemma pit_entries_flat s : pit_entries s = map flat_id (pflat (pit s)).
Proof.
  unfold pit_entries. rewrite pit_hits_flat, filter_all by reflexivity. reflexivity.
Qed.

Lemma pflat_In p pn nid e : In (pn, nid, e) (pflat p) <-> exists es, In (pn, (nid, es)) p /\ In e es.
Proof.
  unfold pflat. rewrite in_flat_map. split.
  - intros [[pn' [nid' es]] [I1 I2]]; cbn in I2. apply in_map_iff in I2. destruct I2 as [e' [E I3]]. inversion E; subst. eauto.
  - intros [es [I1 I2]]. exists (pn, (nid, es)); split; auto. cbn. apply in_map_iff. eauto.
Qed.

Lemma pflat_express_Add p n nid l e :
  match pit_get p n with Some x => x = (nid, l) | None => l = [] end ->
  Add (n, nid, e) (pflat p) (pflat (al_set name_eqb p n (nid, l ++ [e]))).
Proof.
  unfold pit_get. induction p as [|[k [nid0 l0]] p IH]; cbn.
  - intros ->. cbn. constructor.
  - destruct (name_eqb n k) eqn:E.
    + intros H. inversion H; subst. apply name_eqb_eq in E. subst k. cbn.
      rewrite map_app. cbn. rewrite <- app_assoc. cbn. apply Add_app.
    + intros H. cbn. apply Add_app_l. apply IH, H.
Qed.

Lemma pit_map_keys_sub kp p k : In k (map fst (pit_map kp p)) -> In k (map fst p).
Proof.
  unfold pit_map. intros H. apply in_map_iff in H. destruct H as [[pn nd] [E I]]. cbn in E; subst.
  apply filter_In in I. destruct I as [I _]. apply in_map_iff in I. destruct I as [x [E I]].
  apply in_map_iff. exists x; split; auto. inversion E; reflexivity.
Qed.

Lemma pit_map_keys_nodup kp p : NoDup (map fst p) -> NoDup (map fst (pit_map kp p)).
Proof.
  intros ND. unfold pit_map. apply NoDup_map_filter. rewrite map_map; cbn. exact ND.
Qed.

Lemma pit_map_In kp p pn nid es :
  In (pn, (nid, es)) (pit_map kp p) -> es <> [] /\ exists es0, In (pn, (nid, es0)) p /\ es = filter (kp pn nid) es0.
Proof.
  unfold pit_map. intros I. apply filter_In in I. destruct I as [I NE].
  apply in_map_iff in I. destruct I as [[pn' [nid' es0]] [E I]]. cbn in E. inversion E; subst.
  split.
  - unfold nonempty in NE; cbn in NE. destruct (filter (kp pn nid) es0); [discriminate | congruence].
  - eauto.
Qed.

Lemma pit_map_true p : (forall pn nid es, In (pn, (nid, es)) p -> es <> []) -> pit_map (fun _ _ _ => true) p = p.
Proof.
  intros NE. unfold pit_map. induction p as [|[pn [nid es]] p IH]; cbn; [reflexivity|].
  rewrite (filter_all (fun _ : entry => true) es) by reflexivity. unfold nonempty at 1; cbn. destruct es eqn:Ees.
  - exfalso. eapply NE; [left; reflexivity | reflexivity].
  - f_equal. apply IH. intros; eapply NE; right; eauto.
Qed.

Lemma pit_map_false p : pit_map (fun _ _ _ => false) p = [].
Proof.
  unfold pit_map. induction p as [|[pn [nid es]] p IH]; cbn; auto.
  rewrite (proj2 (filter_nil_iff (fun _ : entry => false) es)) by reflexivity. cbn. exact IH.
Qed.

Lemma pit_map_ext kp kq p :
  (forall pn nid es e, In (pn, (nid, es)) p -> In e es -> kp pn nid e = kq pn nid e) -> pit_map kp p = pit_map kq p.
Proof.
  intros H. unfold pit_map. f_equal. apply map_ext_in. intros [pn [nid es]] I; cbn. do 2 f_equal.
  apply filter_ext_in. intros e Ie. eapply H; eauto.
Qed.

Lemma mem_In i l : mem i l = true <-> In i l.
Proof. apply (existsb_eqb_in N.eqb N.eqb_eq). Qed.

Lemma step_preserves (P : st -> Prop) fe :
  (forall s t, P s -> P (set_now s t)) -> (forall b t s, P s -> P (fire b t s)) -> (forall s, P s -> P (settle fe s)) ->
  (forall s e, P s -> P (apply fe s e)) -> forall s x, P s -> P (step fe s x).
Proof.
  intros N F S A s x H. unfold step. apply S, F, A. unfold pre.
  destruct (fst x); [apply S, F, N, H | apply S, F, N, H | apply F, S, F, N, H].
Qed.

Lemma run_preserves (P : st -> Prop) fe : (forall s x, P s -> P (step fe s x)) -> P init -> forall h, P (run_hist fe h).
Proof. intros S I h. unfold run_hist. apply fold_left_inv; assumption. Qed.

Lemma run_hist_snoc fe h x : run_hist fe (h ++ [x]) = step fe (run_hist fe h) x.
Proof. unfold run_hist. apply fold_left_app. Qed.
Lemma spec_state_snoc fe h x i : spec_state fe (h ++ [x]) i = spec_step fe i (spec_state fe h i) x.
Proof. unfold spec_state. apply fold_left_app. Qed.

Definition fresh_rec (n : name) (cbp : bool) (dig : option N) (life : N) (vm : vmode) (nw nid : N) : irec :=
  mkI n cbp dig life (nw + life) vm nid FPending WNotAwaited 0 false false VNone.

Lemma do_express_frame fe s i n cbp dig life vm :
  let s' := do_express fe s i n cbp dig life vm in
  log s' = log s /\ errs s' = errs s /\ hcalls s' = hcalls s /\ dflt s' = dflt s /\ now s' = now s /\ shut s' = shut s /\
  ((shut s = true \/ get_int s i <> None) /\ ints s' = ints s \/
   shut s = false /\ get_int s i = None /\ exists nid l,
     match pit_get (pit s) n with Some x => x = (nid, l) | None => l = [] end /\
     ints s' = ints s ++ [(i, fresh_rec n cbp dig life vm (now s) nid)] /\
     pit s' = al_set name_eqb (pit s) n (nid, l ++ [mkE i cbp dig])).
Proof.
  unfold do_express. destruct (shut s) eqn:S; [cbn; auto 10|].
  unfold al_mem. fold (get_int s i). destruct (get_int s i).
  - repeat split; try exact S. left. split; [right; discriminate | reflexivity].
  - destruct (pit_get (pit s) n) as [[nid l]|]; cbn; repeat split; try exact S; right; repeat split; eexists; eexists; repeat split.
Qed.
