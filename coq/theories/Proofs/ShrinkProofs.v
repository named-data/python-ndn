(* C01: the post-signing length repair (tlv_var.shrink_length, offset-based in-place patching) turns
   "T, L(|p|+|pad|), p ++ pad" into the canonical "T, L(|p|), p", whatever size class the two lengths fall in. *)
From NDN Require Import Base.Prelude Model.TlvVar Model.Tlv Proofs.BytesLemmas Proofs.TlvVarProofs Proofs.TlvSplit.
Local Open Scope N_scope.

Lemma splice_length buf off p : (off + length p <= length buf)%nat -> length (splice buf off p) = length buf.
Proof. intros H. unfold splice. rewrite !app_length, firstn_length, skipn_length. lia. Qed.

Lemma splice_length_ge buf off p : (length buf <= length (splice buf off p))%nat.
Proof. unfold splice. rewrite !app_length, firstn_length, skipn_length. lia. Qed.

Lemma splice_wf buf off p : wf_bytes buf -> wf_bytes p -> wf_bytes (splice buf off p).
Proof.
  intros Hb Hp. unfold splice. apply Forall_app. split; [apply Forall_firstn; exact Hb|].
  apply Forall_app. split; [exact Hp|apply Forall_skipn; exact Hb].
Qed.

Lemma splice_at_prefix (a old new rest : bytes) :
  length old = length new -> splice (a ++ old ++ rest) (length a) new = a ++ new ++ rest.
Proof.
  intros H. unfold splice. rewrite firstn_app_exact.
  replace (length a + length new)%nat with (length (a ++ old)) by (rewrite app_length; lia).
  rewrite (app_assoc a old rest). rewrite skipn_app_exact. reflexivity.
Qed.

Lemma splice2 w d a b : (d <= length w)%nat ->
  splice (splice w d a) (length a + d) b = firstn d w ++ a ++ b ++ skipn (d + length a + length b) w.
Proof.
  intros H. unfold splice at 1. replace (splice w d a) with ((firstn d w ++ a) ++ skipn (d + length a) w)
    by (unfold splice; symmetry; apply app_assoc).
  assert (L : (length a + d)%nat = length (firstn d w ++ a)) by (rewrite app_length, firstn_length; lia).
  rewrite <- (skipn_add (length b) (length a + d)), firstn_app_exact', skipn_app_exact', skipn_add, <- !app_assoc by exact L.
  reflexivity.
Qed.

Theorem shrink_length_correct t p pad :
  t < two64 -> N.of_nat (length (p ++ pad)) < two64 ->
  shrink_length (tlv t (p ++ pad)) (length pad) = Ok (tlv t p).
Proof.
  intros Ht Hl. unfold shrink_length.
  destruct (tl_header t (p ++ pad) [] Ht Hl) as (E1 & E2 & _). rewrite app_nil_r in E1, E2.
  rewrite E1. cbn [bind]. rewrite E2. cbn [bind]. unfold tlv.
  set (size := N.of_nat (length (p ++ pad))) in *.
  assert (Hreal : size - N.of_nat (length pad) = N.of_nat (length p)) by (unfold size; rewrite app_length; lia).
  replace (size <? N.of_nat (length pad)) with false by (unfold size; rewrite app_length; lia). rewrite Hreal.
  set (T := tl_enc t). set (Lo := tl_enc size). set (Ln := tl_enc (N.of_nat (length p))).
  assert (HT : length T = tl_size t) by apply tl_enc_length.
  assert (HLo : length Lo = tl_size size) by apply tl_enc_length.
  assert (HLn : length Ln = tl_size (N.of_nat (length p))) by apply tl_enc_length.
  assert (Hle : (length Ln <= length Lo)%nat) by (rewrite HLo, HLn; apply tl_size_mono; unfold size; rewrite app_length; lia).
  rewrite <- HT, <- HLo, <- HLn.
  (* the new Length overwrites the first bytes [Lo1] of the old one; [Lo2] is what is left of it *)
  rewrite <- (firstn_skipn (length Ln) Lo), <- app_assoc.
  set (Lo1 := firstn (length Ln) Lo). set (Lo2 := skipn (length Ln) Lo).
  assert (H1 : length Lo1 = length Ln) by (unfold Lo1; rewrite firstn_length; lia).
  assert (H2 : length Lo2 = (length Lo - length Ln)%nat) by (unfold Lo2; apply skipn_length).
  rewrite (splice_at_prefix T Lo1 Ln) by exact H1.
  rewrite (app_length Lo1), H1.
  destruct (Nat.eqb (length Ln) (length Ln + length Lo2)) eqn:E.
  - apply Nat.eqb_eq in E. destruct Lo2; [|cbn [length] in E; lia]. cbn [app]. f_equal.
    replace (T ++ Ln ++ p ++ pad) with ((T ++ Ln ++ p) ++ pad) by (rewrite <- !app_assoc; reflexivity).
    apply firstn_app_exact'. rewrite !app_length. lia.
  - clear E. replace (length Ln + length Lo2 - length Ln)%nat with (length Lo2) by lia. f_equal.
    set (w1 := T ++ Ln ++ Lo2 ++ p ++ pad).
    assert (L1 : length w1 = (length T + length Ln + length Lo2 + length p + length pad)%nat)
      by (unfold w1; rewrite !app_length; lia).
    rewrite splice2 by lia.
    replace (skipn (length Lo2 + length T + length Ln) w1) with (p ++ pad)
      by (unfold w1; rewrite !(app_assoc _ _ (p ++ pad)); symmetry; apply skipn_app_exact'; rewrite !app_length; lia).
    (* the answer leaves out [pad] at the end and, in front, the bytes the Length no longer needs *)
    set (X := firstn (length Lo2) w1). assert (LX : length X = length Lo2) by (unfold X; rewrite firstn_length; lia).
    replace (X ++ T ++ Ln ++ p ++ pad) with ((X ++ T ++ Ln ++ p) ++ pad) by (rewrite <- !app_assoc; reflexivity).
    rewrite firstn_app_exact' by (rewrite !app_length; lia). apply skipn_app_exact'. symmetry. exact LX.
Qed.
