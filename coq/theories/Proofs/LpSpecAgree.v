(* C10: on every envelope the executable specification (Spec/LpSpec.v: an order-insensitive reading of
   the element list, written without TlvModel.parse) and the model of the unwrap prologue agree.  This is the
   link between the theorems (about the model) and the oracle the harness evaluates on the implementation. *)
From NDN Require Import Base.Prelude Model.TlvVar Model.Tlv Model.Packet Model.Lp Spec.TlvWf
  Spec.StrictTlv Spec.LpSpec
  Proofs.BytesLemmas Proofs.TlvVarProofs Proofs.TlvSplit Proofs.TlvRoundtrip2
  Proofs.TlvMore Proofs.PacketDecode Proofs.LpUnknown Proofs.LpProofs Proofs.LpWire.
From NDN Require Import Generated.ConstsLp.
Local Open Scope N_scope.

Definition spec_of_unwrapped (u : unwrapped) : spec_result :=
  match u with
  | UDrop 1 => SReject
  | UDrop _ => SIdle
  | URaise _ => SUnspec
  | UNack r f => SNack r f
  | UPacket t tok d => SPacket t tok d
  end.

Lemma has_find t els : has t els = match find (fun e => e_type e =? t) els with Some _ => true | None => false end.
Proof. unfold has. induction els as [|e els IH]; [reflexivity|]. cbn [existsb find]. destruct (e_type e =? t); [reflexivity|exact IH]. Qed.

Lemma find_with_unknown fs a b t :
  with_unknown fs a b -> In t (level_types fs) ->
  find (fun e => e_type e =? t) b = find (fun e => e_type e =? t) a.
Proof.
  intros H Ht. induction H as [|e a b _ IH|e a b K _ IH]; [reflexivity| |].
  - cbn [find]. rewrite IH. reflexivity.
  - cbn [find]. replace (e_type e =? t) with false; [exact IH|].
    symmetry. apply N.eqb_neq. intros E. apply (known_false _ _ K). rewrite E. exact Ht.
Qed.

Lemma nni_of_enc r : r < 256 ^ N.of_nat (nni_width r) -> nni (nni_enc r) = Some r.
Proof.
  intros Hr. unfold nni. rewrite nni_enc_length.
  replace (_ || _) with true by (destruct (nni_width_cases r) as [E|[E|[E|E]]]; rewrite E; reflexivity).
  unfold nni_enc. rewrite (be_to_N_to_be_small _ _ Hr). reflexivity.
Qed.

(* the round trip per field ([enc_fields_headers], Proofs/TlvRoundtrip2.v) survives the insertion of unrecognised
   elements: they are of no declared Type, so the first element of each declared Type is still the one the encoder
   wrote ([find_with_unknown]).  The specification reads an envelope through these first elements only. *)
Lemma header_facts d fs vs els0 els :
  wf_fields fs -> forallb (fun f => single (snd f)) fs = true ->
  Forall2 (fun f v => fits (snd f) v) fs vs -> Forall el_ok els -> N.of_nat (length (ser_els els)) < two64 ->
  encode_model d fs vs = Ok (ser_els els0) -> with_unknown fs els0 els ->
  forall T K, In (T, K) fs -> header_of d els T K (field_value fs vs T).
Proof.
  intros Hwf Hs HF Hok Hl He Hw T K Hin. inversion Hwf as [fs0 Hnd Hall]; subst.
  pose proof (ser_els_with_unknown_length _ _ _ Hw) as Hlen.
  destruct (enc_fields_headers d fs vs Hall Hnd Hs HF _ He ltac:(lia)) as (els1 & E & Hok1 & _ & Hh).
  assert (els0 = els1) as ->.
  { pose proof (split_wire_ser _ (with_unknown_el_ok _ _ _ Hw Hok)) as S0.
    rewrite E, (split_wire_ser _ Hok1) in S0. injection S0 as <-. reflexivity. }
  unfold header_of. rewrite (find_with_unknown fs _ els T Hw (level_types_field _ _ _ Hin)). exact (Hh T K Hin).
Qed.

Lemma header_has d els T K v :
  header_of d els T K v -> has T els = match v with VNone => false | _ => true end.
Proof.
  unfold header_of. rewrite has_find. destruct (find _ els); [|intros ->; reflexivity].
  intros (Hv & _). destruct v; try reflexivity. congruence.
Qed.

Lemma bytes_header d els T v :
  header_of (S d) els T (KBytes false) v -> first_of T els = match v with VBytes b => Some b | _ => None end.
Proof.
  unfold header_of, first_of. destruct (find _ els) as [e|]; [|intros ->; reflexivity].
  intros (_ & _ & Hp & _). cbn [parse_val] in Hp. injection Hp as <-. reflexivity.
Qed.

Lemma nack_value_cases v :
  fits (KModel nack_fields false) v -> v = VNone \/ exists x, v = VModel [x] /\ fits (KUint None) x.
Proof.
  inversion 1 as [| | | | |fs ic ns HF| |]; subst; [left; reflexivity|right].
  inversion HF as [|f x fs' ns' Hx HF']; subst. inversion HF'; subst. exists x. split; [reflexivity|exact Hx].
Qed.

Definition nack_payload (x : value) : bytes :=
  match x with VUint n => tlv attr_nack_reason (nni_enc n) | _ => [] end.

Lemma enc_nack d x :
  fits (KUint None) x ->
  enc_val (S (S d)) attr_nack (KModel nack_fields false) (VModel [x]) = Ok (tlv attr_nack (nack_payload x)).
Proof.
  intros H. rewrite enc_val_model by reflexivity. change nack_fields with [(attr_nack_reason, KUint None)].
  cbn [enc_fields_with]. inversion H as [|fx n w Hw Hb| | | | | |]; subst.
  - rewrite enc_val_none. reflexivity.
  - rewrite (enc_val_uint _ attr_nack_reason _ _ _ eq_refl Hw Hb). cbn [fixed_width] in Hw. injection Hw as <-.
    cbn [bind]. rewrite app_nil_r. reflexivity.
Qed.

Lemma nack_header vs els :
  header_of lp_depth els attr_nack (KModel nack_fields false) (lp_attr vs attr_nack) ->
  spec_nack els = Some (nack_reason_of (lp_nack vs)).
Proof.
  unfold spec_nack, first_of, header_of, lp_nack. change T_NACK with attr_nack.
  generalize (lp_attr vs attr_nack). intros v. destruct (find _ els) as [e|]; [|intros ->; reflexivity].
  intros (Hv & Hfit & _ & Hen). destruct (nack_value_cases _ Hfit) as [E|(x & -> & Hx)]; [contradiction|].
  change lp_depth with 4%nat in Hen. rewrite (enc_nack _ x Hx) in Hen.
  cbn [option_map]. assert (e_payload e = nack_payload x) as -> by (apply (tlv_inj attr_nack); congruence).
  inversion Hx as [|fx n w Hw Hb| | | | | |]; subst; [reflexivity|].
  cbn [fixed_width] in Hw. injection Hw as <-. unfold nack_payload.
  rewrite strict_split_tlv; [|reflexivity|apply nni_enc_len_small].
  cbn [e_type e_payload]. change (attr_nack_reason =? T_NACK_REASON) with true. cbn iota.
  rewrite (nni_of_enc n Hb). reflexivity.
Qed.

(* any front-end that keeps the token and whose [except] tuple covers the decoding errors *)
Theorem envelope_meets_spec caught vs els :
  catches_documented caught -> envelope_of vs els ->
  spec_receive LP_PACKET (lp_wire els) = spec_of_unwrapped (unwrap_with caught true LP_PACKET (lp_wire els)).
Proof.
  intros Hc He. rewrite (unwrap_lp caught true Hc), (dec_lp_envelope vs els He), no_frag_lp.
  destruct He as (HF & Hok & Hl & els0 & He & Hw).
  pose proof (header_facts lp_depth lp_fields vs els0 els wf_lp_fields eq_refl HF Hok Hl He Hw) as Hfacts.
  destruct attrs_in_descriptor as (I1 & I2 & I3 & I4 & _ & _ & _).
  assert (In (attr_fragment, KBytes false) lp_fields) as I5 by (do 12 right; left; reflexivity).
  unfold spec_receive. change (LP_PACKET =? T_LP_PACKET) with true. cbn iota.
  unfold spec_envelope, whole, lp_wire. change LP_PACKET with T_LP_PACKET.
  rewrite strict_split_tlv by (try exact Hl; reflexivity). cbn [e_type e_payload]. rewrite N.eqb_refl.
  rewrite (strict_split_ser els Hok).
  rewrite (header_has _ els T_FRAG_INDEX _ _ (Hfacts _ _ I1)), (header_has _ els T_FRAG_COUNT _ _ (Hfacts _ _ I2)).
  fold (lp_attr vs attr_frag_index) (lp_attr vs attr_frag_count).
  destruct (lp_attr vs attr_frag_index); try reflexivity.
  destruct (lp_attr vs attr_frag_count); try reflexivity.
  cbn [orb].
  rewrite (nack_header vs els (Hfacts _ _ I4)).
  rewrite (bytes_header _ els T_FRAGMENT _ (Hfacts _ _ I5)), (bytes_header _ els T_PIT_TOKEN _ (Hfacts _ _ I3)).
  unfold unwrap_vals, lp_fragment, tok_if, lp_token, lp_attr.
  destruct (field_value lp_fields vs attr_fragment) as [| | |[|b frag]| | | |]; try reflexivity.
  destruct (tl_dec (b :: frag)) as [[t n]|e]; [|reflexivity].
  destruct (nack_reason_of (lp_nack vs)); reflexivity.
Qed.

Theorem model_meets_spec vs els :
  envelope_of vs els ->
  spec_receive LP_PACKET (lp_wire els) = spec_of_unwrapped (unwrap_v2 LP_PACKET (lp_wire els)).
Proof. exact (envelope_meets_spec lp_caught_v2 vs els caught_documented_v2). Qed.
