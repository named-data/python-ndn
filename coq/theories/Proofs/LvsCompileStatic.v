(* The static errors of a schema as Spec/LvsSem.v states them on the source text ([static_ok]), against what the passes
   of compile test on the renamed rules ([rename_temp_rules 1 S]; together [compilable]). *)
From NDN Require Import Proofs.ListLemmas Base.Prelude Base.Text Model.LvsAst Model.LvsChecker Model.LvsCompiler
  Spec.LvsSem Proofs.LvsSortRules Proofs.LvsNumbering Proofs.LvsTraverse Proofs.LvsTopOrder.
Local Open Scope N_scope.

Definition same_body (d d' : rule) : Prop := r_name d' = r_name d /\ r_cons d' = r_cons d /\ r_sign d' = r_sign d.

Definition renamed (d d' : rule) : Prop :=
  same_body d d' /\
  if is_temp_rule (r_id d) then exists k, r_id d' = r_id d ++ ch_hash :: dec_print k else r_id d' = r_id d.

Lemma labelled_renamed S lbl d : In (lbl, d) (labelled 1 S) -> renamed d (set_rule_id d lbl).
Proof. intros H. split; [repeat split | exact (labelled_label S 1 lbl d H)]. Qed.

Lemma rename_fwd S d : In d S -> exists d', In d' (rename_temp_rules 1 S) /\ renamed d d'.
Proof.
  intros Hd. destruct (labelled_cover S 1 d Hd) as (lbl & Hl). exists (set_rule_id d lbl).
  split; [exact (labelled_in_renamed S lbl d Hl) | exact (labelled_renamed S lbl d Hl)].
Qed.

Lemma rename_bwd S d' : In d' (rename_temp_rules 1 S) -> exists d, In d S /\ renamed d d'.
Proof.
  intros H. apply in_renamed in H. destruct H as (lbl & d & Hl & ->). exists d.
  split; [exact (labelled_snd S 1 _ Hl) | exact (labelled_renamed S lbl d Hl)].
Qed.

Lemma renamed_temp d d' : renamed d d' -> is_temp_rule (r_id d') = is_temp_rule (r_id d) /\ (is_temp_rule (r_id d) = false -> r_id d' = r_id d).
Proof.
  intros [_ H]. destruct (is_temp_rule (r_id d)) eqn:Et; [|rewrite H; auto].
  destruct H as (k & ->). split; [apply is_temp_rule_app, Et | discriminate].
Qed.

Lemma renamed_refs d d' : renamed d d' -> refs_of d' = rule_refs d.
Proof. intros ((Hname & _) & _). unfold refs_of, rule_refs. rewrite Hname. reflexivity. Qed.

Lemma refs_of_rule_refs d : refs_of d = rule_refs d.
Proof. reflexivity. Qed.

Lemma defined_spec S c : defined S c = true <-> is_temp_rule c = false /\ exists d, In d S /\ r_id d = c.
Proof.
  unfold defined. rewrite andb_true_iff, negb_true_iff, existsb_exists. split.
  - intros [H1 (d & Hd & E)]. apply ident_eqb_eq in E. eauto.
  - intros [H1 (d & Hd & E)]. split; [exact H1|]. exists d. split; [exact Hd | apply ident_eqb_eq; exact E].
Qed.

Lemma ref_ok_defined S c : ref_ok (rule_ids S) c <-> defined S c = true.
Proof.
  unfold ref_ok. rewrite defined_spec, rule_ids_in. split.
  - intros [(d' & Hd' & E) Ht]. split; [exact Ht|]. destruct (rename_bwd _ _ Hd') as (d & Hd & Hren).
    destruct (renamed_temp _ _ Hren) as [Htm Hn]. exists d. split; [exact Hd|]. rewrite <- Hn; [exact E | congruence].
  - intros [Ht (d & Hd & E)]. split; [|exact Ht]. destruct (rename_fwd _ _ Hd) as (d' & Hd' & Hren).
    exists d'. split; [exact Hd'|]. rewrite (proj2 (renamed_temp _ _ Hren)); [exact E | congruence].
Qed.

Definition src_edge (S : lvsfile) (x y : ident) : Prop :=
  exists d, In d S /\ r_id d = x /\ is_temp_rule x = false /\ In y (rule_refs d).

Fixpoint src_walk (S : lvsfile) (a x : ident) (l : list ident) : Prop :=
  match l with
  | [] => src_edge S x a
  | y :: l' => src_edge S x y /\ src_walk S a y l'
  end.

Lemma src_edge_ref S x y : src_edge S x y -> ref_edge S x y.
Proof.
  intros (d & Hd & Hx & Ht & Hy). destruct (rename_fwd _ _ Hd) as (d' & Hd' & Hren).
  exists d'. split; [exact Hd'|]. split; [rewrite (proj2 (renamed_temp _ _ Hren)); congruence|]. rewrite (renamed_refs _ _ Hren). exact Hy.
Qed.

Lemma src_walk_ref S a : forall l x, src_walk S a x l -> ref_walk S a x l.
Proof.
  induction l as [|y l IH]; intros x H; cbn in *; [apply src_edge_ref, H|].
  destruct H as [H1 H2]. split; [apply src_edge_ref, H1 | apply IH, H2].
Qed.

Lemma imem_in p l : imem p l = true <-> In p l.
Proof. unfold imem. apply existsb_ident. Qed.

Lemma name_pats_in d p : In p (name_pats d) <-> In (CPat p) (r_name d).
Proof.
  unfold name_pats. rewrite in_flat_map. split.
  - intros (c & Hc & Hp). destruct c as [v|q|r]; [destruct Hp | | destruct Hp]. destruct Hp as [<-|[]]. exact Hc.
  - intros H. exists (CPat p). split; [exact H | left; reflexivity].
Qed.

Lemma named_pats_of_in S p : In p (named_pats_of S) <-> exists d, In d S /\ In (CPat p) (r_name d) /\ is_temp_pat p = false.
Proof.
  unfold named_pats_of. rewrite filter_In, in_flat_map, negb_true_iff. setoid_rewrite name_pats_in.
  split; [intros [(d & Hd & Hp) Ht] | intros (d & Hd & Hp & Ht)]; eauto.
Qed.

Definition bodies_of (S : lvsfile) (rules : list rule) : Prop :=
  (forall d, In d S -> exists d', In d' rules /\ same_body d d') /\ (forall d', In d' rules -> exists d, In d S /\ same_body d d').

Lemma src_named_bodies S rules p : bodies_of S rules -> (src_named rules p <-> In p (named_pats_of S)).
Proof.
  intros [Hf Hb]. rewrite named_pats_of_in. unfold src_named. split.
  - intros (r & Hr & Hp & Ht). destruct (Hb r Hr) as (d & Hd & (Hn & _)). exists d. rewrite <- Hn. auto.
  - intros (d & Hd & Hp & Ht). destruct (Hf d Hd) as (r & Hr & (Hn & _)). exists r. rewrite Hn. auto.
Qed.

Lemma cons_ok_src S rules d d' tc : bodies_of S rules -> same_body d d' ->
  (LvsSem.cons_ok S d tc = true <-> src_cons_ok rules d' tc).
Proof.
  intros Hb (Hn & _). unfold LvsSem.cons_ok, src_cons_ok. rewrite andb_true_iff, forallb_forall.
  pose proof (fun p => src_named_bodies S rules p Hb) as Hs.
  setoid_rewrite andb_true_iff. setoid_rewrite negb_true_iff. setoid_rewrite imem_in. setoid_rewrite <- Hs.
  destruct (is_temp_pat (tc_pat tc)); rewrite imem_in, ?name_pats_in, ?Hn, <- ?Hs; reflexivity.
Qed.

Lemma renamed_bodies S : bodies_of S (rename_temp_rules 1 S).
Proof.
  split; [intros d Hd; destruct (rename_fwd S d Hd) as (d' & H1 & H2 & _) | intros d' Hd'; destruct (rename_bwd S d' Hd') as (d & H1 & H2 & _)]; eauto.
Qed.

Definition cons_resolvable (S : lvsfile) : Prop := all_cons_ok (rename_temp_rules 1 S).

Definition signers_known (S : lvsfile) : Prop :=
  forall r k, In r (rename_temp_rules 1 S) -> In k (r_sign r) -> exists r', In r' (rename_temp_rules 1 S) /\ r_id r' = k.

(* what compile tests, pass by pass: _sort_rule_references the first two, _gen_pattern_numbers the third,
   _fix_signing_references the last; nothing else can fail (LvsCompileAccepts.compile_cases) *)
Record compilable (S : lvsfile) : Prop := {
  cp_refs : refs_closed S; cp_acyclic : ref_acyclic S; cp_cons : cons_resolvable S; cp_sign : signers_known S }.

(* field by field: what a pass tests on the renamed rules is a clause of [static_ok] on the text *)
Lemma refs_closed_iff S : refs_closed S <-> forall d c, In d S -> In c (rule_refs d) -> defined S c = true.
Proof.
  split.
  - intros Hcl d c Hd Hc. destruct (rename_fwd _ _ Hd) as (d' & Hd' & Hren).
    apply ref_ok_defined, (Hcl d' c Hd'). rewrite (renamed_refs _ _ Hren). exact Hc.
  - intros Hrefs r c Hr Hc. destruct (rename_bwd _ _ Hr) as (d & Hd & Hren).
    apply ref_ok_defined, (Hrefs d c Hd). rewrite <- (renamed_refs _ _ Hren). exact Hc.
Qed.

Lemma cons_resolvable_iff S :
  cons_resolvable S <-> forall d cs tc, In d S -> In cs (r_cons d) -> In tc cs -> LvsSem.cons_ok S d tc = true.
Proof.
  split.
  - intros Hcons d cs tc Hd Hcs Htc. destruct (rename_fwd _ _ Hd) as (d' & Hd' & Hsame & _). pose proof Hsame as (_ & Hc' & _).
    rewrite <- Hc' in Hcs. exact (proj2 (cons_ok_src S _ d d' tc (renamed_bodies S) Hsame) (Hcons d' cs tc Hd' Hcs Htc)).
  - intros Hcons r cs tc Hr Hcs Htc. destruct (rename_bwd _ _ Hr) as (d & Hd & Hsame & _). pose proof Hsame as (_ & Hc1 & _).
    apply (cons_ok_src S _ d r tc (renamed_bodies S) Hsame), (Hcons d cs tc Hd); [rewrite <- Hc1; exact Hcs | exact Htc].
Qed.

Lemma defined_signers_known S : (forall d k, In d S -> In k (r_sign d) -> defined S k = true) -> signers_known S.
Proof.
  intros Hsigners r k Hr Hk. destruct (rename_bwd _ _ Hr) as (d & Hd & (_ & _ & Hsd) & _). rewrite Hsd in Hk.
  destruct (proj2 (ref_ok_defined S k) (Hsigners d k Hd Hk)) as [Hkids _]. apply rule_ids_in, Hkids.
Qed.

(* the converse holds up to the labels: the rule a signer names is a rule of the text, renamed or not *)
Lemma known_signer S : signers_known S -> forall d k, In d S -> In k (r_sign d) ->
  defined S k = true \/ exists r n, is_temp_rule r = true /\ k = r ++ ch_hash :: dec_print n.
Proof.
  intros Hsg d k Hd Hk. destruct (rename_fwd _ _ Hd) as (rd & Hrd & ((_ & _ & Hsd) & _)). rewrite <- Hsd in Hk.
  destruct (Hsg rd k Hrd Hk) as (rk & Hrk & Ek).
  destruct (rename_bwd _ _ Hrk) as (d0 & Hd0 & _ & Hid0). rewrite Ek in Hid0. destruct (is_temp_rule (r_id d0)) eqn:Ht0.
  - right. destruct Hid0 as (n & ->). eauto.
  - left. apply defined_spec. rewrite Hid0. eauto.
Qed.

Lemma static_ok_iff S : static_ok S = true <->
  (forall d c, In d S -> In c (rule_refs d) -> defined S c = true) /\
  (forall d, In d S -> ref_depth_ok (Datatypes.S (length S)) S (r_id d) = true) /\
  (forall d cs tc, In d S -> In cs (r_cons d) -> In tc cs -> LvsSem.cons_ok S d tc = true) /\
  (forall d k, In d S -> In k (r_sign d) -> defined S k = true).
Proof.
  unfold static_ok. split.
  - intros H. apply andb_prop in H. destruct H as [H H4]. apply andb_prop in H. destruct H as [H H3].
    apply andb_prop in H. destruct H as [H1 H2]. split; [|split; [|split]].
    + intros d c Hd Hc. exact (forallb_in _ _ c (forallb_in _ _ d H1 Hd) Hc).
    + intros d Hd. exact (forallb_in _ _ d H2 Hd).
    + intros d cs tc Hd Hcs Htc. exact (forallb_in _ _ tc (forallb_in _ _ cs (forallb_in _ _ d H3 Hd) Hcs) Htc).
    + intros d k Hd Hk. exact (forallb_in _ _ k (forallb_in _ _ d H4 Hd) Hk).
  - intros (H1 & H2 & H3 & H4). repeat (apply andb_true_intro; split); apply forallb_forall; intros d Hd.
    + apply forallb_forall. intros c Hc. exact (H1 d c Hd Hc).
    + exact (H2 d Hd).
    + apply forallb_forall. intros cs Hcs. apply forallb_forall. intros tc Htc. exact (H3 d cs tc Hd Hcs Htc).
    + apply forallb_forall. intros k Hk. exact (H4 d k Hd Hk).
Qed.

Section Least.
  Variable P : nat -> bool.

  Fixpoint least_upto (n : nat) : nat :=
    match n with O => O | Datatypes.S n' => if P n' then least_upto n' else n end.

  Lemma least_upto_le n : (least_upto n <= n)%nat.
  Proof. induction n as [|n IH]; cbn; [lia|]. destruct (P n); lia. Qed.

  Lemma least_upto_ok n : (least_upto n < n)%nat -> P (least_upto n) = true.
  Proof.
    induction n as [|n IH]; cbn; [lia|]. destruct (P n) eqn:E; [|lia].
    intros _. destruct (Nat.eq_dec (least_upto n) n) as [->|Hne]; [exact E|]. apply IH. pose proof (least_upto_le n). lia.
  Qed.

  Hypothesis Pmono : forall k, P k = true -> P (Datatypes.S k) = true.

  Lemma least_upto_min n k : P k = true -> (k < n)%nat -> (least_upto n <= k)%nat.
  Proof.
    induction n as [|n IH]; intros Hk Hlt; [lia|]. cbn.
    destruct (Nat.eq_dec k n) as [->|Hne].
    - rewrite Hk. pose proof (least_upto_le n). lia.
    - assert (Hm : forall j, (k <= j)%nat -> P j = true) by (intros j Hj; induction Hj; [exact Hk | apply Pmono; assumption]).
      rewrite (Hm n) by lia. apply IH; [exact Hk | lia].
  Qed.
End Least.

Section Rank.
  Variable S : lvsfile.

  Lemma ref_depth_ok_S k x : ref_depth_ok (Datatypes.S k) S x = true <->
    forall d c, In d S -> r_id d = x -> In c (rule_refs d) -> ref_depth_ok k S c = true.
  Proof.
    cbn [ref_depth_ok]. rewrite forallb_forall. split.
    - intros H d c Hd Hid Hc. specialize (H d). rewrite filter_In, ident_eqb_eq, forallb_forall in H. auto.
    - intros H d Hd. apply filter_In in Hd. destruct Hd as [Hd Hid]. apply ident_eqb_eq in Hid. apply forallb_forall. eauto.
  Qed.

  Lemma ref_depth_ok_mono x k : ref_depth_ok k S x = true -> ref_depth_ok (Datatypes.S k) S x = true.
  Proof.
    revert x; induction k as [|k IH]; intros x H; [discriminate|].
    apply ref_depth_ok_S. intros d c Hd Hid Hc. apply IH. exact (proj1 (ref_depth_ok_S k x) H d c Hd Hid Hc).
  Qed.

  Definition ref_depth (x : ident) : nat := least_upto (fun k => ref_depth_ok k S x) (Datatypes.S (Datatypes.S (length S))).

  Lemma ref_depth_le x k : ref_depth_ok k S x = true -> (k <= Datatypes.S (length S))%nat -> (ref_depth x <= k)%nat.
  Proof. intros Hk Hle. apply (least_upto_min _ (ref_depth_ok_mono x)); [exact Hk | lia]. Qed.

  Lemma ref_depth_reached x : ref_depth_ok (Datatypes.S (length S)) S x = true -> ref_depth_ok (ref_depth x) S x = true.
  Proof. intros H. apply (least_upto_ok (fun k => ref_depth_ok k S x)). pose proof (ref_depth_le x _ H (Nat.le_refl _)). fold (ref_depth x). lia. Qed.

  (* temporary rules are referred to by nothing: they go above every ordinary rule, whose depth is at most 2 + |S| *)
  Definition ref_rank (x : ident) : nat := if is_temp_rule x then Datatypes.S (Datatypes.S (Datatypes.S (length S))) else ref_depth x.

  Hypothesis Hstatic : static_ok S = true.

  (* a reference of an ordinary rule a to b: b's references bottom out one step before a's *)
  Lemma ref_rank_edge a b : ref_edge S a b -> (ref_rank b < ref_rank a)%nat.
  Proof.
    destruct (proj1 (static_ok_iff S) Hstatic) as (Hrefs & Hdepth & _ & _).
    intros (r & Hr & Ha & Hb). destruct (rename_bwd _ _ Hr) as (d & Hd & Hren).
    destruct (renamed_temp _ _ Hren) as [Htm Hn].
    assert (Hbd : In b (rule_refs d)) by (rewrite <- (renamed_refs _ _ Hren); exact Hb).
    pose proof (Hrefs d b Hd Hbd) as Hdef. apply defined_spec in Hdef. destruct Hdef as [Htb (db & Hdb & Eb)].
    pose proof (Hdepth db Hdb) as Hbok. rewrite Eb in Hbok. pose proof (ref_depth_le b _ Hbok (Nat.le_refl _)) as Hlb.
    unfold ref_rank. rewrite Htb. destruct (is_temp_rule a) eqn:Eta; [lia|].
    assert (Had : r_id d = a) by (rewrite <- Hn; [exact Ha | congruence]).
    pose proof (Hdepth d Hd) as Haok. rewrite Had in Haok.
    pose proof (ref_depth_reached a Haok) as Hok. pose proof (ref_depth_le a _ Haok (Nat.le_refl _)) as Hla.
    destruct (ref_depth a) as [|j]; [discriminate|].
    pose proof (ref_depth_le b j (proj1 (ref_depth_ok_S j a) Hok d b Hd Had Hbd)). lia.
  Qed.
End Rank.

Lemma static_compilable S : static_ok S = true -> compilable S.
Proof.
  intros Hstatic. destruct (proj1 (static_ok_iff S) Hstatic) as (Hrefs & _ & Hcons & Hsigners). constructor.
  - exact (proj2 (refs_closed_iff S) Hrefs).
  - exists (ref_rank S). exact (ref_rank_edge S Hstatic).
  - exact (proj2 (cons_resolvable_iff S) Hcons).
  - exact (defined_signers_known S Hsigners).
Qed.

Section Depth.
  Variable S : lvsfile.
  Variable sorted : list rule.
  Variable order : list ident.
  Hypothesis Hso : sorted_ok S sorted order.

  Lemma ref_before lbl d c : In (lbl, d) (labelled 1 S) -> In c (rule_refs d) ->
    is_temp_rule c = false /\ (pos ident_eqb c order < pos ident_eqb lbl order)%nat.
  Proof.
    intros Hl Hc. pose proof (labelled_in_renamed S lbl d Hl) as Hd'.
    destruct (so_closed _ _ _ Hso (set_rule_id d lbl) c Hd' Hc) as [_ Ht]. split; [exact Ht|].
    apply (so_rank _ _ _ Hso). exists (set_rule_id d lbl). auto.
  Qed.

  Lemma pos_depth_ok : forall n x, is_temp_rule x = false -> (pos ident_eqb x order < n)%nat -> ref_depth_ok n S x = true.
  Proof.
    induction n as [|n IH]; intros x Hx Hidx; [lia|]. apply ref_depth_ok_S. intros d c Hd Hid Hc. subst x.
    destruct (ref_before _ d c (labelled_plain_in S 1 d Hd Hx) Hc) as (Hct & Hlt). apply IH; [exact Hct | lia].
  Qed.

  Lemma all_depth_ok x : ref_depth_ok (Datatypes.S (length S)) S x = true.
  Proof.
    apply ref_depth_ok_S. intros d2 c Hd2 _ Hc. destruct (labelled_cover S 1 d2 Hd2) as (lbl & Hl).
    destruct (ref_before lbl d2 c Hl Hc) as (Hct & Hlt). pose proof (order_len S sorted order Hso). pose proof (pos_le ident_eqb lbl order).
    apply pos_depth_ok; [exact Hct | lia].
  Qed.
End Depth.

(* a ranking alone puts no bound on the depth of references; the order of the sort, which exists once the references
   are closed and ranked, does *)
Lemma ranked_depth_ok S : refs_closed S -> ref_acyclic S -> forall x, ref_depth_ok (Datatypes.S (length S)) S x = true.
Proof.
  intros Hcl Hac x. destruct (proj2 (proj1 (verdict_ok_iff _ _ _ _ (sort_cases S))) (conj Hcl Hac)) as ([sorted order] & Es).
  exact (all_depth_ok S sorted order (sort_ok S _ _ Es) x).
Qed.
