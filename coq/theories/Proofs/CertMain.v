(* C16, headline statements in terms of the inputs of new_cert / self_sign / sign_req / derive_cert; the values
   issued pass the check of Spec/CertSpec.v ([cert_fields_ok]). *)
From NDN Require Import Base.Prelude Model.TlvVar Model.Name Model.Tlv Model.Packet Model.PacketEnc Model.Cert
  Spec.TlvWf Spec.SignedPortion Spec.CertSpec Generated.Schemas Generated.ConstsCert Proofs.BytesLemmas
  Proofs.TlvSplit Proofs.TlvRoundtrip Proofs.TlvRoundtrip2 Proofs.TlvAssign Proofs.SignerSizes Proofs.CertProofs
  Proofs.CertStrict Proofs.CertTime.
Local Open Scope N_scope.

Record legal (a : cert_in) (kn : list bytes) : Prop := {
  l_name : name_normalize (c_key_name a) = Ok kn;
  l_comps : Forall wf_comp64 kn;
  l_issuer : wf_comp64 (c_issuer a);
  l_info : fits (KModel ndn_format_0_3_SignatureInfo true) (VModel (written_of a));  (* the signer wrote a legal SignatureInfo *)
  l_start : valid_bdt (a_fields (c_start a)) = true;
  l_end : valid_bdt (a_fields (c_end a)) = true }.

Definition issued_values (a : cert_in) (kn : list bytes) (n : N) (t0 t1 : bdt) (sv : option bytes) : list value :=
  cert_values (kn ++ [c_issuer a; comp_enc TYPE_VERSION (nni_enc n)]) (c_pub a) (written_of a)
              (validity_text t0) (validity_text t1) sv.

Section Main.
Variable sign : bytes -> bytes.

Lemma parts_name_wf a m p kn : parts_of sign a m p -> legal a kn -> Forall wf_comp64 (p_name p).
Proof.
  intros Hp L. exact (cert_name_wf a _ kn (parts_name sign Hp) (l_name a kn L) (l_comps a kn L) (l_issuer a kn L)).
Qed.

(* C16_fields: for every signer (every signature length up to the reserved size) and every key-bits length,
   decoding the issued certificate returns name = key name / issuer / version, MetaInfo KEY, the key bits,
   the signer's SignatureInfo with the validity period written from the UTC fields of the requested instants,
   and the signature the signer wrote *)
Theorem new_cert_fields a m kn :
  new_cert sign a = Ok m -> legal a kn -> N.of_nat (length (m_wire m)) < two64 ->
  exists n t0 t1 sv,
    c_now a = Z.of_N n /\ m_final_name m = kn ++ [c_issuer a; comp_enc TYPE_VERSION (nni_enc n)] /\
    to_utc (c_start a) = Ok t0 /\ to_utc (c_end a) = Ok t1 /\
    bdt_to_secs t0 = instant_of (c_start a) /\ bdt_to_secs t1 = instant_of (c_end a) /\
    valid_bdt t0 = true /\ valid_bdt t1 = true /\
    (match c_signer a with Some _ => sv = Some (sign (m_sig_covered m)) | None => sv = None end) /\
    (1000 <= t_year t0 -> 1000 <= t_year t1 ->
     dec_cert (m_wire m) = Ok (issued_values a kn n t0 t1 sv) /\ strict_cert (m_wire m) = Ok (issued_values a kn n t0 t1 sv)).
Proof.
  intros H L Hl. destruct (new_cert_parts sign a m H) as (p & Hp & _).
  destruct (cert_name_shape a _ (parts_name sign Hp)) as (kn' & n & Ek & Hn & _ & Hname).
  rewrite (l_name a kn L) in Ek. apply Ok_inj in Ek. subst kn'.
  destruct (to_utc_sound _ _ (l_start a kn L) (parts_start sign Hp)) as [I0 V0].
  destruct (to_utc_sound _ _ (l_end a kn L) (parts_end sign Hp)) as [I1 V1].
  exists n, (p_t0 p), (p_t1 p), (p_sv p).
  split; [exact Hn|]. split; [rewrite (parts_final_name sign Hp); exact Hname|].
  split; [exact (parts_start sign Hp)|]. split; [exact (parts_end sign Hp)|].
  split; [exact I0|]. split; [exact I1|]. split; [exact V0|]. split; [exact V1|]. split; [exact (parts_sv sign Hp)|].
  intros Y0 Y1. unfold issued_values. rewrite <- Hname.
  (* from year 1000 on, what strftime wrote is the 15-octet text *)
  destruct (strftime_validity _ (valid_in_range _ V0 Y0)) as [S0 _], (strftime_validity _ (valid_in_range _ V1 Y1)) as [_ S1].
  rewrite (parts_not_before sign Hp) in S0. rewrite (parts_not_after sign Hp) in S1. apply Ok_inj in S0, S1.
  rewrite <- S0, <- S1. pose proof (parts_name_wf a m p kn Hp L) as Hw. split.
  - exact (new_cert_roundtrip sign a m p Hp Hl Hw (l_info a kn L)).
  - exact (new_cert_strict sign a m p Hp Hl Hw (l_info a kn L)).
Qed.

(* C16_wellformed: one Data element -- shortest-form Type and Length, Length exact -- whose value is a sequence of
   well-formed elements (the encoding of the five fields; the unused signature octets are gone) *)
Theorem new_cert_wellformed a m kn :
  new_cert sign a = Ok m -> legal a kn -> N.of_nat (length (m_wire m)) < two64 ->
  exists body els, m_wire m = tlv TYPE_DATA body /\ body = ser_els els /\ Forall el_ok els /\ split_wire body = Ok els /\
                   N.of_nat (length (m_wire m)) = N.of_nat (tl_size TYPE_DATA + tl_size (N.of_nat (length body)) + length body).
Proof.
  intros H L Hl. destruct (new_cert_parts sign a m H) as (p & Hp & _).
  destruct (new_cert_body sign a m p Hp) as [Ew Eb]. pose proof (parts_name_wf a m p kn Hp L) as Hn.
  rewrite Ew in Hl.
  destruct (encode_wellformed _ _ _ _ (wf_fieldsb_spec _ wf_security_v2_CertificateV2Value)
              (cert_fits _ (c_pub a) _ (p_nb p) (p_na p) (p_sv p) Hn (l_info a kn L)) Eb (tlv_len_bound _ _ Hl)) as (els & E1 & E2 & E3).
  exists (m_sig_covered m ++ p_sigel p), els. rewrite Ew, tlv_length. repeat split; assumption.
Qed.

(* C16_signed_portion: the signer is handed exactly Name .. SignatureInfo of the certificate that is returned;
   whatever the inputs, as long as new_cert returns *)
Theorem new_cert_signs a m s :
  new_cert sign a = Ok m -> c_signer a = Some s -> N.of_nat (length (m_wire m)) < two64 ->
  exists body, m_wire m = tlv TYPE_DATA body /\ signed_portion_data body = Some (m_sig_covered m).
Proof.
  intros H Es Hl. destruct (new_cert_parts sign a m H) as (p & Hp & _).
  eexists. split; [exact (parts_wire sign Hp)|exact (new_cert_signed_portion sign a m p s Hp Es Hl)].
Qed.

Theorem new_cert_signed a m kn s :
  new_cert sign a = Ok m -> legal a kn -> c_signer a = Some s -> N.of_nat (length (m_wire m)) < two64 ->
  exists body, m_wire m = tlv TYPE_DATA body /\ signed_portion_data body = Some (m_sig_covered m).
Proof. intros H _. exact (new_cert_signs a m s H). Qed.

Theorem new_cert_sig_length a m s :
  new_cert sign a = Ok m -> c_signer a = Some s ->
  N.of_nat (length (sign (m_sig_covered m))) <= sg_reserved s /\
  (253 <= sg_reserved s -> N.of_nat (length (sign (m_sig_covered m))) = sg_reserved s).
Proof.
  intros H Es. destruct (new_cert_parts sign a m H) as (p & _ & Hc). exact (proj1 (check_sig_len_ok _ _) (Hc s Es)).
Qed.

(* "the signature verifies under the issuing key": a verifier reads the signed portion and the SignatureValue off the
   certificate; for any verification function that accepts what the signer produces for a message, it accepts *)
Theorem new_cert_verifies (verify : bytes -> bytes -> bool) a m kn s :
  (forall msg, verify msg (sign msg) = true) ->
  new_cert sign a = Ok m -> legal a kn -> c_signer a = Some s -> N.of_nat (length (m_wire m)) < two64 ->
  exists body vs msg sigv,
    m_wire m = tlv TYPE_DATA body /\ strict_cert (m_wire m) = Ok vs /\
    signed_portion_data body = Some msg /\ signature_of vs = VBytes sigv /\ verify msg sigv = true.
Proof.
  intros Hv H L Es Hl. destruct (new_cert_parts sign a m H) as (p & Hp & _).
  pose proof (parts_sv sign Hp) as Hsv. rewrite Es in Hsv.
  eexists. eexists. exists (m_sig_covered m), (sign (m_sig_covered m)).
  split; [exact (parts_wire sign Hp)|].
  split; [exact (new_cert_strict sign a m p Hp Hl (parts_name_wf a m p kn Hp L) (l_info a kn L))|].
  split; [exact (new_cert_signed_portion sign a m p s Hp Es Hl)|].
  split; [rewrite Hsv; reflexivity|apply Hv].
Qed.

Theorem derive_cert_spec key_name iss pub sg ts start e m :
  derive_cert sign key_name iss pub sg ts start e = Ok m ->
  exists ic a,
    issuer_comp iss = Ok ic /\ new_cert sign a = Ok m /\
    c_key_name a = key_name /\ c_issuer a = ic /\ c_now a = ts /\ c_pub a = pub /\ c_signer a = sg /\ c_start a = start /\
    instant_of (c_end a) = (instant_of start + e)%Z /\ valid_bdt (a_fields (c_end a)) = true.
Proof.
  unfold derive_cert. intros H.
  apply bind_ok in H as (endf & Ea & H). apply bind_ok in H as (ic & Ei & H).
  destruct (add_seconds_sound _ _ _ Ea) as [Hs Hv].
  eexists. eexists. split; [exact Ei|]. split; [exact H|].
  do 6 (split; [reflexivity|]). split; [|exact Hv].
  unfold instant_of. cbn [c_end a_fields a_offset]. rewrite Hs. lia.
Qed.

Theorem self_sign_spec key_name pub sg ts now m :
  valid_bdt now = true ->
  self_sign sign key_name pub sg ts now = Ok m ->
  exists e a,
    new_cert sign a = Ok m /\
    c_key_name a = key_name /\ c_issuer a = SELF_COMPONENT /\ c_now a = ts /\ c_pub a = pub /\ c_signer a = sg /\
    instant_of (c_start a) = 0%Z /\ valid_bdt (a_fields (c_start a)) = true /\
    c_end a = utc e /\ valid_bdt e = true /\
    t_year e = t_year now + 20 /\ t_mon e = t_mon now /\ t_day e = t_day now /\ t_hour e = t_hour now /\
    t_min e = t_min now /\ t_sec e = t_sec now.
Proof.
  unfold self_sign. intros Hv H.
  apply bind_ok in H as (e & Er & H).
  exists e. eexists. split; [exact H|].
  do 8 (split; [reflexivity|]). exact (replace_year_valid _ _ _ Hv Er).
Qed.

Theorem sign_req_spec key_name pub sg ts now1 now2 m :
  sign_req sign key_name pub sg ts now1 now2 = Ok m ->
  exists a,
    new_cert sign a = Ok m /\
    c_key_name a = key_name /\ c_issuer a = SIGN_REQ_COMPONENT /\ c_now a = ts /\ c_pub a = pub /\ c_signer a = sg /\
    c_start a = utc now2 /\
    instant_of (c_end a) = (bdt_to_secs now1 + 864000)%Z /\ valid_bdt (a_fields (c_end a)) = true.
Proof.
  unfold sign_req. intros H.
  apply bind_ok in H as (e & Ea & H).
  destruct (add_seconds_sound _ _ _ Ea) as [Hs Hv].
  eexists. split; [exact H|].
  do 6 (split; [reflexivity|]). split; [|exact Hv].
  unfold instant_of, utc. cbn [c_end a_fields a_offset]. rewrite Hs. change (Z.of_N sign_req_seconds) with 864000%Z. lia.
Qed.

(* observation (not a clause of the property): on 29 February of a year y with y+20 not a leap year the clock reading
   cannot be moved 20 years ahead and self_sign raises ValueError before anything is issued *)
Example self_sign_leap_day_raises :
  self_sign sign (NSStr [47; 97]) [] None 0%Z {| t_year := 2080; t_mon := 2; t_day := 29; t_hour := 0; t_min := 0; t_sec := 0 |}
  = Err EValue.
Proof. reflexivity. Qed.

End Main.

Definition request_of (a : cert_in) (kn : list bytes) : issue_req :=
  {| q_key_name := kn; q_issuer := c_issuer a; q_pub := c_pub a;
     q_not_before := instant_of (c_start a); q_not_after := instant_of (c_end a);
     q_sig_type := nth 0 (written_of a) VNone; q_key_locator := nth 1 (written_of a) VNone |}.

Lemma name_shape_issued kn i v : is_version v = true -> name_shape_ok kn i (kn ++ [i; v]) = true.
Proof.
  intros Hv. unfold name_shape_ok. rewrite skipn_app_exact, firstn_app_exact.
  rewrite name_eqb_refl, bytes_eqb_refl, Hv. reflexivity.
Qed.

(* SignatureType numbers and key locators that carry a name (what the shipped signers write) *)
Definition flat (v : value) : Prop := flat_eqb v v = true.

Theorem issued_values_meet_spec a kn n t0 t1 sv st kl x y z :
  written_of a = [st; kl; x; y; z] -> flat st -> flat kl ->
  valid_bdt t0 = true -> valid_bdt t1 = true -> 1000 <= t_year t0 -> 1000 <= t_year t1 ->
  bdt_to_secs t0 = instant_of (c_start a) -> bdt_to_secs t1 = instant_of (c_end a) ->
  cert_fields_ok (request_of a kn) (issued_values a kn n t0 t1 sv) = true /\
  signature_of (issued_values a kn n t0 t1 sv) = vbytes sv.
Proof.
  intros Hw Fs Fk V0 V1 Y0 Y1 I0 I1. split; [|reflexivity].
  unfold cert_fields_ok, issued_values, cert_values, request_of. rewrite Hw.
  cbn [q_key_name q_issuer q_pub q_not_before q_not_after q_sig_type q_key_locator nth].
  change (inner ndn_format_0_3_MetaInfo cert_meta 24) with (VUint 2). unfold cert_siginfo.
  cbn [field_value inner app security_v2_CertificateV2Value security_v2_CertificateV2SignatureInfo
       security_v2_ValidityPeriod N.eqb Pos.eqb].
  rewrite name_shape_issued by apply is_version_enc. rewrite bytes_eqb_refl.
  rewrite !validity_instant_text by assumption. rewrite I0, I1. unfold opt_z_eqb. rewrite !Z.eqb_refl.
  rewrite Fs, Fk. reflexivity.
Qed.
