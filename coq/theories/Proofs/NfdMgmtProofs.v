(* C17, codec part: the command name carries parameters that decode to exactly what was given (instance of
   the C08 round trip on the regenerated ControlParameters descriptor), the shape of the v1 command tail,
   decode(encode(response)), the error classes of parse_response, and the same round trip for every descriptor
   of [nfd_models]. *)
From NDN Require Import Base.Prelude Base.PyPrim Base.Text Model.TlvVar Model.Name Model.Tlv Spec.TlvWf.
From NDN Require Import Proofs.BytesLemmas Proofs.NameWire Proofs.TlvSplit Proofs.TlvRoundtrip2
  Proofs.TlvAssign Proofs.PacketTotal.
From NDN Require Import Model.NfdMgmt Model.Registerer.
From NDN Require Generated.Schemas.
Local Open Scope N_scope.

Lemma wf_CP : wf_fields CP.
Proof. apply wf_fieldsb_spec, Generated.Schemas.wf_nfd_mgmt_ControlParameters. Qed.
Lemma wf_CR : wf_fields CR.
Proof. apply wf_fieldsb_spec, Generated.Schemas.wf_nfd_mgmt_ControlResponse. Qed.
Lemma wf_CPV : wf_fields CPV.
Proof. apply wf_fieldsb_spec, Generated.Schemas.wf_nfd_mgmt_ControlParametersValue. Qed.

(* layout facts the statements below rely on, re-checked against the regenerated descriptors *)
Lemma CP_layout : CP = [(104, KModel CPV false)].
Proof. reflexivity. Qed.
Lemma CR_layout : exists tc tt, CR = [(tc, KUint None); (tt, KBytes true); (104, KModel CPV false)].
Proof. do 2 eexists. reflexivity. Qed.
Lemma CPV_first_is_name : exists r, CPV = (TYPE_NAME, KName) :: r.
Proof. eexists. reflexivity. Qed.

Definition c_of (s : str) : bytes := comp_enc TYPE_GENERIC s.
Lemma command_prefix_rib local verb :
  verb = s_register \/ verb = s_unregister ->
  command_prefix local s_rib verb =
    Ok [c_of (if local then [108;111;99;97;108;104;111;115;116] else [108;111;99;97;108;104;111;112]);
        c_of [110;102;100]; c_of s_rib; c_of verb].
Proof. intros [-> | ->]; destruct local; vm_compute; reflexivity. Qed.

(* the parameters component decodes to exactly the given values, for every module/command and every legal
   keyword set (register/unregister: only the prefix) *)
Theorem command_parameters_roundtrip local module command cpv nm :
  Forall2 (fun f v => fits (snd f) v) CPV cpv ->
  make_command_v2 local module command cpv = Ok nm ->
  N.of_nat (length (concat nm)) < two64 ->
  exists pre c, nm = pre ++ [c] /\ command_prefix local module command = Ok pre /\
                command_parameters nm = Ok cpv.
Proof.
  intros HF H Hlen. unfold make_command_v2 in H.
  destruct (command_prefix local module command) as [pre|] eqn:Ep; [|discriminate]. cbn [bind] in H.
  destruct (encode_model (depth_of CP) CP [VModel cpv]) as [w|] eqn:Ew; [|discriminate]. cbn [bind] in H.
  change (comp_from_bytes w (Z.of_N TYPE_GENERIC)) with (Ok (comp_enc TYPE_GENERIC w)) in H. cbn [bind] in H.
  injection H as <-.
  exists pre, (comp_enc TYPE_GENERIC w). split; [reflexivity|]. split; [reflexivity|].
  assert (Hw : N.of_nat (length w) < two64).
  { rewrite (concat_snoc_length (A := N)) in Hlen. unfold comp_enc in Hlen. rewrite !app_length in Hlen. lia. }
  unfold command_parameters. rewrite rev_app_distr. cbn [rev app].
  rewrite comp_get_value_enc; [|reflexivity|exact Hw]. cbn [bind].
  rewrite (parse_encode_roundtrip (depth_of CP) CP false [VModel cpv] w); [reflexivity|exact wf_CP| |exact Ew|exact Hw].
  rewrite CP_layout. constructor; [|constructor]. cbn [snd]. constructor. exact HF.
Qed.

(* [wf_comp] of Proofs/NameWire.v, written out *)
Definition good_comp (c : bytes) : Prop :=
  exists t v, c = comp_enc t v /\ t < two64 /\ N.of_nat (length v) < two64.

Lemma params_of_prefix_fits prefix :
  Forall good_comp prefix -> Forall2 (fun f v => fits (snd f) v) CPV (params_of_prefix prefix).
Proof.
  intros H. unfold params_of_prefix, CPV, Generated.Schemas.nfd_mgmt_ControlParametersValue.
  cbn [blank map upd]. constructor; [cbn [snd]; constructor; exact H|].
  repeat (constructor; [cbn [snd]; apply fits_none|]). constructor.
Qed.

(* C17: a register/unregister command names exactly that prefix in its control parameters *)
Theorem command_names_prefix local verb prefix nm :
  verb = s_register \/ verb = s_unregister ->
  Forall good_comp prefix ->
  make_command_v2 local s_rib verb (params_of_prefix prefix) = Ok nm ->
  N.of_nat (length (concat nm)) < two64 ->
  exists c, nm = [c_of (if local then [108;111;99;97;108;104;111;115;116] else [108;111;99;97;108;104;111;112]);
                  c_of [110;102;100]; c_of s_rib; c_of verb; c] /\
            command_parameters nm = Ok (params_of_prefix prefix).
Proof.
  intros Hv Hp H Hl.
  destruct (command_parameters_roundtrip local s_rib verb _ nm (params_of_prefix_fits prefix Hp) H Hl)
    as (pre & c & -> & Epre & Hc).
  rewrite (command_prefix_rib local verb Hv) in Epre. injection Epre as <-.
  exists c. split; [reflexivity|exact Hc].
Qed.

Lemma digest_sig_info_val : digest_sig_info = Ok [27; 1; 0].
Proof. vm_compute. reflexivity. Qed.

(* struct.pack('!Q', n) *)
Lemma struct_pack1_FQ n b : struct_pack1 FQ (Z.of_N n) = Ok b -> n < two64 /\ b = N_to_be 8 n.
Proof.
  unfold struct_pack1. cbn [sfmt_bound sfmt_width]. destruct (_ && _) eqn:E; [|discriminate].
  intros H. injection H as <-. rewrite N2Z.id. split; [unfold two64; lia|reflexivity].
Qed.

Section V1.
  Variable sha256 : bytes -> bytes.

  (* C17 (v1 command format): the command is the v2 name followed by four generic components:
     8-byte timestamp, 8-byte nonce, SignatureInfo(DigestSha256), SignatureValue = SHA-256 of all the
     preceding components *)
  Theorem make_command_shape local module command cpv ts nonce nm :
    make_command sha256 local module command cpv ts nonce = Ok nm ->
    exists base,
      make_command_v2 local module command cpv = Ok base /\
      ts < two64 /\ nonce < two64 /\
      let signed := base ++ [comp_enc TYPE_GENERIC (N_to_be 8 ts); comp_enc TYPE_GENERIC (N_to_be 8 nonce);
                             comp_enc TYPE_GENERIC [TYPE_SIGNATURE_INFO; 3; 27; 1; 0]] in
      nm = signed ++ [comp_enc TYPE_GENERIC ([TYPE_SIGNATURE_VALUE; 32] ++ sha256 (concat signed))].
  Proof.
    unfold make_command. intros H.
    apply bind_ok in H as (base & Eb & H). apply bind_ok in H as (tsb & Et & H).
    apply bind_ok in H as (nb & En & H). rewrite digest_sig_info_val in H. injection H as <-.
    apply struct_pack1_FQ in Et, En. destruct Et as [Hts ->], En as [Hn ->].
    exists base. repeat split; [exact Eb|exact Hts|exact Hn|].
    cbn zeta. now rewrite <- !app_assoc.
  Qed.

  Lemma timestamp_component_decodes ts :
    ts < two64 ->
    comp_to_number (comp_enc TYPE_GENERIC (N_to_be 8 ts)) = Ok ts.
  Proof.
    intros H. rewrite comp_to_number_enc; [|reflexivity|rewrite N_to_be_length; reflexivity].
    rewrite be_to_N_to_be_small by exact H. reflexivity.
  Qed.
End V1.

Definition params_of_body (body : value) : list value :=
  match body with VModel ps => ps | _ => blank CPV end.

(* C17: decoding a management response returns the fields that were encoded *)
Theorem response_roundtrip sc st body w :
  Forall2 (fun f v => fits (snd f) v) CR [sc; st; body] ->
  response_wire sc st body = Ok w ->
  N.of_nat (length w) < two64 ->
  parse_response (Some w) = Ok (sc, st, params_of_body body).
Proof.
  intros HF H Hl. unfold response_wire in H.
  destruct (encode_model (depth_of CR) CR [sc; st; body]) as [w0|] eqn:Ew; [|discriminate]. cbn [bind] in H.
  injection H as <-.
  assert (Hw0 : N.of_nat (length w0) < two64).
  { rewrite tlv_length in Hl. lia. }
  unfold parse_response, parse_response_gen. rewrite pact_tlv; [|reflexivity|exact Hw0]. cbn [bind].
  rewrite (parse_encode_roundtrip (depth_of CR) CR false [sc; st; body] w0 wf_CR HF Ew Hw0).
  destruct body; reflexivity.
Qed.

Corollary response_status sc st body w :
  Forall2 (fun f v => fits (snd f) v) CR [sc; st; body] ->
  response_wire sc st body = Ok w -> N.of_nat (length w) < two64 ->
  exists t ps, parse_response (Some w) = Ok (sc, t, ps).
Proof. intros A B C. do 2 eexists. exact (response_roundtrip sc st body w A B C). Qed.

Lemma documented_decode_class e : documented e = true -> decode_class e = true.
Proof. now destruct e. Qed.

(* parse_response raises nothing but what register/unregister catch *)
Lemma parse_response_errors c e : parse_response c = Err e -> decode_class e = true.
Proof.
  unfold parse_response, parse_response_gen. destruct c as [b|]; [|intros H; injection H as <-; reflexivity].
  pose proof (pact_doc b RESPONSE_TYPE) as D1.
  destruct (parse_and_check_tl b RESPONSE_TYPE) as [v|e1]; cbn [bind];
    [|intros H; injection H as <-; exact (documented_decode_class _ D1)].
  assert (Hd : (fields_depth CR <= S (depth_of CR))%nat) by (unfold depth_of; lia).
  pose proof (parse_model_doc (depth_of CR) CR false v wf_CR Hd) as D2.
  destruct (parse_model (depth_of CR) CR false v) as [vs|e2]; cbn [bind];
    [|intros H; injection H as <-; exact (documented_decode_class _ D2)].
  intros H. destruct vs as [|sc [|st [|body [|x r]]]]; try (injection H as <-; reflexivity);
    destruct body; try discriminate; injection H as <-; reflexivity.
Qed.

Lemma nfd_models_wf : forallb wf_fieldsb nfd_models = true.
Proof. vm_compute. reflexivity. Qed.

Theorem dataset_roundtrip fs d ic vs w :
  In fs nfd_models ->
  Forall2 (fun f v => fits (snd f) v) fs vs ->
  encode_model d fs vs = Ok w -> N.of_nat (length w) < two64 ->
  parse_model d fs ic w = Ok vs.
Proof.
  intros Hin. apply parse_encode_roundtrip. apply wf_fieldsb_spec.
  exact (proj1 (forallb_forall _ _) nfd_models_wf fs Hin).
Qed.

(* the form the extracted model runs (Cls.parse / obj.encode of an application) *)
Theorem dataset_parse_wire fs vs w :
  In fs nfd_models ->
  Forall2 (fun f v => fits (snd f) v) fs vs ->
  dataset_wire fs vs = Ok w -> N.of_nat (length w) < two64 ->
  dataset_parse fs w = Ok vs.
Proof. unfold dataset_wire, dataset_parse. apply dataset_roundtrip. Qed.
