(* C05 — the gate of incoming Interests: [gate] and [lpm] of Model/ExpressPipeline.v against the specification's
   [may_deliver]; every handler call of a history stems from an Incoming event of it that passed the gate, for the
   routes and the application default of its moment.  The statements hold of EVERY history, well-formed or not. *)
From NDN Require Import Base.Prelude Spec.ExpressSpec Model.ExpressPipeline Proofs.ExpressBasics.
Local Open Scope N_scope.

Lemma lpm_in {V} (f : list (name * V)) (n p : name) (v : V) :
  lpm f n = Some (p, v) -> In (p, v) f /\ is_prefix p n = true.
Proof.
  induction f as [|a f IH] using rev_ind; [discriminate|]. revert IH.
  unfold lpm. rewrite fold_left_app, in_app_iff. cbn [fold_left In]. fold (lpm f n).
  destruct (is_prefix (fst a) n) eqn:PA; [|intros IH H; destruct (IH H); auto].
  destruct (lpm f n) as [b|]; [destruct (_ <? _)%nat|]; intros IH H.
  2: destruct (IH H); auto.
  all: injection H as ->; auto.
Qed.

Lemma gate_eq fe dv f k :
  gate fe dv f k = match lpm f (k_name k) with
                   | Some (_, (h, hv)) => if may_deliver fe (in_force fe hv dv) k then Some (h, hv) else None
                   | None => None
                   end.
Proof.
  unfold gate, may_deliver, in_force, plain, signed, validator_accepts, sha256_digest_checker.
  destruct (lpm f (k_name k)) as [[p [h hv]]|]; [|reflexivity].
  destruct fe, hv, dv, (k_params k), (k_sig k =? 0), (k_digest_ok k); cbn [negb andb orb];
    try reflexivity; try (destruct (pass _ (k_verdict k)); reflexivity); destruct (k_sig k =? 2); reflexivity.
Qed.

Theorem gate_iff fe dv f k hd hasv :
  gate fe dv f k = Some (hd, hasv) <->
  (exists p, lpm f (k_name k) = Some (p, (hd, hasv))) /\ may_deliver fe (in_force fe hasv dv) k = true.
Proof.
  rewrite gate_eq. destruct (lpm f (k_name k)) as [[p [h hv]]|].
  - destruct (may_deliver fe (in_force fe hv dv) k) eqn:M; split.
    + intros E; injection E as -> ->; eauto.
    + intros [[p' E] _]; injection E as _ -> ->; reflexivity.
    + discriminate.
    + intros [[p' E] M']; injection E as _ -> ->; congruence.
  - split; [discriminate | intros [[p E] _]; discriminate].
Qed.

Lemma gate_consults_eq fe dv f k :
  gate_consults fe dv f k = match lpm f (k_name k) with
                            | Some (_, (_, hv)) => k_digest_ok k && in_force fe hv dv &&
                                                   match fe with V2 => negb (plain k) | V1 => signed k end
                            | None => false
                            end.
Proof.
  unfold gate_consults, in_force, plain, signed. destruct (lpm f (k_name k)) as [[p [h hv]]|]; [|reflexivity].
  destruct fe, hv, dv, (k_params k), (k_sig k =? 0), (k_digest_ok k); reflexivity.
Qed.

Lemma may_deliver_accepted fe k :
  k_digest_ok k = true -> pass fe (k_verdict k) = true -> may_deliver fe true k = true.
Proof.
  unfold may_deliver, validator_accepts. intros -> P. destruct fe; rewrite P; cbn [andb]; rewrite !orb_true_r; reflexivity.
Qed.

(* A validator consulted by the library accepts, rejects or TERMINATES WITH AN EXCEPTION (its certificate fetch timed
   out, was nacked, the face went down).  The last two have in common that no accepting verdict exists: the histories
   give such a validator a non-passing verdict (V2: 0 1 2, 5 = raised; V1: 0 = falsy or raised).  Whatever the reason,
   an Interest whose validator did not accept reaches a handler only if it needed no application validator:
   it is plain, or (legacy) it is unsigned, or the library default sha256_digest_checker was in force and had
   nothing to object. *)
Lemma may_deliver_no_accept fe own k :
  may_deliver fe own k = true -> pass fe (k_verdict k) = false ->
  plain k = true \/
  (fe = V1 /\ k_digest_ok k = true /\ (signed k = false \/ (own = false /\ (k_sig k =? 2) = false))).
Proof.
  unfold may_deliver, validator_accepts. intros M P. destruct (plain k); [left; reflexivity | right].
  destruct (k_digest_ok k); [|discriminate M]. destruct fe; rewrite P in M.
  - destruct own; discriminate M.
  - repeat split. destruct (signed k); [right | left; reflexivity]. destruct own; [discriminate M|].
    split; [reflexivity | apply negb_true_iff, M].
Qed.


Definition called (fe : frontend) (dv : bool) (f : list (name * (N * bool))) (e : ev) : list (N * inc) :=
  match e with
  | Incoming k n hp sg dok v _ =>
      match gate fe dv f (mkInc k n hp sg dok v) with Some (hd, _) => [(hd, mkInc k n hp sg dok v)] | None => [] end
  | _ => []
  end.

Lemma apply_app_side fe s e :
  dflt (apply fe s e) = match e with SetDefault own _ => own | _ => dflt s end /\
  hcalls (apply fe s e) = hcalls s ++ called fe (dflt s) (fib s) e.
Proof.
  destruct e; cbn [apply called]; rewrite ?app_nil_r; try (split; reflexivity).
  - destruct (do_express_frame fe s i n cbp dig life vm) as (_ & _ & H & D & _). auto.
  - unfold do_shutdown. destruct (shut s); split; reflexivity.
  - unfold do_attach. destruct (al_mem name_eqb (fib s) p); split; reflexivity.
  - unfold do_incoming. cbn [hcalls dflt]. destruct (gate fe (dflt s) (fib s) _) as [[hd hv]|]; rewrite ?app_nil_r; split; reflexivity.
Qed.

Lemma step_app_side fe s x :
  dflt (step fe s x) = match snd x with SetDefault own _ => own | _ => dflt s end /\
  hcalls (step fe s x) = hcalls s ++ called fe (dflt s) (fib s) (snd x).
Proof.
  assert (E : exists s1, (hcalls s1 = hcalls s /\ fib s1 = fib s /\ dflt s1 = dflt s) /\
                         dflt (step fe s x) = dflt (apply fe s1 (snd x)) /\ hcalls (step fe s x) = hcalls (apply fe s1 (snd x))).
  { eexists. split; [|split; reflexivity]. unfold pre. destruct (fst x); repeat split. }
  destruct E as (s1 & (H & F & D) & -> & ->). rewrite <- H, <- F, <- D. apply apply_app_side.
Qed.

(* the validator in force: the model's app.int_validator after a history is the last SetDefault of that
   history, read when the Interest is dispatched *)
Theorem dflt_run fe h : dflt (run_hist fe h) = default_of h.
Proof.
  induction h as [|x h IH] using rev_ind; [reflexivity|].
  rewrite run_hist_snoc, (proj1 (step_app_side _ _ _)), IH. unfold default_of. rewrite fold_left_app. reflexivity.
Qed.

(* every handler call of a history stems from an Incoming event of that history that passed the gate, for the routes
   and the application default as they were when it arrived *)
Theorem handler_call_origin fe h hd k :
  In (hd, k) (hcalls (run_hist fe h)) ->
  exists h1 m t h2 hv,
    h = h1 ++ (m, Incoming (k_id k) (k_name k) (k_params k) (k_sig k) (k_digest_ok k) (k_verdict k) t) :: h2 /\
    gate fe (default_of h1) (fib (run_hist fe h1)) k = Some (hd, hv).
Proof.
  induction h as [|[m e] h IH] using rev_ind; [intros []|].
  rewrite run_hist_snoc, (proj2 (step_app_side _ _ _)), (dflt_run fe h). cbn [snd].
  intros I. apply in_app_iff in I. destruct I as [I|I].
  - destruct (IH I) as (h1 & m' & t & h2 & hv & -> & G). exists h1, m', t, (h2 ++ [(m, e)]), hv.
    split; [rewrite <- app_assoc; reflexivity | exact G].
  - destruct e; cbn [called In] in I; try contradiction.
    destruct (gate fe (default_of h) (fib (run_hist fe h)) _) as [[hd' hv]|] eqn:G; [|destruct I].
    destruct I as [X|[]]. injection X as <- <-. exists h, m, t, [], hv. split; [reflexivity | exact G].
Qed.

Theorem interest_gate fe h hd k :
  In (hd, k) (hcalls (run_hist fe h)) -> exists own, may_deliver fe own k = true.
Proof.
  intros I. destruct (handler_call_origin fe h hd k I) as (h1 & _ & _ & _ & hv & _ & G).
  apply gate_iff in G. destruct G as [_ M]. eauto.
Qed.

Theorem interest_no_accept fe h hd k :
  In (hd, k) (hcalls (run_hist fe h)) -> pass fe (k_verdict k) = false ->
  plain k = true \/ (fe = V1 /\ k_digest_ok k = true /\ (signed k = false \/ (k_sig k =? 2) = false)).
Proof.
  intros I P. destruct (interest_gate fe h hd k I) as [own M].
  destruct (may_deliver_no_accept _ _ _ M P) as [H|(F & D & H)]; [left; exact H|right].
  split; [exact F|]. split; [exact D|]. destruct H as [H|[_ S]]; [left; exact H|right; exact S].
Qed.

(* An Interest arriving after the history [h]: the handler of its longest-prefix route is called iff the
   specification allows delivery under the validator in force at that moment (route validator, else the application-wide
   validator as last set in [h]); nothing else is called. *)
Theorem incoming_after fe h m k n hp sg dok v t :
  let e := Incoming k n hp sg dok v t in
  let s := run_hist fe h in
  hcalls (run_hist fe (h ++ [(m, e)]))
  = hcalls s ++ match gate fe (default_of h) (fib s) (mkInc k n hp sg dok v) with
                | Some (hd, _) => [(hd, mkInc k n hp sg dok v)]
                | None => []
                end.
Proof. cbv zeta. rewrite run_hist_snoc, (proj2 (step_app_side _ _ _)), (dflt_run fe h). reflexivity. Qed.

Corollary incoming_after_only_if fe h m k n hp sg dok v t hd :
  let kk := mkInc k n hp sg dok v in
  In (hd, kk) (hcalls (run_hist fe (h ++ [(m, Incoming k n hp sg dok v t)]))) ->
  In (hd, kk) (hcalls (run_hist fe h)) \/
  exists p hasv, lpm (fib (run_hist fe h)) n = Some (p, (hd, hasv)) /\
                 may_deliver fe (in_force fe hasv (default_of h)) kk = true.
Proof.
  cbv zeta. rewrite incoming_after. intros I. apply in_app_iff in I. destruct I as [I|I]; [left; exact I|]. right.
  destruct (gate fe (default_of h) (fib (run_hist fe h)) _) as [[hd' hv]|] eqn:G; [|destruct I].
  destruct I as [X|[]]. inversion X; subst hd'.
  apply gate_iff in G. destruct G as [[p L] M]. cbn [k_name] in L. eauto.
Qed.
