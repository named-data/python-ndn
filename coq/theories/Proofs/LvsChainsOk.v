(* An executable check of [chains_ok] (the hypothesis of the chain-level theorems): run by the harness on the
   chains of every generated schema, and proved here to imply the declarative condition. *)
From NDN Require Import Base.Prelude Spec.LvsChains Proofs.LvsCompileTree Proofs.LvsKeys.
Local Open Scope N_scope.

Theorem chains_okb_spec npc chains : chains_okb npc chains = true -> chains_ok npc chains.
Proof.
  unfold chains_okb. intros H. apply andb_true_iff in H. destruct H as [Hkeys Hcomps].
  rewrite forallb_forall in Hkeys, Hcomps.
  constructor.
  - apply keys_faithful_of. exact Hkeys.
  - intros rc v Hin Hl. specialize (Hcomps rc Hin). rewrite forallb_forall in Hcomps. specialize (Hcomps _ Hl).
    cbn in Hcomps. destruct v as [|b v]; [discriminate Hcomps | discriminate].
  - intros rc c f args Hin Hc Ho. specialize (Hkeys rc Hin). unfold chain_keys_ok in Hkeys. rewrite forallb_forall in Hkeys.
    specialize (Hkeys c Hc). unfold cons_ok in Hkeys. rewrite forallb_forall in Hkeys. specialize (Hkeys _ Ho).
    cbn in Hkeys. apply andb_true_iff in Hkeys. destruct Hkeys as [Hf _]. destruct (fid_ok_spec f Hf) as (r & -> & _). discriminate.
  - intros rc t Hin Hp Hpos. specialize (Hcomps rc Hin). rewrite forallb_forall in Hcomps. specialize (Hcomps _ Hp).
    cbn in Hcomps. destruct (Z.ltb_spec t 0); [lia|]. cbn in Hcomps. apply N.leb_le. exact Hcomps.
Qed.
