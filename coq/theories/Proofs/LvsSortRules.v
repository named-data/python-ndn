(* Compiler._sort_rule_references (Model/LvsCompiler.sort_rule_references).  In its output every rule comes after all
   definitions of each rule it refers to ([sorted_defs_earlier]): what _replicate_rules relies on.  The rules it works on,
   [rename_temp_rules 1 S], are the definitions of S under the labels of Spec/LvsSem.labelled. *)
From NDN Require Import Base.Prelude Base.Text Model.LvsAst Model.LvsChecker Model.LvsCompiler Spec.LvsSem
  Proofs.LvsTopOrder Proofs.ListLemmas Proofs.LvsTraverse.
Local Open Scope N_scope.

Lemma adj_add_spec adj k v : In k (map fst adj) ->
  map fst (adj_add adj k v) = map fst adj /\
  forall a b, In (a, b) (gedges (adj_add adj k v)) <-> In (a, b) (gedges adj) \/ (a = k /\ b = v).
Proof.
  intros Hk. unfold adj_add. apply (al_get_in ident_eqb ident_eqb_eq) in Hk. destruct Hk as (l & El). rewrite El.
  destruct (al_append_edges ident_eqb ident_eqb_eq adj k l v El) as [Hkeys Hed]. split; [exact Hkeys|].
  intros a b. rewrite !gedges_adj, Hed. split; (intros [H|H]; [left; exact H | right]); [injection H; auto | destruct H as [-> ->]; reflexivity].
Qed.

Lemma is_temp_rule_app r s : is_temp_rule r = true -> is_temp_rule (r ++ s) = true.
Proof. destruct r as [|a [|b r]]; cbn; try discriminate. auto. Qed.

Lemma fold_adj_add es : forall adj, (forall e, In e es -> In (fst e) (map fst adj)) ->
  map fst (fold_left (fun adj e => adj_add adj (fst e) (snd e)) es adj) = map fst adj /\
  forall a b, In (a, b) (gedges (fold_left (fun adj e => adj_add adj (fst e) (snd e)) es adj)) <-> In (a, b) (gedges adj) \/ In (a, b) es.
Proof.
  induction es as [|[k v] es IH]; intros adj Hk; cbn [fold_left fst snd].
  - split; [reflexivity|]. intros a b. cbn [In]. tauto.
  - destruct (adj_add_spec adj k v (Hk (k, v) (or_introl eq_refl))) as [Hk1 He1].
    destruct (IH (adj_add adj k v)) as [Hk2 He2]; [intros e He; rewrite Hk1; apply Hk; right; exact He|].
    split; [rewrite Hk2; exact Hk1|]. intros a b. rewrite He2, He1. cbn [In]. split.
    + intros [[H|[-> ->]]|H]; auto.
    + intros [H|[E|H]]; [auto | injection E as -> ->; auto | auto].
Qed.

Lemma cref_refs d x : In (CRef x) (r_name d) -> In x (refs_of d).
Proof. intros H. unfold refs_of. apply in_flat_map. exists (CRef x). split; [exact H | left; reflexivity]. Qed.

Lemma set_rule_id_same r : set_rule_id r (r_id r) = r.
Proof. destruct r; reflexivity. Qed.

Lemma rename_labelled : forall S k, rename_temp_rules k S = map (fun ld => set_rule_id (snd ld) (fst ld)) (labelled k S).
Proof.
  induction S as [|a S IH]; intros k; cbn [rename_temp_rules labelled]; [reflexivity|].
  destruct (is_temp_rule (r_id a)); cbn [map fst snd]; rewrite IH; [reflexivity | rewrite set_rule_id_same; reflexivity].
Qed.

Lemma labelled_rules : forall S k, map snd (labelled k S) = S.
Proof. induction S as [|a S IH]; intros k; cbn [labelled]; [reflexivity|]. destruct (is_temp_rule (r_id a)); cbn; rewrite IH; reflexivity. Qed.

Lemma rename_length S k : length (rename_temp_rules k S) = length S.
Proof. rewrite rename_labelled, map_length, <- (map_length snd), labelled_rules. reflexivity. Qed.

Lemma labelled_snd S k ld : In ld (labelled k S) -> In (snd ld) S.
Proof. intros H. rewrite <- (labelled_rules S k). apply in_map, H. Qed.

Lemma labelled_cover S k d : In d S -> exists lbl, In (lbl, d) (labelled k S).
Proof. rewrite <- (labelled_rules S k) at 1. intros H. apply in_map_iff in H. destruct H as ([lbl d'] & <- & H). eauto. Qed.

Lemma labelled_label : forall S k lbl d, In (lbl, d) (labelled k S) ->
  if is_temp_rule (r_id d) then exists k', lbl = r_id d ++ ch_hash :: dec_print k' else lbl = r_id d.
Proof.
  induction S as [|a S IH]; intros k lbl d H; cbn [labelled] in H; [destruct H|].
  destruct (is_temp_rule (r_id a)) eqn:Ea; (destruct H as [H|H]; [injection H as <- <-; rewrite Ea; eauto | eapply IH, H]).
Qed.

Lemma labelled_plain_in S k d : In d S -> is_temp_rule (r_id d) = false -> In (r_id d, d) (labelled k S).
Proof.
  intros Hd Ht. destruct (labelled_cover S k d Hd) as (lbl & Hl). pose proof (labelled_label S k lbl d Hl) as E.
  rewrite Ht in E. rewrite <- E. exact Hl.
Qed.

Lemma in_renamed S d' : In d' (rename_temp_rules 1 S) <-> exists lbl d, In (lbl, d) (labelled 1 S) /\ d' = set_rule_id d lbl.
Proof.
  rewrite rename_labelled, in_map_iff. split.
  - intros ([lbl d] & <- & Hl). exists lbl, d. auto.
  - intros (lbl & d & Hl & ->). exists (lbl, d). auto.
Qed.

Lemma labelled_in_renamed S lbl d : In (lbl, d) (labelled 1 S) -> In (set_rule_id d lbl) (rename_temp_rules 1 S).
Proof. intros H. apply in_renamed. eauto. Qed.

Definition ref_ok (ids : list ident) (c : ident) : Prop := In c ids /\ is_temp_rule c = false.

(* the keys of the reference graph: the identifiers of the renamed rules, each once *)
Definition rule_ids (S : lvsfile) : list ident := dedup ident_eqb (map r_id (rename_temp_rules 1 S)).

Lemma rule_ids_in S i : In i (rule_ids S) <-> exists r, In r (rename_temp_rules 1 S) /\ r_id r = i.
Proof.
  unfold rule_ids. rewrite (in_dedup _ ident_eqb_eq), in_map_iff. split; intros (r & H1 & H2); exists r; auto.
Qed.

Section Sort.
  Variable S : lvsfile.
  Let rules := rename_temp_rules 1 S.
  Let ids := rule_ids S.

  Definition refs_closed : Prop := forall r c, In r rules -> In c (refs_of r) -> ref_ok ids c.
  Definition ref_edge (a b : ident) : Prop := exists r, In r rules /\ r_id r = a /\ In b (refs_of r).

  Lemma zero_adj_keys : map fst (map (fun i : ident => (i, @nil ident)) ids) = ids.
  Proof. rewrite map_map. cbn. apply map_id. Qed.
  Lemma zero_adj_edges a b : ~ In (a, b) (gedges (map (fun i : ident => (i, @nil ident)) ids)).
  Proof. unfold gedges. induction ids as [|i l IH]; cbn; auto. Qed.

  Definition sorted_of (order : list ident) : list rule :=
    flat_map (fun rid => filter (fun r => ident_eqb (r_id r) rid) rules) order.

  Lemma sorted_in order : (forall x, In x order <-> In x ids) -> forall r, In r (sorted_of order) <-> In r rules.
  Proof.
    intros Ho r. unfold sorted_of. rewrite in_flat_map. split.
    - intros (rid & _ & Hf). apply filter_In in Hf. tauto.
    - intros Hr. exists (r_id r). split; [apply Ho, rule_ids_in; eauto|]. apply filter_In. split; [exact Hr | apply ident_eqb_eq; reflexivity].
  Qed.

  Definition ref_list : list (ident * ident) := flat_map (fun r => map (pair (r_id r)) (refs_of r)) rules.

  Lemma ref_list_in a b : In (a, b) ref_list <-> ref_edge a b.
  Proof.
    unfold ref_list, ref_edge. rewrite in_flat_map. split; intros (r & Hr & H); exists r; (split; [exact Hr|]).
    - apply in_map_iff in H. destruct H as (c & E & Hc). injection E as <- <-. auto.
    - destruct H as [<- H]. apply in_map, H.
  Qed.

  Lemma adj_built :
    verdict ESemantic
      (rfold (fun adj r => rfold (fun adj c => if negb (existsb (ident_eqb c) ids) then Err ESemantic
                                               else if is_temp_rule c then Err ESemantic
                                               else Ok (adj_add adj (r_id r) c)) (refs_of r) adj)
             rules (map (fun i => (i, [])) ids))
      refs_closed (fun adj => map fst adj = ids /\ forall a b, In (a, b) (gedges adj) <-> ref_edge a b).
  Proof.
    pose proof (rfold_nested refs_of (fun r => pair (r_id r))
                  (fun adj e => if negb (existsb (ident_eqb (snd e)) ids) then Err ESemantic
                                else if is_temp_rule (snd e) then Err ESemantic else Ok (adj_add adj (fst e) (snd e)))
                  rules (map (fun i => (i, [])) ids)) as E. cbn [fst snd] in E. rewrite E. clear E. fold ref_list.
    rewrite (rfold_ext _ (fun adj e => if existsb (ident_eqb (snd e)) ids && negb (is_temp_rule (snd e))
                                       then Ok (adj_add adj (fst e) (snd e)) else Err ESemantic))
      by (intros adj e _; destruct (existsb _ ids), (is_temp_rule (snd e)); reflexivity).
    rewrite rfold_guard.
    assert (Hcl : forallb (fun e => existsb (ident_eqb (snd e)) ids && negb (is_temp_rule (snd e))) ref_list = true <-> refs_closed).
    { rewrite forallb_forall. unfold refs_closed, ref_ok. split.
      - intros H r c Hr Hc. specialize (H (r_id r, c) (proj2 (ref_list_in _ _) (ex_intro _ r (conj Hr (conj eq_refl Hc))))).
        cbn [snd] in H. rewrite andb_true_iff, negb_true_iff, existsb_ident in H. exact H.
      - intros H [a c] He. apply ref_list_in in He. destruct He as (r & Hr & _ & Hc). cbn [snd].
        rewrite andb_true_iff, negb_true_iff, existsb_ident. exact (H r c Hr Hc). }
    destruct (forallb _ ref_list).
    - destruct (fold_adj_add ref_list (map (fun i => (i, [])) ids)) as [Hk He].
      { intros [a c] He. apply ref_list_in in He. destruct He as (r & Hr & <- & _). rewrite zero_adj_keys. apply rule_ids_in. eauto. }
      split; [apply Hcl; reflexivity|]. split; [rewrite Hk; apply zero_adj_keys|]. intros a b. rewrite He, ref_list_in.
      split; [intros [H|H]; [destruct (zero_adj_edges _ _ H) | exact H] | auto].
    - split; [reflexivity|]. intros H. apply Hcl in H. discriminate.
  Qed.

  Definition ref_acyclic : Prop := exists rank : ident -> nat, forall a b, ref_edge a b -> (rank b < rank a)%nat.

  Record sorted_ok (sorted : list rule) (order : list ident) : Prop := {
    so_closed : refs_closed;
    so_nodup : NoDup order;
    so_ids : forall x, In x order <-> In x ids;
    so_sorted : sorted = sorted_of order;
    so_rules : forall r, In r sorted <-> In r rules;
    so_rank : forall x y, ref_edge x y -> (pos ident_eqb y order < pos ident_eqb x order)%nat
  }.

  Lemma order_len sorted order : sorted_ok sorted order -> (length order <= length S)%nat.
  Proof.
    intros Hso. rewrite <- (rename_length S 1), <- (map_length r_id). apply NoDup_incl_length; [exact (so_nodup _ _ Hso)|].
    intros x Hx. apply (in_dedup _ ident_eqb_eq), (so_ids _ _ Hso), Hx.
  Qed.

  (* the whole block of x in [sorted_of order] stands before the block r is in *)
  Lemma sorted_defs_earlier sorted order : sorted_ok sorted order -> forall l1 r l2 x d',
    sorted = l1 ++ r :: l2 -> In (CRef x) (r_name r) -> In d' (defs_of rules x) -> In d' l1.
  Proof.
    intros [Hcl Hnd Hin Es Hrules Hrank] l1 r l2 c d' E Hc Hd'. rewrite Es in E.
    apply filter_In in Hd'. destruct Hd' as [Hd' Hid'].
    destruct (flat_map_split _ _ _ _ _ E) as (o1 & x & o2 & p1 & p2 & Eo & Ef & ->).
    assert (Hr : In r (filter (fun r0 => ident_eqb (r_id r0) x) rules)) by (rewrite Ef; apply in_elt).
    apply filter_In in Hr. destruct Hr as [Hr Hx]. apply ident_eqb_eq in Hx.
    apply in_or_app. left. apply in_flat_map. exists c. split; [|apply filter_In; split; assumption].
    apply (pos_before ident_eqb ident_eqb_eq order o1 x o2 c Hnd Eo), Hrank. exists r. auto using cref_refs.
  Qed.

  (* positions in [order] are at most [length S]; the bound leaves one to spare, and [ref_fuel S] one more *)
  Lemma sorted_rank sorted order : sorted_ok sorted order ->
    exists h : rule -> nat, (forall d x d', In d rules -> In (CRef x) (r_name d) -> In d' (defs_of rules x) -> (h d' < h d)%nat) /\
                            forall d, (h d < 2 + length S)%nat.
  Proof.
    intros Hso. exists (fun d => pos ident_eqb (r_id d) order). split.
    - intros d x d' Hd Hx Hd'. apply filter_In in Hd'. destruct Hd' as [_ Hid]. apply ident_eqb_eq in Hid. rewrite Hid.
      apply (so_rank _ _ Hso). exists d. auto using cref_refs.
    - intros d. apply Nat.lt_succ_r, le_S, (Nat.le_trans _ _ _ (pos_le ident_eqb (r_id d) order)), (order_len _ _ Hso).
  Qed.

  Theorem sort_cases :
    verdict ESemantic (sort_rule_references S) (refs_closed /\ ref_acyclic) (fun so => sorted_ok (fst so) (snd so)).
  Proof.
    unfold sort_rule_references. fold rules. fold (rule_ids S). fold ids.
    apply (verdict_bind _ _ _ _ _ _ _ (verdict_and_pre _ _ _ _ adj_built)). intros adj (Hcl & Hk & He).
    assert (Hiff : closed_in ids adj /\ ranked adj <-> ref_acyclic).
    { split.
      - intros [_ (rank & Hr)]. exists rank. intros a b Hab. apply Hr, He, Hab.
      - intros (rank & Hr). split; [|exists rank; intros a b Hab; apply Hr, He, Hab].
        intros a b Hab. apply He in Hab. destruct Hab as (r & Hr' & <- & Hb). split; [apply rule_ids_in; eauto | apply (Hcl r b Hr' Hb)]. }
    apply (verdict_then _ _ (fun order => (sorted_of order, order)) _ _ _
             (verdict_imp _ _ _ _ _ _ Hiff (fun _ H => H)
                (top_order_cases ident_eqb str_leb always_sortable ident_eqb_eq ids adj
                   (nodup_dedup ident_eqb ident_eqb_eq _) Hk (fun _ _ => eq_refl)))).
    intros order ((Hnd & Hin & _) & Hpos). cbn [fst snd].
    constructor; auto; [apply sorted_in, Hin | intros x y Hxy; apply Hpos, He, Hxy].
  Qed.

  Lemma sort_ok sorted order : sort_rule_references S = Ok (sorted, order) -> sorted_ok sorted order.
  Proof. intros E. exact (proj2 (verdict_ok _ _ _ _ _ sort_cases E)). Qed.

  (* a -> c1 -> ... -> cn -> a is a closed walk along references *)
  Fixpoint ref_walk (a : ident) (x : ident) (l : list ident) : Prop :=
    match l with
    | [] => ref_edge x a
    | y :: l' => ref_edge x y /\ ref_walk a y l'
    end.

  Lemma ref_walk_rank (rank : ident -> nat) : (forall a b, ref_edge a b -> (rank b < rank a)%nat) ->
    forall l a x, ref_walk a x l -> (rank a < rank x)%nat.
  Proof.
    intros Hr. induction l as [|y l IH]; intros a x H; cbn in H; [apply Hr, H|]. destruct H as [H1 H2].
    specialize (IH a y H2). specialize (Hr x y H1). lia.
  Qed.
End Sort.
