(* How one scope of one table, seen as a finite map ([scope_map]) with its default ([scope_defname]), changes
   under the statements of the keychain; then abs (tables after one statement) in terms of the specification's
   update functions on abs (tables before): the algebra behind [abs (after) = spec_step (abs before)]. *)
From NDN Require Import Base.Prelude Model.Keychain Spec.KeychainSpec.
From NDN Require Import Proofs.KeychainTables Proofs.KeychainInv Proofs.KeychainOutcome Proofs.KeychainAbs.
Local Open Scope N_scope.

Section Maps.
  Context {V : Type}.
  Implicit Types (g : row -> V) (m : list (name * V)).

  Lemma scope_map_app g p l x :
    scope_map g p (l ++ [x]) = scope_map g p l ++ (if in_scope p x then [(r_name x, g x)] else []).
  Proof.
    unfold scope_map. rewrite filter_app, map_app. cbn. destruct (in_scope p x); reflexivity.
  Qed.
  Lemma scope_map_ext g g' p l :
    (forall x, In x l -> r_par x = p -> g x = g' x) -> scope_map g p l = scope_map g' p l.
  Proof.
    intros H. unfold scope_map. apply map_ext_in. intros x Hx. apply filter_In in Hx. destruct Hx as [Hx Px].
    apply in_scope_true in Px. rewrite (H x Hx Px). reflexivity.
  Qed.
  Lemma scope_map_empty g p l : (forall x, In x l -> r_par x <> p) -> scope_map g p l = [].
  Proof.
    intros H. unfold scope_map. induction l as [|x l IH]; cbn; [reflexivity|].
    replace (in_scope p x) with false by (symmetry; apply in_scope_false; apply H; left; reflexivity).
    apply IH. intros y Hy. apply H. right. assumption.
  Qed.

  (* INSERT: the new row goes to the end of its scope *)
  Lemma scope_map_insert g p q n v l l' :
    r_insert p n v l = Ok l' ->
    scope_map g q l' = if p =? q then nset (scope_map g q l) n (g (new_row p n v l)) else scope_map g q l.
  Proof.
    intros R. apply r_insert_ok in R. destruct R as [-> NI]. rewrite scope_map_app. unfold in_scope. cbn [new_row r_par r_name].
    destruct (p =? q); [|apply app_nil_r]. symmetry. apply (al_set_fresh name_eqb).
    rewrite scope_map_get. destruct (v_get q n l) as [r|] eqn:G; [|reflexivity].
    apply v_get_ok in G. exfalso. apply NI. destruct G as [Hr [<- _]]. apply in_map. assumption.
  Qed.

  Lemma scope_map_update g g' p l r :
    wf_rows l -> In r l -> r_par r = p ->
    (forall x, In x l -> r_par x = p -> x <> r -> g' x = g x) ->
    scope_map g' p l = nset (scope_map g p l) (r_name r) (g' r).
  Proof.
    intros W Hr Pr Hsame. unfold scope_map.
    assert (ND : NoDup (map r_name l)) by apply W. clear W.
    induction l as [|x l IH]; [contradiction|]. cbn in ND. inversion ND as [|? ? NI ND']; subst.
    cbn [filter]. destruct (in_scope (r_par r) x) eqn:Sx; cbn [map al_set].
    - destruct Hr as [-> | Hr].
      + rewrite name_eqb_refl. f_equal.
        apply map_ext_in. intros y Hy. apply filter_In in Hy. destruct Hy as [Hy Py]. apply in_scope_true in Py.
        f_equal. apply Hsame; [right; assumption | assumption|].
        intros ->. apply NI. apply in_map. assumption.
      + assert (Nx : name_eqb (r_name r) (r_name x) = false).
        { apply name_eqb_neq. intros E. apply NI. rewrite <- E. apply in_map. assumption. }
        rewrite Nx. f_equal.
        * f_equal. apply Hsame; [left; reflexivity | apply in_scope_true; assumption|].
          intros ->. apply NI. apply in_map. assumption.
        * apply IH; auto. intros y Hy. apply Hsame. right. assumption.
    - destruct Hr as [-> | Hr]; [apply in_scope_false in Sx; contradiction|].
      apply IH; auto. intros y Hy. apply Hsame. right. assumption.
  Qed.

  Lemma scope_map_map g p (u : row -> row) l :
    (forall x, r_name (u x) = r_name x /\ r_par (u x) = r_par x) -> (forall x, In x l -> g (u x) = g x) ->
    scope_map g p (map u l) = scope_map g p l.
  Proof.
    intros Hu Hg. unfold scope_map. induction l as [|x l IH]; cbn; [reflexivity|].
    destruct (Hu x) as [En Ep].
    assert (Es : in_scope p (u x) = in_scope p x) by (unfold in_scope; rewrite Ep; reflexivity).
    rewrite Es. destruct (in_scope p x); cbn.
    - rewrite En, (Hg x (or_introl eq_refl)). f_equal. apply IH. intros y Hy. apply Hg. right. assumption.
    - apply IH. intros y Hy. apply Hg. right. assumption.
  Qed.

  Lemma scope_map_delete_name g p l n :
    wf_rows l -> scope_map g p (r_delete_name n l) = ndel (scope_map g p l) n.
  Proof.
    intros W. assert (ND : NoDup (map r_name l)) by apply W. clear W. unfold scope_map, r_delete_name.
    induction l as [|x l IH]; cbn; [reflexivity|]. inversion ND as [|? ? NI ND']; subst.
    unfold has_name at 1. destruct (name_eqb (r_name x) n) eqn:E; cbn.
    - apply name_eqb_eq in E. subst n.
      assert (Hl : filter (fun r => negb (has_name (r_name x) r)) l = l).
      { apply filter_all. intros y Hy. apply negb_true_iff, has_name_false. intros E. apply NI. rewrite <- E.
        apply in_map. assumption. }
      rewrite Hl. destruct (in_scope p x); cbn.
      + rewrite name_eqb_refl. reflexivity.
      + symmetry. apply (al_del_absent name_eqb). apply (al_get_none name_eqb name_eqb_eq).
        intros Hin. apply NI. rewrite map_map in Hin. cbn in Hin. apply in_map_iff in Hin. destruct Hin as [y [Ey Hy]].
        apply filter_In in Hy. rewrite <- Ey. apply in_map. tauto.
    - destruct (in_scope p x); cbn.
      + rewrite (name_eqb_sym n (r_name x)), E. f_equal. apply IH. assumption.
      + apply IH. assumption.
  Qed.
  Lemma scope_map_delete_scope g p q l :
    scope_map g p (r_delete_scope q l) = if p =? q then [] else scope_map g p l.
  Proof.
    unfold scope_map, r_delete_scope. destruct (p =? q) eqn:E.
    - apply N.eqb_eq in E. subst q. induction l as [|x l IH]; cbn; [reflexivity|].
      destruct (in_scope p x) eqn:S; cbn; [assumption|]. rewrite S. assumption.
    - apply N.eqb_neq in E. induction l as [|x l IH]; cbn; [reflexivity|].
      destruct (in_scope q x) eqn:Sq; cbn.
      + replace (in_scope p x) with false; [assumption|]. symmetry. apply in_scope_false. apply in_scope_true in Sq. congruence.
      + destruct (in_scope p x); cbn; [f_equal|]; assumption.
  Qed.
End Maps.

Lemma scope_defname_app p l x :
  scope_defname p (l ++ [x]) =
  match scope_defname p l with Some d => Some d | None => if is_def_in p x then Some (r_name x) else None end.
Proof.
  unfold scope_defname, scope_default. rewrite find_app. destruct (find (is_def_in p) l); cbn; [reflexivity|].
  destruct (is_def_in p x); reflexivity.
Qed.

Lemma scope_defname_insert p q n v l l' :
  r_insert p n v l = Ok l' -> scope_defname q l' = if p =? q then first_default (scope_defname q l) n else scope_defname q l.
Proof.
  intros R. apply r_insert_ok in R. destruct R as [-> _]. rewrite scope_defname_app.
  unfold is_def_in, in_scope, first_default. cbn [new_row r_def r_par r_name]. destruct (N.eqb_spec p q) as [<- | NE].
  - destruct (scope_defname p l) eqn:D; [reflexivity|]. apply scope_defname_none in D. rewrite D. reflexivity.
  - rewrite andb_false_r. destruct (scope_defname q l); reflexivity.
Qed.
(* used at the id of a row that was just inserted *)
Lemma scope_unused {V} (g : row -> V) p l :
  (forall x, In x l -> r_par x <> p) -> scope_map g p l = [] /\ scope_defname p l = None.
Proof.
  intros H. split; [apply scope_map_empty; assumption|]. apply scope_defname_none.
  destruct (scope_has_def p l) eqn:D; [|reflexivity]. apply scope_has_def_true in D. destruct D as [x [Hx [_ Px]]].
  destruct (H x Hx Px).
Qed.

Lemma scope_defname_set_default p n l r :
  wf_rows l -> r_find n l = Some r ->
  scope_defname p (r_set_default n l) = if r_par r =? p then Some n else scope_defname p l.
Proof.
  intros W F. pose proof (r_find_some _ _ _ F) as [Hr Nr].
  pose proof (r_set_default_wf n l W) as W'.
  destruct (r_set_default_sets n l r F) as [r' [Hr' [Ei [En [Ep Ed]]]]].
  destruct (r_par r =? p) eqn:E.
  - apply N.eqb_eq in E. unfold scope_defname. rewrite (scope_default_is p _ r' W' Hr' Ed); [cbn; congruence | congruence].
  - apply N.eqb_neq in E. unfold r_set_default. rewrite F. destruct (r_def r) eqn:D; [reflexivity|].
    unfold scope_defname, scope_default. f_equal.
    (* the rows of scope p are as they were, and no other row is looked at *)
    assert (Hfind : forall l0, incl l0 l -> find (is_def_in p) (map (upd_default r) l0) = find (is_def_in p) l0).
    { induction l0 as [|x l0 IH]; intros Hin; cbn; [reflexivity|]. apply incl_cons_inv in Hin. destruct Hin as [Hx Hin].
      destruct (N.eq_dec (r_par x) p) as [Px | Px].
      - rewrite (upd_default_off_scope l r x) by (auto; congruence). rewrite IH by assumption. reflexivity.
      - unfold is_def_in, in_scope. rewrite upd_default_par, (proj2 (N.eqb_neq _ _) Px), !andb_false_r. auto. }
    apply Hfind, incl_refl.
Qed.

Lemma scope_defname_filter (f : row -> bool) p l :
  wf_rows l ->
  scope_defname p (filter f l) =
  match scope_default p l with Some d => if f d then Some (r_name d) else None | None => None end.
Proof.
  intros W. destruct (scope_default p l) as [d|] eqn:E.
  - pose proof (scope_default_some _ _ _ E) as [Hd [Dd Pd]]. destruct (f d) eqn:Fd.
    + unfold scope_defname. rewrite (scope_default_is p (filter f l) d); auto. apply filter_wf; assumption. apply filter_In; auto.
    + apply scope_defname_none. destruct (scope_has_def p (filter f l)) eqn:H; [|reflexivity].
      apply scope_has_def_true in H. destruct H as [d' [Hd' [Dd' Pd']]]. apply filter_In in Hd'. destruct Hd' as [Hd' Fd'].
      assert (d' = d) by (eapply scope_default_unique; eassumption). subst. congruence.
  - apply scope_defname_none. apply scope_default_none in E.
    destruct (scope_has_def p (filter f l)) eqn:H; [|reflexivity]. apply filter_scope_has_def in H. congruence.
Qed.
Lemma scope_defname_delete_name p n l :
  wf_rows l -> scope_defname p (r_delete_name n l) = clear_default (scope_defname p l) n.
Proof.
  intros W. unfold r_delete_name. rewrite scope_defname_filter by assumption. unfold scope_defname.
  destruct (scope_default p l) as [d|]; cbn; [|reflexivity]. unfold has_name.
  destruct (name_eqb (r_name d) n); reflexivity.
Qed.
Lemma scope_defname_delete_scope p q l :
  wf_rows l -> scope_defname p (r_delete_scope q l) = if p =? q then None else scope_defname p l.
Proof.
  intros W. unfold r_delete_scope. rewrite scope_defname_filter by assumption. unfold scope_defname.
  destruct (scope_default p l) as [d|] eqn:E; cbn; [|destruct (p =? q); reflexivity].
  apply scope_default_some in E. destruct E as [_ [_ Pd]]. unfold in_scope. rewrite Pd. destruct (p =? q); reflexivity.
Qed.

Lemma abs_key_sim t x y : row_sim x y -> abs_key t x = abs_key t y.
Proof. intros [Ei [_ [_ Ev]]]. unfold abs_key. rewrite Ei, Ev. reflexivity. Qed.
Lemma abs_ident_sim t x y : row_sim x y -> abs_ident t x = abs_ident t y.
Proof. intros [Ei _]. unfold abs_ident. rewrite Ei. reflexivity. Qed.

Lemma scope_map_set_default {V} (g : row -> V) p n l :
  (forall x y, row_sim x y -> g x = g y) -> scope_map g p (r_set_default n l) = scope_map g p l.
Proof.
  intros Hg. destruct (r_set_default_cases n l) as [-> | [r [_ [_ ->]]]]; [reflexivity|].
  apply scope_map_map.
  - intros x. rewrite upd_default_name, upd_default_par. auto.
  - intros x _. symmetry. apply Hg, upd_default_sim.
Qed.

Lemma scope_remove_absent {V} (g : row -> V) p l n :
  ~ In n (v_iter p l) ->
  ndel (scope_map g p l) n = scope_map g p l /\ clear_default (scope_defname p l) n = scope_defname p l.
Proof.
  intros Hno. split.
  - apply (al_del_absent name_eqb), (al_get_none name_eqb name_eqb_eq). rewrite <- (scope_map_names g) in Hno. exact Hno.
  - unfold scope_defname, clear_default. destruct (scope_default p l) as [r|] eqn:E; [|reflexivity]. cbn.
    destruct (name_eqb (r_name r) n) eqn:En; [|reflexivity]. apply name_eqb_eq in En. apply scope_default_some in E.
    exfalso. apply Hno, v_iter_in. exists r. tauto.
Qed.

Section WfTables.
Variables (t : tables) (tp : list (name * N)).
Hypothesis W : wf_tables t.

Lemma s_ident_find n :
  s_ident (abs_tables t tp) n = option_map (abs_ident t) (r_find n (t_ids t)).
Proof.
  rewrite abs_ident_get. destruct (r_find n (t_ids t)) as [i|] eqn:F; cbn.
  - apply r_find_some in F. destruct F as [Hi Ni]. rewrite (kc_get_in _ _ _ W Hi Ni). reflexivity.
  - destruct (kc_get n t) as [i|] eqn:G; [|reflexivity]. apply kc_get_ok in G. apply r_find_none in F.
    exfalso. apply F. destruct G as [Hi <-]. apply in_map. assumption.
Qed.
Lemma s_key_find kn :
  s_key (abs_tables t tp) kn = option_map (abs_key t) (r_find kn (t_keys t)).
Proof.
  destruct (r_find kn (t_keys t)) as [k|] eqn:F; cbn.
  - apply r_find_some in F. destruct F as [Hk <-]. apply s_key_listed; assumption.
  - apply s_key_unlisted, r_find_none, F.
Qed.
Lemma s_cert_find cn :
  s_cert (abs_tables t tp) cn = option_map r_val (r_find cn (t_certs t)).
Proof.
  unfold s_cert. destruct (r_find cn (t_certs t)) as [cr|] eqn:F; cbn [option_map].
  - apply r_find_some in F. destruct F as [Hc <-]. destruct (cert_owner _ _ W Hc) as [k [Hk [_ [Nk G]]]].
    rewrite <- Nk, (s_key_listed _ _ _ W Hk). cbn [obind]. rewrite abs_cert_get, G. reflexivity.
  - rewrite s_key_find. destruct (r_find (drop2 cn) (t_keys t)) as [kr|]; cbn [option_map obind]; [|reflexivity].
    rewrite abs_cert_get. destruct (key_get kr cn t) as [c|] eqn:G; [|reflexivity]. apply key_get_ok in G.
    apply r_find_none in F. exfalso. apply F. destruct G as [Hc [<- _]]. apply in_map. assumption.
Qed.

Lemma abs_upd_ident t' i0 (F : sident -> sident) :
  t_ids t' = t_ids t -> In i0 (t_ids t) ->
  (forall i, In i (t_ids t) -> abs_ident t' i = if r_id i0 =? r_id i then F (abs_ident t i) else abs_ident t i) ->
  abs_tables t' tp = upd_ident (abs_tables t tp) (r_name i0) F.
Proof.
  intros Ei Hi0 Hi. unfold upd_ident. rewrite s_ident_find, (r_find_in _ _ i0 (wf_i _ W) Hi0 eq_refl).
  unfold abs_tables. cbn [option_map s_ids s_defid s_tpm]. rewrite Ei. f_equal.
  rewrite (scope_map_update (abs_ident t) (abs_ident t') 0 (t_ids t) i0 (wf_i _ W) Hi0 (wf_ipar _ W _ Hi0)).
  - rewrite (Hi i0 Hi0), N.eqb_refl. reflexivity.
  - intros x Hx _ Nx. rewrite (Hi x Hx), (eqb_id_false _ _ _ (wf_i _ W) Hi0 Hx); [reflexivity | auto].
Qed.
Lemma abs_upd_key t' k0 (G : skey -> skey) :
  t_ids t' = t_ids t -> t_keys t' = t_keys t -> In k0 (t_keys t) ->
  (forall k, In k (t_keys t) -> abs_key t' k = if r_id k0 =? r_id k then G (abs_key t k) else abs_key t k) ->
  abs_tables t' tp = upd_key (abs_tables t tp) (r_name k0) G.
Proof.
  intros Ei Ek Hk0 Hk. destruct (key_owner _ _ W Hk0) as [i0 [Hi0 [Ei0 [Ni0 [_ Gk]]]]].
  unfold upd_key. rewrite <- Ni0. apply abs_upd_ident; auto.
  intros i Hi. destruct (N.eqb_spec (r_id i0) (r_id i)) as [E | NE].
  - assert (i = i0) by (apply (id_inj (t_ids t)); [apply W | assumption | assumption | auto]). subst i.
    rewrite abs_key_get, Gk. unfold abs_ident. cbn [si_keys si_defkey]. rewrite Ek. f_equal.
    rewrite (scope_map_update (abs_key t) (abs_key t') (r_id i0) (t_keys t) k0 (wf_k _ W) Hk0 (eq_sym Ei0)).
    + rewrite (Hk k0 Hk0), N.eqb_refl. reflexivity.
    + intros x Hx _ Nx. rewrite (Hk x Hx), (eqb_id_false _ _ _ (wf_k _ W) Hk0 Hx); [reflexivity | auto].
  - unfold abs_ident. rewrite Ek. f_equal. apply scope_map_ext. intros x Hx Px. rewrite (Hk x Hx).
    replace (r_id k0 =? r_id x) with false; [reflexivity|]. symmetry. apply (eqb_id_false _ _ _ (wf_k _ W) Hk0 Hx). congruence.
Qed.

Lemma abs_insert_identity t1 n :
  sql_insert_identity n t = Ok t1 -> abs_tables t1 tp = s_add_identity n (abs_tables t tp).
Proof.
  intros E. apply sql_insert_identity_ok in E. destruct E as [l [R ->]].
  unfold s_add_identity, abs_tables. cbn [s_ids s_defid s_tpm t_ids t_keys t_certs].
  rewrite (scope_map_insert _ _ 0 _ _ _ _ R), (scope_defname_insert _ 0 _ _ _ _ R). cbn [N.eqb]. f_equal. f_equal.
  (* the new identity has no keys *)
  unfold abs_ident. cbn [new_row r_id t_keys].
  destruct (scope_unused (abs_key (mkT l (t_keys t) (t_certs t))) (next_id (t_ids t)) (t_keys t)) as [-> ->]; [|reflexivity].
  intros k Hk E. destruct (wf_kref _ W _ Hk) as [i [Hi Ei]]. apply (next_id_fresh_row _ _ Hi). congruence.
Qed.

Lemma abs_insert_key t1 i0 kn m :
  In i0 (t_ids t) -> drop2 kn = r_name i0 ->
  sql_insert_key (r_id i0) kn m t = Ok t1 ->
  abs_tables t1 (nset tp kn m) = s_add_key kn m (abs_tables t tp).
Proof.
  intros Hi0 Dn E. apply sql_insert_key_ok in E. destruct E as [l [R ->]]. set (t1 := mkT (t_ids t) l (t_certs t)).
  assert (Hnew : abs_key t1 (new_row (r_id i0) kn m (t_keys t)) = mkSK m [] None).
  { (* the new key has no certificates *)
    unfold abs_key. cbn [new_row r_val r_id t_certs t1].
    destruct (scope_unused r_val (next_id (t_keys t)) (t_certs t)) as [-> ->]; [|reflexivity].
    intros c Hc E. destruct (wf_cref _ W _ Hc) as [k [Hk Ek]]. apply (next_id_fresh_row _ _ Hk). congruence. }
  assert (Hi : forall i, abs_ident t1 i =
            if r_id i0 =? r_id i
            then mkSI (nset (si_keys (abs_ident t i)) kn (mkSK m [] None)) (first_default (si_defkey (abs_ident t i)) kn)
            else abs_ident t i).
  { intros i. unfold abs_ident. cbn [t_keys t1 si_keys si_defkey].
    rewrite (scope_map_insert _ _ (r_id i) _ _ _ _ R), (scope_defname_insert _ (r_id i) _ _ _ _ R), Hnew.
    destruct (r_id i0 =? r_id i); reflexivity. }
  unfold s_add_key. rewrite Dn, <- (abs_upd_ident t1 i0 _ eq_refl Hi0 (fun i _ => Hi i)). reflexivity.
Qed.

Lemma abs_insert_cert t2 kn cn d :
  drop2 cn = kn -> sql_insert_cert kn cn d t = Ok t2 ->
  abs_tables t2 tp = s_add_cert cn d (abs_tables t tp).
Proof.
  intros Dn E. apply sql_insert_cert_ok in E. destruct E as [k0 [l [F [R ->]]]].
  apply r_find_some in F. destruct F as [Hk0 Nk0]. unfold s_add_cert. rewrite Dn, <- Nk0.
  assert (Hk : forall k, abs_key (mkT (t_ids t) (t_keys t) l) k =
            if r_id k0 =? r_id k
            then mkSK (sk_bits (abs_key t k)) (nset (sk_certs (abs_key t k)) cn d) (first_default (sk_defcert (abs_key t k)) cn)
            else abs_key t k).
  { intros k. unfold abs_key. cbn [t_certs sk_bits sk_certs sk_defcert].
    rewrite (scope_map_insert _ _ (r_id k) _ _ _ _ R), (scope_defname_insert _ (r_id k) _ _ _ _ R).
    destruct (r_id k0 =? r_id k); reflexivity. }
  apply abs_upd_key; auto.
Qed.

Lemma abs_default_identity n :
  abs_tables (mkT (r_set_default n (t_ids t)) (t_keys t) (t_certs t)) tp =
  match s_ident (abs_tables t tp) n with
  | Some _ => mkSKC (s_ids (abs_tables t tp)) (Some n) tp
  | None => abs_tables t tp
  end.
Proof.
  rewrite s_ident_find. unfold abs_tables at 1. cbn [t_ids].
  rewrite scope_map_set_default by apply abs_ident_sim.
  destruct (r_find n (t_ids t)) as [r|] eqn:F; cbn [option_map].
  - rewrite (scope_defname_set_default 0 n _ r (wf_i _ W) F).
    apply r_find_some in F. rewrite (wf_ipar _ W _ (proj1 F)). reflexivity.
  - rewrite (r_set_default_absent _ _ F). reflexivity.
Qed.

Lemma abs_default_key kn :
  abs_tables (mkT (t_ids t) (r_set_default kn (t_keys t)) (t_certs t)) tp =
  match s_key (abs_tables t tp) kn with
  | Some _ => upd_ident (abs_tables t tp) (drop2 kn) (fun i => mkSI (si_keys i) (Some kn))
  | None => abs_tables t tp
  end.
Proof.
  set (t' := mkT (t_ids t) (r_set_default kn (t_keys t)) (t_certs t)).
  rewrite s_key_find. destruct (r_find kn (t_keys t)) as [kr|] eqn:F; cbn [option_map].
  - pose proof (r_find_some _ _ _ F) as [Hkr Nkr]. destruct (key_owner _ _ W Hkr) as [i0 [Hi0 [Ei0 [Ni0 _]]]].
    rewrite Nkr in Ni0. rewrite <- Ni0. apply abs_upd_ident; auto.
    intros i _. unfold abs_ident. cbn [si_keys si_defkey t_keys t'].
    rewrite (scope_defname_set_default _ _ _ _ (wf_k _ W) F), <- Ei0, scope_map_set_default.
    + destruct (r_id i0 =? r_id i); reflexivity.
    + apply abs_key_sim.
  - unfold t'. rewrite (r_set_default_absent _ _ F). destruct t; reflexivity.
Qed.

Lemma abs_default_cert cn :
  abs_tables (mkT (t_ids t) (t_keys t) (r_set_default cn (t_certs t))) tp =
  match s_cert (abs_tables t tp) cn with
  | Some _ => upd_key (abs_tables t tp) (drop2 cn) (fun k => mkSK (sk_bits k) (sk_certs k) (Some cn))
  | None => abs_tables t tp
  end.
Proof.
  rewrite s_cert_find. destruct (r_find cn (t_certs t)) as [cr|] eqn:F; cbn [option_map].
  - pose proof (r_find_some _ _ _ F) as [Hcr Ncr]. destruct (cert_owner _ _ W Hcr) as [k0 [Hk0 [Ek0 [Nk0 _]]]].
    rewrite Ncr in Nk0. rewrite <- Nk0. apply abs_upd_key; auto.
    intros k _. unfold abs_key. cbn [t_certs sk_bits sk_certs sk_defcert].
    rewrite (scope_defname_set_default _ _ _ _ (wf_c _ W) F), <- Ek0, scope_map_set_default.
    + destruct (r_id k0 =? r_id k); reflexivity.
    + intros x y S. destruct S as [_ [_ [_ ->]]]. reflexivity.
  - rewrite (r_set_default_absent _ _ F). destruct t; reflexivity.
Qed.

(* DELETE FROM certificates WHERE certificate_name=? *)
Lemma abs_delete_cert cn :
  abs_tables (mkT (t_ids t) (t_keys t) (r_delete_name cn (t_certs t))) tp = s_remove_cert cn (abs_tables t tp).
Proof.
  set (t' := mkT (t_ids t) (t_keys t) (r_delete_name cn (t_certs t))).
  assert (Hk : forall k, abs_key t' k = mkSK (sk_bits (abs_key t k)) (ndel (sk_certs (abs_key t k)) cn)
                                             (clear_default (sk_defcert (abs_key t k)) cn)).
  { intros k. unfold abs_key. cbn [t_certs t' sk_bits sk_certs sk_defcert]. f_equal.
    - apply scope_map_delete_name. apply W.
    - apply scope_defname_delete_name. apply W. }
  assert (Hfree : forall k, In k (t_keys t) -> r_name k <> drop2 cn -> abs_key t' k = abs_key t k).
  { intros k Hk' Nk. rewrite Hk. unfold abs_key. cbn [sk_bits sk_certs sk_defcert].
    destruct (scope_remove_absent r_val (r_id k) (t_certs t) cn) as [-> ->]; [|reflexivity].
    intros Hin. apply v_iter_in in Hin. destruct Hin as [c [Hc [Nc Pc]]].
    destruct (wf_cname _ W _ _ Hc Hk' (eq_sym Pc)) as [Dn _]. apply Nk. rewrite <- Dn, Nc. reflexivity. }
  unfold s_remove_cert. destruct (r_find (drop2 cn) (t_keys t)) as [k0|] eqn:F.
  - pose proof (r_find_some _ _ _ F) as [Hk0 Nk0]. rewrite <- Nk0. apply abs_upd_key; auto.
    intros k Hk'. destruct (N.eqb_spec (r_id k0) (r_id k)) as [E | NE]; [apply Hk|].
    apply Hfree; [assumption|]. intros E. apply NE. f_equal.
    eapply name_inj; [apply (wf_k _ W) | assumption | assumption | congruence].
  - (* no such key: nothing changes on either side *)
    unfold upd_key, upd_ident. pose proof (s_key_find (drop2 cn)) as Sk. rewrite F in Sk. unfold s_key in Sk.
    assert (Hsame : abs_tables t' tp = abs_tables t tp).
    { unfold abs_tables. cbn [t_ids t_keys t']. f_equal. apply scope_map_ext. intros i Hi _.
      unfold abs_ident. cbn [t_keys t']. f_equal. apply scope_map_ext. intros k Hk' _. apply Hfree; [assumption|].
      intros E. apply r_find_none in F. apply F. rewrite <- E. apply in_map. assumption. }
    rewrite Hsame. destruct (s_ident (abs_tables t tp) (drop2 (drop2 cn))) as [i|] eqn:Si; [|reflexivity].
    cbn [obind option_map] in Sk. rewrite Sk. unfold s_ident in Si. rewrite (al_set_same name_eqb name_eqb_eq _ _ _ Si).
    destruct (abs_tables t tp); reflexivity.
Qed.

Lemma abs_delete_key k0 kn :
  In k0 (t_keys t) -> r_name k0 = kn ->
  abs_tables (del_key_db k0 kn t) (ndel tp kn) = s_remove_key kn (abs_tables t tp).
Proof.
  intros Hk0 Nk0. unfold s_remove_key. set (t' := del_key_db k0 kn t).
  destruct (key_owner _ _ W Hk0) as [i0 [Hi0 [Ei0 [Ni0 _]]]]. rewrite Nk0 in Ni0.
  assert (Hkey : forall k, In k (t_keys t) -> k <> k0 -> abs_key t' k = abs_key t k).
  { intros k Hk Nk. unfold abs_key. cbn [t_certs t' del_key_db].
    rewrite scope_map_delete_scope, scope_defname_delete_scope by apply W.
    rewrite (eqb_id_false _ _ _ (wf_k _ W) Hk Hk0 Nk). reflexivity. }
  assert (Hi : forall i, abs_ident t' i =
                        mkSI (ndel (si_keys (abs_ident t i)) kn) (clear_default (si_defkey (abs_ident t i)) kn)).
  { intros i. unfold abs_ident. cbn [t_keys t' del_key_db si_keys si_defkey]. f_equal.
    - rewrite <- (scope_map_delete_name (abs_key t)) by apply W. apply scope_map_ext.
      intros k Hk _. apply r_delete_name_in in Hk. destruct Hk as [Hk Nk]. apply Hkey; [assumption|]. intros ->. contradiction.
    - apply scope_defname_delete_name. apply W. }
  rewrite <- Ni0, <- (abs_upd_ident t' i0 _ eq_refl Hi0); [reflexivity|].
  intros i Hi'. rewrite Hi. destruct (N.eqb_spec (r_id i0) (r_id i)) as [E | NE]; [reflexivity|].
  (* another identity does not list the key *)
  unfold abs_ident. cbn [si_keys si_defkey].
  destruct (scope_remove_absent (abs_key t) (r_id i) (t_keys t) kn) as [-> ->]; [|reflexivity].
  intros Hin. apply v_iter_in in Hin. destruct Hin as [k [Hk [Nk Pk]]].
  assert (k = k0) by (eapply name_inj; [apply (wf_k _ W) | assumption | assumption | congruence]). subst k. congruence.
Qed.
End WfTables.
