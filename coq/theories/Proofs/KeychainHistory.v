(* Whole histories: facts of the tables any history ends in, and corollaries of the per-operation theorems. *)
From NDN Require Import Base.Prelude Model.Keychain Spec.KeychainSpec.
From NDN Require Import Proofs.KeychainTables Proofs.KeychainInv Proofs.KeychainOutcome
  Proofs.KeychainInvariant Proofs.KeychainAbs Proofs.KeychainDefaults Proofs.KeychainCascade Proofs.KeychainRefine.
Local Open Scope N_scope.

(* [sel] is one of the three tables: a statement over it is three statements *)
Lemma sel_wf (sel : tables -> rows) t : (sel = t_ids \/ sel = t_keys \/ sel = t_certs) -> wf_tables t -> wf_rows (sel t).
Proof. intros [-> | [-> | ->]] W; apply W. Qed.

Lemma one_default_wf t (sel : tables -> rows) :
  wf_tables t -> (sel = t_ids \/ sel = t_keys \/ sel = t_certs) ->
  forall a b, In a (sel t) -> In b (sel t) -> r_def a = true -> r_def b = true -> r_par a = r_par b -> a = b.
Proof.
  intros W S a b Ha Hb Da Db P. pose proof (sel_wf sel _ S W) as Wr.
  eapply id_inj; eauto. apply (wr_onedef _ Wr); assumption.
Qed.

Lemma views_consistent_wf t :
  wf_tables t ->
  view_consistent 0 (t_ids t) /\
  (forall i, In i (t_ids t) -> view_consistent (r_id i) (t_keys t)) /\
  (forall k, In k (t_keys t) -> view_consistent (r_id k) (t_certs t)) /\
  (forall n p q, In n (v_iter p (t_keys t)) -> In n (v_iter q (t_keys t)) -> p = q) /\
  (forall n p q, In n (v_iter p (t_certs t)) -> In n (v_iter q (t_certs t)) -> p = q).
Proof.
  intros Wt.
  split; [apply view_consistent_wf; apply Wt|].
  split; [intros; apply view_consistent_wf; apply Wt|].
  split; [intros; apply view_consistent_wf; apply Wt|].
  split; intros n p q; apply v_iter_scoped; apply Wt.
Qed.

Lemma defaults_history_all (sel : tables -> rows) h p :
  (sel = t_ids \/ sel = t_keys \/ sel = t_certs) -> Forall (fun fo => wf_op (snd fo)) h ->
  populated p (sel (db (run h))) -> scope_has_def p (sel (db (run h))) = false ->
  exists h1 fo h2, h = h1 ++ fo :: h2 /\ lost_default (sel (db (run h1))) (sel (db (run (h1 ++ [fo])))) p.
Proof.
  intros S. apply defaults_history.
  - intros f o c I. pose proof (defaults_step f o c I) as [H1 [H2 H3]]. destruct S as [-> | [-> | ->]]; assumption.
  - destruct S as [-> | [-> | ->]]; reflexivity.
Qed.

Lemma no_signer_after_delete f kn c r c' f' a m loc c'' :
  inv c -> run_op f (ODelKey kn) c = (Ok r, c') ->
  run_op f' (OGetSigner a) c' = (Ok (RSigner (SgKey m loc)), c'') ->
  forall cn, s_select a (abs c') <> Some (kn, cn).
Proof.
  intros I R1 R2 cn Sel.
  pose proof (inv_run_op f (ODelKey kn) c _ _ I Logic.I R1) as I'.
  destruct (del_key_cascade _ _ _ _ _ I R1) as [k [_ [Nk [[Gone _] _]]]].
  rewrite Nk in Gone. pose proof (s_key_unlisted _ (tpm c') _ Gone) as Hnone. fold (abs c') in Hnone.
  pose proof (get_signer_refines _ _ _ _ _ I' R2) as S.
  destruct (signer_key_listed _ _ _ _ I' S) as [kn0 [cn0 [k0 [Sel0 [Hk0 _]]]]].
  rewrite Sel in Sel0. inversion Sel0; subst. congruence.
Qed.

Definition spec_apply (a : skc) (o : op) : skc := match spec_step o a with Some a' => a' | None => a end.
Definition spec_run (ops : list op) : skc := fold_left spec_apply ops s_empty.

Lemma step_abs o c : inv c -> wf_op o -> abs (step c (None, o)) = spec_apply (abs c) o.
Proof.
  intros I Wo. pose proof (step_refines o c I Wo) as R. unfold step, spec_apply. cbn [fst snd].
  (* get_signer is the one operation for which [refines] does not go through spec_step *)
  unfold refines in R. destruct o; try (destruct (spec_step _ (abs c)); exact (proj2 R)). exact R.
Qed.

Lemma run_refines_spec ops :
  Forall wf_op ops -> abs (run (map (fun o => (None, o)) ops)) = spec_run ops.
Proof.
  intros W. unfold run, spec_run.
  assert (G : forall c a, inv c -> abs c = a ->
                          abs (run_from c (map (fun o => (None, o)) ops)) = fold_left spec_apply ops a).
  { induction W as [|o ops Wo _ IH]; intros c a I E; cbn; [assumption|].
    apply IH; [apply inv_step; assumption|]. rewrite step_abs by assumption. rewrite E. reflexivity. }
  apply G; [apply inv_init | reflexivity].
Qed.
