(* T1/T2 tie for C14: what tools/gen_validator.py read from cascade_validator.py and
   light_versec/validator.py on this run is what the hand-written model (Model/Validator.v) hard-wires. *)
From NDN Require Import Base.Prelude Model.Validator.
From NDN Require Generated.ValidatorConsts.
Module G := Generated.ValidatorConsts.
Local Open Scope N_scope.

Lemma sigtype_agree :
  G.DIGEST_SHA256 = SIG_DIGEST /\ G.SHA256_WITH_RSA = SIG_RSA /\ G.SHA256_WITH_ECDSA = SIG_ECDSA /\
  G.HMAC_WITH_SHA256 = SIG_HMAC /\ G.ED25519 = SIG_ED25519.
Proof. repeat split; reflexivity. Qed.

(* the if/elif chain of _verify_sig computes the model's dispatch (HMAC result dropped, RSA / ECDSA / Ed25519
   returned, anything else False) — stated semantically, so that reordering the branches is not a change *)
Lemma verify_sig_branches_agree w ty k p :
  dispatch G.verify_sig_branches w ty k p = dispatch sig_branches w ty k p.
Proof.
  unfold G.verify_sig_branches, sig_branches, SIG_HMAC, SIG_RSA, SIG_ECDSA, SIG_ED25519. cbn [dispatch].
  destruct (N.eqb_spec ty 4) as [->|_]; [reflexivity|].
  destruct (N.eqb_spec ty 1) as [->|_]; [reflexivity|].
  destruct (N.eqb_spec ty 3) as [->|_]; [reflexivity|].
  destruct (N.eqb_spec ty 5) as [->|_]; reflexivity.
Qed.

(* the default `storage` argument is NOT an object created once at definition time: the model's
   [legacy = false] allocation (a fresh storage per instance) is the code's behaviour *)
Lemma default_storage_fresh :
  G.cascade_default_storage_shared = false /\ G.lvs_default_storage_shared = false.
Proof. split; reflexivity. Qed.

(* the certificate fetch: by the key-locator name, MustBeFresh, exact match, validated by next_level;
   exactly ValidationFailure / InterestTimeout / InterestNack become `return False` *)
Lemma fetch_shape :
  G.fetch_by_cert_name = true /\ G.fetch_must_be_fresh = true /\ G.fetch_can_be_prefix = false /\
  G.fetch_validated_by_next_level = true /\
  G.catches_validation_failure = true /\ G.catches_timeout = true /\ G.catches_nack = true /\
  G.catches_nothing_else = true.
Proof. repeat split; reflexivity. Qed.

(* what validations that overlap in time share is the key storage and nothing else (Model/ValidatorConc.v: the threads
   of a [cstate] have [cs_cache] in common): no other attribute is ever assigned on the instance, no class-level or
   closure state *)
Lemma instance_state : G.instance_state_is_storage_only = true.
Proof. reflexivity. Qed.

Lemma verify_sig_generated w k p :
  verify_sig w k p = match p_sig p with
                     | None => Err EAttr
                     | Some si => dispatch G.verify_sig_branches w (s_type si) k p
                     end.
Proof. unfold verify_sig. destruct (p_sig p); [symmetry; apply verify_sig_branches_agree | reflexivity]. Qed.
