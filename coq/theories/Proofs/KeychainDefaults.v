(* Defaults: at most one per scope is part of the invariant (wf_rows); here: a populated scope is left
   without default only by deleting its default — per statement, per operation (with any injected failure),
   and over whole histories. *)
From NDN Require Import Base.Prelude Model.Keychain Spec.KeychainSpec.
From NDN Require Import Proofs.KeychainTables Proofs.KeychainInv Proofs.KeychainOutcome Proofs.KeychainInvariant.
Local Open Scope N_scope.

Definition populated (p : N) (l : rows) : Prop := exists r, In r l /\ r_par r = p.
Definition lost_default (l l' : rows) (p : N) : Prop :=
  exists d, scope_default p l = Some d /\ ~ In (r_id d) (map r_id l').
Definition def_step (l l' : rows) : Prop :=
  forall p, populated p l' -> scope_has_def p l' = false ->
            (populated p l /\ scope_has_def p l = false) \/ lost_default l l' p.

Definition grow (l l' : rows) : Prop :=
  forall p, populated p l' -> scope_has_def p l' = false -> populated p l /\ scope_has_def p l = false.
Definition shrink (l l' : rows) : Prop := exists f, l' = filter f l.

Lemma grow_refl l : grow l l. Proof. red. auto. Qed.
Lemma grow_trans a b c : grow a b -> grow b c -> grow a c.
Proof. intros H1 H2 p P D. destruct (H2 p P D). auto. Qed.
Lemma shrink_refl l : shrink l l.
Proof. exists (fun _ => true). symmetry. apply filter_all. auto. Qed.
Lemma shrink_in l l' x : shrink l l' -> In x l' -> In x l.
Proof. intros [f ->] H. apply filter_In in H. tauto. Qed.
Lemma shrink_trans a b c : shrink a b -> shrink b c -> shrink a c.
Proof. intros [f ->] [g ->]. eexists. apply filter_filter. Qed.

Lemma grow_insert p n v l l' : r_insert p n v l = Ok l' -> grow l l'.
Proof.
  intros E q [r [Hr Pr]] D. destruct (N.eq_dec q p) as [-> | NE].
  - rewrite (r_insert_has_default _ _ _ _ _ E) in D. discriminate.
  - rewrite (r_insert_other_scope _ _ _ _ _ _ E NE) in D. split; [|assumption].
    destruct (r_insert_new _ _ _ _ _ E) as [x [_ [_ [Px [_ [_ Hall]]]]]].
    destruct (Hall _ Hr) as [Hr' | ->]; [exists r; auto | congruence].
Qed.
Lemma grow_set_default n l : grow l (r_set_default n l).
Proof.
  intros q [r [Hr Pr]] D. split.
  - destruct (proj1 (r_set_default_sim n l) _ Hr) as [x [Hx [_ [Px _]]]]. exists x. split; [assumption | congruence].
  - destruct (scope_has_def q l) eqn:E; [|reflexivity]. rewrite (r_set_default_scope_has _ n _ E) in D. discriminate.
Qed.

Lemma grow_def_step l l' : grow l l' -> def_step l l'.
Proof. intros G p P D. left. apply G; assumption. Qed.
Lemma shrink_def_step l l' : wf_rows l -> shrink l l' -> def_step l l'.
Proof.
  intros W [f ->] p [r [Hr Pr]] D. apply filter_In in Hr. destruct Hr as [Hr Fr].
  destruct (scope_default p l) as [d|] eqn:E.
  - right. exists d. split; [exact E|]. intros Hin. apply in_map_iff in Hin. destruct Hin as [y [Ey Hy]].
    pose proof (scope_default_some _ _ _ E) as [Hd [Dd Pd]].
    assert (y = d). { apply filter_In in Hy. eapply id_inj; eauto. tauto. } subst y.
    assert (scope_has_def p (filter f l) = true) by (apply scope_has_def_true; eauto). congruence.
  - left. split; [exists r; auto | apply scope_default_none; assumption].
Qed.

Definition tbl_step (l l' : rows) : Prop := grow l l' \/ shrink l l'.
Definition tables_step (t t' : tables) : Prop :=
  tbl_step (t_ids t) (t_ids t') /\ tbl_step (t_keys t) (t_keys t') /\ tbl_step (t_certs t) (t_certs t').
Definition tables_shrink (t t' : tables) : Prop :=
  shrink (t_ids t) (t_ids t') /\ shrink (t_keys t) (t_keys t') /\ shrink (t_certs t) (t_certs t').

Lemma tbl_step_refl l : tbl_step l l. Proof. left. apply grow_refl. Qed.
Lemma tables_step_refl t : tables_step t t. Proof. repeat split; apply tbl_step_refl. Qed.
Lemma tables_shrink_refl t : tables_shrink t t. Proof. repeat split; apply shrink_refl. Qed.
Lemma tables_shrink_trans a b c : tables_shrink a b -> tables_shrink b c -> tables_shrink a c.
Proof. intros [A1 [A2 A3]] [B1 [B2 B3]]. repeat split; eapply shrink_trans; eassumption. Qed.
Lemma tables_shrink_step a b : tables_shrink a b -> tables_step a b.
Proof. intros [A1 [A2 A3]]. repeat split; right; assumption. Qed.

Lemma step_insert_identity n t t' : sql_insert_identity n t = Ok t' -> tables_step t t'.
Proof.
  intros H. apply sql_insert_identity_ok in H. destruct H as [l [E ->]].
  repeat split; cbn; try apply tbl_step_refl. left. eapply grow_insert; eassumption.
Qed.
Lemma grow_new_key_db i kn m v t t2 :
  new_key_db i kn m v t = Ok t2 -> grow (t_keys t) (t_keys t2) /\ grow (t_certs t) (t_certs t2).
Proof.
  intros E. apply new_key_db_ok in E. destruct E as [lk [k [lc [R [_ [Rc ->]]]]]].
  split; eapply grow_insert; eassumption.
Qed.
Lemma op_txn_step o fn fin t t' : op_txn o = Some (fn, fin) -> fn t = Ok t' -> tables_step t t'.
Proof.
  intros T E. destruct o; try discriminate; injection T as <- <-.
  1:{ (* import_cert *) apply sql_insert_cert_ok in E. destruct E as [k [l [_ [E ->]]]].
      repeat split; cbn; try apply tbl_step_refl. left. eapply grow_insert; eassumption. }
  (* the others rewrite one table in place: that table is what is left to show *)
  all: injection E as <-; repeat split; cbn; try apply tbl_step_refl.
  - (* set_default_identity *) left. apply grow_set_default.
  - (* set_default_key *) left. apply grow_set_default.
  - (* set_default_cert *) left. apply grow_set_default.
  - (* del_cert *) right. eexists. reflexivity.
  - (* Key.del_cert *) right. eexists. reflexivity.
Qed.
Lemma tables_shrink_del_key_db k kn t : tables_shrink t (del_key_db k kn t).
Proof. repeat split; cbn; [apply shrink_refl | eexists; reflexivity | eexists; reflexivity]. Qed.
Lemma op_txn_fin_db o fn fin c : op_txn o = Some (fn, fin) -> db (fin c) = db c.
Proof. destruct o; try discriminate; intros [= <- <-]; reflexivity. Qed.

Section Step.
  Variable F : Prop.

  Lemma shrink_del_key kn c x : out_del_key F kn c x -> tables_shrink (db c) (db (snd x)).
  Proof.
    intros H. apply out_del_key_cases in H. destruct (key_lookup kn (db c)) as [k|]; [|subst; apply tables_shrink_refl].
    destruct H as [-> | [_ [-> | ->]]]; cbn; try apply tables_shrink_refl. apply tables_shrink_del_key_db.
  Qed.
  Lemma shrink_del_ident n i ks c x : at_loop n i ks c -> del_ident_out F n ks c x -> tables_shrink (db c) (db (snd x)).
  Proof.
    intros A H. pattern ks, c, x. revert A H. apply del_ident_loop; cbn [snd].
    - intros c0 _. repeat split; cbn; [eexists; reflexivity | apply shrink_refl | apply shrink_refl].
    - intros. apply tables_shrink_refl.
    - intros k ks0 c0 kr e c' _ _. apply (shrink_del_key _ _ (Err e, c')).
    - intros k ks0 c0 kr x0 _ _. apply tables_shrink_trans. apply tables_shrink_del_key_db.
  Qed.

  Lemma step_out_touch n cands m v c x : out_touch F n cands m v c x -> tables_step (db c) (db (snd x)).
  Proof.
    intros H. destruct (out_touch_cases _ _ _ _ _ _ _ H)
      as [[e ->] | [[i [_ ->]] | [[t' [i [E [_ ->]]]] | [t1 [i [kn [t3 [r [_ [E1 [_ [_ [E3 ->]]]]]]]]]]]]]; cbn [snd db commit_db];
      try apply tables_step_refl.
    - injection E as <-. repeat split; cbn; try apply tbl_step_refl. left. apply grow_set_default.
    - destruct (grow_new_key_db _ _ _ _ _ _ E3) as [Gk Gc]. destruct (step_insert_identity _ _ _ E1) as [Si _].
      apply sql_insert_identity_ok in E1. destruct E1 as [l [_ ->]].
      repeat split; [rewrite (new_key_db_ids _ _ _ _ _ _ E3); exact Si | left; assumption | left; assumption].
  Qed.
  Lemma step_out_new_key idn ktype ks m v c x :
    inv c -> out_new_key F idn ktype ks m v c x -> tables_step (db c) (db (snd x)).
  Proof.
    intros I H. destruct (out_new_key_cases _ _ _ _ _ _ _ _ (inv_clean _ I) H)
      as [[e ->] | [i [kn [t2 [k [_ [_ [E [_ ->]]]]]]]]]; [apply tables_step_refl|]. cbn.
    destruct (grow_new_key_db _ _ _ _ _ _ E) as [Gk Gc].
    repeat split; [rewrite (new_key_db_ids _ _ _ _ _ _ E); apply tbl_step_refl | left; assumption | left; assumption].
  Qed.

  Theorem outs_tables_step o c x : inv c -> outs F o c x -> tables_step (db c) (db (snd x)).
  Proof.
    intros I H0. destruct (outs_cases _ _ _ _ H0) as [[e ->] | H]; [apply tables_step_refl|]. clear H0.
    destruct (op_txn o) as [[fn fin]|] eqn:T.
    { destruct H as [[t [E ->]] | [[e [E ->]] | [_ ->]]]; cbn [snd]; try apply tables_step_refl.
      rewrite (op_txn_fin_db _ _ _ _ T). apply (op_txn_step _ _ _ _ _ T E). }
    destruct o; try discriminate T; cbn [outs] in H.
    - (* new_identity *)
      destruct (out_new_identity_cases _ _ _ _ H) as [[e ->] | [t1 [i [E [_ ->]]]]]; [apply tables_step_refl|].
      cbn. eapply step_insert_identity; eassumption.
    - (* touch_identity *) eapply step_out_touch; eassumption.
    - (* new_key *) eapply step_out_new_key; eassumption.
    - (* del_key *) apply tables_shrink_step. eapply shrink_del_key; eassumption.
    - (* del_identity *)
      destruct (out_del_identity_loop _ _ _ _ I H) as [[e [_ ->]] | [i [ks [A D]]]]; [apply tables_step_refl|].
      apply tables_shrink_step. exact (shrink_del_ident _ _ _ _ _ A D).
    - (* Identity.del_key *) apply tables_shrink_step. eapply shrink_del_key; eassumption.
    - (* get_signer *) destruct (out_get_signer_cases _ _ _ _ H) as [[r ->] | [kn [loc [m [_ ->]]]]]; apply tables_step_refl.
    - (* reopen *) subst x. cbn. rewrite (inv_clean _ I). apply tables_step_refl.
  Qed.
End Step.

Lemma tbl_step_def l l' : wf_rows l -> tbl_step l l' -> def_step l l'.
Proof. intros W [G | S]; [apply grow_def_step | apply shrink_def_step]; assumption. Qed.

Theorem defaults_step f o c :
  inv c ->
  let c' := step c (f, o) in
  def_step (t_ids (db c)) (t_ids (db c')) /\ def_step (t_keys (db c)) (t_keys (db c')) /\
  def_step (t_certs (db c)) (t_certs (db c')).
Proof.
  intros I. cbn zeta. unfold step. cbn [fst snd].
  pose proof (run_op_outs_inv f o c I) as H.
  apply (outs_tables_step _ _ _ _ I) in H. destruct H as [H1 [H2 H3]].
  repeat split; apply tbl_step_def; auto; apply (inv_wf _ I).
Qed.

Lemma run_snoc h fo : run (h ++ [fo]) = step (run h) fo.
Proof. unfold run, run_from. rewrite fold_left_app. reflexivity. Qed.

Theorem defaults_history (sel : tables -> rows) :
  (forall f o c, inv c -> def_step (sel (db c)) (sel (db (step c (f, o))))) ->
  sel empty_tables = [] ->
  forall h p, Forall (fun fo => wf_op (snd fo)) h ->
    populated p (sel (db (run h))) -> scope_has_def p (sel (db (run h))) = false ->
    exists h1 fo h2, h = h1 ++ fo :: h2 /\ lost_default (sel (db (run h1))) (sel (db (run (h1 ++ [fo])))) p.
Proof.
  intros Hstep Hemp h p. induction h as [|fo h IH] using rev_ind; intros W P D.
  - unfold run, run_from in P. cbn in P. rewrite Hemp in P. destruct P as [r [[] _]].
  - apply Forall_app in W. destruct W as [Wh Wfo]. rewrite run_snoc in P, D.
    destruct fo as [f o]. destruct (Hstep f o (run h) (inv_run h Wh) p P D) as [[P' D'] | L].
    + destruct (IH Wh P' D') as [h1 [fo' [h2 [-> L]]]]. exists h1, fo', (h2 ++ [(f, o)]).
      split; [rewrite <- app_assoc; reflexivity | assumption].
    + exists h, (f, o), []. split; [reflexivity|]. rewrite run_snoc. assumption.
Qed.
