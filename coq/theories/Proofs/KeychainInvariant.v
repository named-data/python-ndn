(* The state invariant and its preservation by every operation under every injected failure,
   hence over every history.  del_identity's loop is read through its invariant [at_loop] and the induction
   [del_ident_loop] that carries it, here and in the files on defaults, cascades and refinement.  Then fault
   recovery: an operation that raised leaves a state that satisfies the invariant, and repeating the operation
   gives exactly the result and the state of a run that never failed. *)
From NDN Require Import Base.Prelude Model.Keychain Spec.KeychainSpec.
From NDN Require Import Proofs.KeychainTables Proofs.KeychainHoare Proofs.KeychainInv Proofs.KeychainOutcome.
Local Open Scope N_scope.

(* every private key belongs to a listed key whose stored public bits are those of that private key; not conversely:
   a del_key that failed after removing the private key has left the key listed (third case of [out_del_key]) *)
Definition tpm_sub (t : tables) (tp : list (name * N)) : Prop :=
  forall K m, al_get name_eqb tp K = Some m -> exists k, In k (t_keys t) /\ r_name k = K /\ r_val k = m.
(* a cached signer is the one the private-key store would hand out now *)
Definition cache_ok (c : cst) : Prop :=
  forall K loc g, al_get ckey_eqb (cache c) (K, loc) = Some g ->
                  exists m, al_get name_eqb (tpm c) K = Some m /\ g = SgKey m loc.

Record inv (c : cst) : Prop := mkInv {
  inv_wf : wf_tables (db c);
  inv_clean : disk c = db c;                    (* no transaction is left open *)
  inv_nd : NoDup (map fst (tpm c));
  inv_sub : tpm_sub (db c) (tpm c);
  inv_cache : cache_ok c
}.

Lemma inv_init : inv init_core.
Proof.
  constructor; cbn; try constructor; try apply wf_empty.
  - intros K m H. discriminate.
  - intros K loc g H. discriminate.
Qed.

Lemma run_op_outs_inv f o c : inv c -> outs (f <> None) o c (run_op f o c).
Proof. intros I. apply run_op_outs; apply I. Qed.
Lemma run_op_outs_none o c : inv c -> outs False o c (run_op None o c).
Proof. intros I. apply run_op_outs_gen; [intros N; apply N; reflexivity | apply I..]. Qed.

Definition keys_kept (t t' : tables) : Prop :=
  forall k, In k (t_keys t) -> exists k', In k' (t_keys t') /\ r_name k' = r_name k /\ r_val k' = r_val k.
Lemma keys_kept_same t t' : t_keys t' = t_keys t -> keys_kept t t'.
Proof. intros E k Hk. exists k. rewrite E. auto. Qed.
Lemma keys_kept_sim t t' : rows_sim (t_keys t) (t_keys t') -> keys_kept t t'.
Proof. intros [_ S] k Hk. destruct (S _ Hk) as [y [Hy [_ [_ [En Ev]]]]]. exists y. auto. Qed.
Lemma tpm_sub_kept t t' tp : keys_kept t t' -> tpm_sub t tp -> tpm_sub t' tp.
Proof.
  intros K S n m H. destruct (S _ _ H) as [k [Hk [En Ev]]]. destruct (K _ Hk) as [k' [Hk' [En' Ev']]].
  exists k'. repeat split; congruence.
Qed.
(* [al_del] takes out the first entry of that name; [inv_nd] is in the invariant so that the name is then gone *)
Lemma tpm_sub_del t t' tp kn :
  NoDup (map fst tp) -> tpm_sub t tp -> (forall k, In k (t_keys t) -> r_name k <> kn -> In k (t_keys t')) ->
  tpm_sub t' (al_del name_eqb tp kn).
Proof.
  intros ND S Hk K m H. destruct (list_eq_dec N.eq_dec K kn) as [-> | NE].
  - rewrite (al_get_del_eq name_eqb name_eqb_eq) in H by assumption. discriminate.
  - rewrite (al_get_del_neq name_eqb name_eqb_eq) in H by assumption.
    destruct (S _ _ H) as [k [Hk0 [N0 V0]]]. exists k. repeat split; auto. apply Hk; congruence.
Qed.

Lemma inv_commit_db t c : inv c -> wf_tables t -> keys_kept (db c) t -> inv (commit_db t c).
Proof.
  intros I W K. constructor; cbn; auto; try apply I.
  eapply tpm_sub_kept; [eassumption | apply I].
Qed.
Lemma inv_set_cache_nil c : inv c -> inv (set_cache [] c).
Proof. intros [W Cl ND S _]. constructor; auto. intros K loc g H. discriminate. Qed.

Lemma op_txn_wf o fn fin t t' :
  op_txn o = Some (fn, fin) -> wf_op o -> wf_tables t -> fn t = Ok t' -> wf_tables t' /\ keys_kept t t'.
Proof.
  intros T Wo W E. destruct o; try discriminate; injection T as <- <-.
  - (* import_cert *) destruct Wo as [Dn Ln]. split; [eapply wf_insert_cert; eassumption|].
    apply sql_insert_cert_ok in E. destruct E as [k [l [_ [_ ->]]]]. apply keys_kept_same. reflexivity.
  - (* set_default_identity *)
    split; [eapply wf_default_identity; eassumption|]. injection E as <-. apply keys_kept_same. reflexivity.
  - (* set_default_key: the one statement that rewrites the keys table, flags only *)
    split; [eapply wf_default_key; eassumption|]. injection E as <-. apply keys_kept_sim, r_set_default_sim.
  - (* set_default_cert *)
    split; [eapply wf_default_cert; eassumption|]. injection E as <-. apply keys_kept_same. reflexivity.
  - (* del_cert *) split; [eapply wf_delete_cert; eassumption|]. injection E as <-. apply keys_kept_same. reflexivity.
  - (* Key.del_cert *) split; [eapply wf_delete_cert; eassumption|]. injection E as <-. apply keys_kept_same. reflexivity.
Qed.
Lemma op_txn_fin o fn fin c : op_txn o = Some (fn, fin) -> inv c -> inv (fin c).
Proof. destruct o; try discriminate; intros [= <- <-]; auto using inv_set_cache_nil. Qed.

Lemma new_key_db_wf i kn m v t t2 :
  wf_tables t -> In i (t_ids t) -> drop2 kn = r_name i -> (2 <= length kn)%nat -> new_key_db i kn m v t = Ok t2 ->
  wf_tables t2 /\ keys_kept t t2.
Proof.
  intros W Hi Dn Ln E. split.
  - unfold new_key_db in E. destruct (sql_insert_key (r_id i) kn m t) as [t1|] eqn:E1; [|discriminate].
    eapply wf_insert_cert; [eapply wf_insert_key; eassumption | apply drop2_app2 | rewrite app_length; cbn; lia | exact E].
  - apply new_key_db_ok in E. destruct E as [lk [k [lc [R [_ [_ ->]]]]]].
    intros k0 Hk0. exists k0. split; [eapply r_insert_in; eassumption | auto].
Qed.

(* the state after new_key, from the connection's tables t (those of c, or with touch_identity's INSERT on top) *)
Lemma inv_new_key_done c idn kt ks i kn m v t t2 :
  inv c -> wf_tables t -> keys_kept (db c) t -> kc_get idn t = Ok i -> new_key_name idn kt ks (tpm c) = Ok kn ->
  new_key_db i kn m v t = Ok t2 ->
  inv (mkC t2 t2 (al_set name_eqb (tpm c) kn m) (cache c)).
Proof.
  intros I W K G Nn E. apply kc_get_ok in G. destruct G as [Hi Ni].
  destruct (new_key_name_drop2 _ _ _ _ _ Nn) as [Dn Ln]. rewrite <- Ni in Dn.
  destruct (new_key_name_ok _ _ _ _ _ Nn) as [_ Ex]. destruct (new_key_db_wf _ _ _ _ _ _ W Hi Dn Ln E) as [W2 K2].
  destruct (new_key_db_get _ _ _ _ _ _ W E) as [k [Gk [Nk Vk]]].
  constructor; cbn; auto.
  - apply al_set_nodup; [apply name_eqb_eq | apply I].
  - intros K0 m0 H. destruct (list_eq_dec N.eq_dec K0 kn) as [-> | NE].
    + rewrite (al_get_set_eq name_eqb name_eqb_eq) in H. injection H as <-.
      apply id_get_ok in Gk. exists k. tauto.
    + rewrite (al_get_set_neq name_eqb name_eqb_eq) in H by assumption.
      exact (tpm_sub_kept _ _ _ K2 (tpm_sub_kept _ _ _ K (inv_sub _ I)) _ _ H).
  - intros K0 loc g H. cbn in H. destruct (inv_cache _ I _ _ _ H) as [m0 [Hm0 ->]]. exists m0. split; [|reflexivity].
    cbn. rewrite (al_get_set_neq name_eqb name_eqb_eq); [assumption|]. intros ->. congruence.
Qed.

Lemma del_key_db_wf k kn t : wf_tables t -> In k (t_keys t) -> r_name k = kn -> wf_tables (del_key_db k kn t).
Proof.
  intros W Hk Nk. unfold del_key_db.
  pose proof (wf_delete_certs (fun r => negb (in_scope (r_id k) r)) t W) as W1.
  eapply (wf_delete_key kn _ _ W1); [|reflexivity].
  cbn. intros k0 c0 Hk0 Nk0 Hc0 E. assert (k0 = k) by (apply (name_inj _ _ _ (wf_k _ W)); auto; congruence). subst k0.
  apply filter_In in Hc0. destruct Hc0 as [_ Hc0]. apply negb_true_iff, in_scope_false in Hc0. contradiction.
Qed.

Lemma inv_tpm_del c kn : inv c -> inv (set_tpm (al_del name_eqb (tpm c) kn) (set_cache [] c)).
Proof.
  intros I. constructor; cbn; try apply I.
  - apply al_del_nodup. apply I.
  - apply (tpm_sub_del (db c)); auto; apply I.
  - intros K loc g H. discriminate.
Qed.
Lemma inv_del_key_done c k kn : inv c -> In k (t_keys (db c)) -> r_name k = kn -> inv (del_key_done k kn c).
Proof.
  intros I Hk Nk. constructor; cbn; auto.
  - apply del_key_db_wf; auto. apply I.
  - apply al_del_nodup. apply I.
  - apply (tpm_sub_del (db c)); try apply I. intros k0 Hk0 N0. apply r_delete_name_in. auto.
  - intros K loc g H. discriminate.
Qed.

Section Loop.
  Variables (F : Prop) (n : name) (i : row).

  (* The invariant of del_identity's loop, with [ks] still to delete: the state invariant holds (every del_key so far has
     committed), the identity is still found, and the keys it still lists are exactly [ks]. *)
  Definition at_loop (ks : list name) (c : cst) : Prop :=
    inv c /\ kc_get n (db c) = Ok i /\ v_iter (r_id i) (t_keys (db c)) = ks.

  Variable P : list name -> cst -> outcome -> Prop.
  Hypothesis P_done : forall c, at_loop [] c ->
    P [] c (Ok RNone, set_cache [] (commit_db (mkT (r_delete_name n (t_ids (db c))) (t_keys (db c)) (t_certs (db c))) c)).
  Hypothesis P_fault : forall c, at_loop [] c -> F -> P [] c (Err EFault, c).
  Hypothesis P_err : forall k ks c kr e c', at_loop (k :: ks) c -> key_lookup k (db c) = Ok kr ->
    out_del_key F k c (Err e, c') -> P (k :: ks) c (Err e, c').
  Hypothesis P_step : forall k ks c kr x, at_loop (k :: ks) c -> key_lookup k (db c) = Ok kr ->
    P ks (del_key_done kr k c) x -> P (k :: ks) c x.

  (* induction over the loop that carries its invariant: a listed key is found, and a del_key that succeeds leaves the
     invariant with the rest of the listing *)
  Lemma del_ident_loop ks c x : at_loop ks c -> del_ident_out F n ks c x -> P ks c x.
  Proof.
    intros A H. revert A. induction H as [c t' Ed | c HF | k ks c e c' Hout | k ks c c' x Hout Hrest IH]; intros A.
    - injection Ed as <-. apply P_done, A.
    - apply P_fault; assumption.
    - destruct A as [I [G E]]. destruct (listed_key_lookup _ (r_id i) k (inv_wf _ I)) as [kr L]; [rewrite E; left; reflexivity|].
      apply (P_err k ks c kr e c' (conj I (conj G E)) L Hout).
    - destruct (out_del_key_ok _ _ _ _ _ Hout) as [kr [L [_ ->]]]. apply (P_step k ks c kr x A L). apply IH.
      destruct A as [I [G E]]. pose proof (key_lookup_ok _ _ _ L) as [Hk Nk]. split; [|split].
      + apply inv_del_key_done; assumption.
      + exact G.
      + cbn. apply v_iter_delete_head; [apply I | exact E].
  Qed.
End Loop.

Lemma out_del_identity_at F n i ks c x : at_loop n i ks c -> out_del_identity F n c x <-> del_ident_out F n ks c x.
Proof. intros [_ [G E]]. unfold out_del_identity. rewrite G, E. reflexivity. Qed.
Lemma out_del_identity_loop F n c x :
  inv c -> out_del_identity F n c x ->
  (exists e, kc_get n (db c) = Err e /\ x = (Err e, c)) \/ exists i ks, at_loop n i ks c /\ del_ident_out F n ks c x.
Proof.
  intros I H. unfold out_del_identity in H. destruct (kc_get n (db c)) as [i|e] eqn:G; [|eauto].
  right. exists i, (v_iter (r_id i) (t_keys (db c))). split; [exact (conj I (conj G eq_refl)) | exact H].
Qed.

Section Pres.
  Variable F : Prop.

  Lemma inv_out_txn1 fn fin c x :
    inv c ->
    (forall t, fn (db c) = Ok t -> wf_tables t /\ keys_kept (db c) t) ->
    (forall c', inv c' -> inv (fin c')) ->
    out_txn1 F fn fin c x -> inv (snd x).
  Proof.
    intros I Hfn Hfin [[t [E ->]] | [[e [E ->]] | [_ ->]]]; cbn; auto.
    destruct (Hfn _ E). apply Hfin. apply inv_commit_db; auto.
  Qed.

  Lemma inv_out_new_key idn kt ks m v c x : inv c -> out_new_key F idn kt ks m v c x -> inv (snd x).
  Proof.
    intros I H.
    destruct (out_new_key_cases _ _ _ _ _ _ _ _ (inv_clean _ I) H) as [[e ->] | [i [kn [t2 [k [G [Nn [E [_ ->]]]]]]]]]; [assumption|].
    exact (inv_new_key_done c _ _ _ i kn m v (db c) t2 I (inv_wf _ I) (keys_kept_same _ _ eq_refl) G Nn E).
  Qed.

  Lemma inv_out_touch n cs m v c x : inv c -> out_touch F n cs m v c x -> inv (snd x).
  Proof.
    intros I H. destruct (out_touch_cases _ _ _ _ _ _ _ H)
      as [[e ->] | [[i [_ ->]] | [[t' [i [E [_ ->]]]] | [t1 [i [kn [t3 [r [_ [E1 [G [Nn [E3 ->]]]]]]]]]]]]]; cbn [snd]; try assumption.
    - apply inv_commit_db; [assumption | exact (wf_default_identity _ _ _ (inv_wf _ I) E)|].
      injection E as <-. apply keys_kept_same. reflexivity.
    - exact (inv_new_key_done c _ _ _ i kn m v t1 t3 I (wf_insert_identity _ _ _ (inv_wf _ I) E1)
               (keys_kept_same _ _ (insert_identity_keys _ _ _ E1)) G Nn E3).
  Qed.

  Lemma inv_out_del_key kn c x : inv c -> out_del_key F kn c x -> inv (snd x).
  Proof.
    intros I H. apply out_del_key_cases in H. destruct (key_lookup kn (db c)) as [k|] eqn:L; [|subst; assumption].
    apply key_lookup_ok in L. destruct L as [Hk Nk]. destruct H as [-> | [_ [-> | ->]]]; cbn [snd].
    - apply inv_del_key_done; auto.
    - apply inv_set_cache_nil. assumption.
    - apply inv_tpm_del. assumption.
  Qed.

  Lemma inv_del_ident n i ks c x : at_loop n i ks c -> del_ident_out F n ks c x -> inv (snd x).
  Proof.
    intros A H. pattern ks, c, x. revert A H. apply del_ident_loop; cbn [snd].
    - intros c0 [I [G E]]. apply inv_set_cache_nil, inv_commit_db; [assumption | | apply keys_kept_same; reflexivity].
      eapply wf_delete_identity; [apply I | | reflexivity].
      intros i0 k0 Hi0 Ni0 Hk0 Ep. apply kc_get_ok in G. destruct G as [Hi Ni].
      assert (i0 = i) by (apply (name_inj _ _ _ (wf_i _ (inv_wf _ I))); auto; congruence). subst i0.
      assert (H : In (r_name k0) (v_iter (r_id i) (t_keys (db c0)))) by (apply v_iter_in; eauto).
      rewrite E in H. contradiction.
    - intros c0 A _. apply A.
    - intros k ks0 c0 kr e c' [I _] _. apply (inv_out_del_key _ _ (Err e, c') I).
    - auto.
  Qed.

  Lemma inv_out_get_signer a c x : inv c -> out_get_signer F a c x -> inv (snd x).
  Proof.
    intros I H. destruct (out_get_signer_cases _ _ _ _ H) as [[r ->] | [kn [loc [m [Em ->]]]]]; [assumption|].
    constructor; cbn; try apply I. intros K loc' g H'. cbn [snd tpm cache set_cache] in H' |- *.
    destruct (eqb_dec' ckey_eqb ckey_eqb_eq (K, loc') (kn, loc)) as [E | NE].
    - rewrite E, (al_get_set_eq ckey_eqb ckey_eqb_eq) in H'. injection E as -> ->. injection H' as <-. eauto.
    - rewrite (al_get_set_neq ckey_eqb ckey_eqb_eq) in H' by assumption. apply (inv_cache _ I), H'.
  Qed.

  Theorem inv_outs o c x : inv c -> wf_op o -> outs F o c x -> inv (snd x).
  Proof.
    intros I Wo H0. destruct (outs_cases _ _ _ _ H0) as [[e ->] | H]; [assumption|]. clear H0.
    destruct (op_txn o) as [[fn fin]|] eqn:T.
    { apply (inv_out_txn1 fn fin c x I); [|intro; apply (op_txn_fin _ _ _ _ T) | exact H].
      intros t. apply (op_txn_wf _ _ _ _ _ T Wo), I. }
    destruct o; try discriminate T; cbn [outs] in H.
    - (* new_identity *)
      destruct (out_new_identity_cases _ _ _ _ H) as [[e ->] | [t1 [i [E [_ ->]]]]]; [assumption|]. cbn.
      apply inv_commit_db; auto; [eapply wf_insert_identity; [apply I | eassumption]|].
      apply keys_kept_same. eapply insert_identity_keys; eassumption.
    - (* touch_identity *) eapply inv_out_touch; eassumption.
    - (* new_key *) eapply inv_out_new_key; eassumption.
    - (* del_key *) eapply inv_out_del_key; eassumption.
    - (* del_identity *)
      destruct (out_del_identity_loop _ _ _ _ I H) as [[e [_ ->]] | [i [ks [A D]]]]; [assumption|].
      exact (inv_del_ident _ _ _ _ _ A D).
    - (* Identity.del_key *) eapply inv_out_del_key; eassumption.
    - (* get_signer *) eapply inv_out_get_signer; eassumption.
    - (* reopen *) subst x. change (inv (set_cache [] (do_rollback c))). rewrite (rollback_clean _ (inv_clean _ I)). apply inv_set_cache_nil, I.
  Qed.
End Pres.

Theorem inv_run_op f o c r c' : inv c -> wf_op o -> run_op f o c = (r, c') -> inv c'.
Proof. intros I Wo R. apply (inv_outs (f <> None) o c (r, c') I Wo). rewrite <- R. apply run_op_outs_inv, I. Qed.
Theorem inv_step f o c : inv c -> wf_op o -> inv (step c (f, o)).
Proof. intros I Wo. apply (inv_run_op f o c (fst (run_op f o c))); auto. apply surjective_pairing. Qed.
Theorem inv_run_from c h : inv c -> Forall (fun fo => wf_op (snd fo)) h -> inv (run_from c h).
Proof.
  intros I H. revert c I. induction H as [|[f o] h Wo _ IH]; intros c I; cbn; [assumption|].
  apply IH. apply inv_step; assumption.
Qed.
Theorem inv_run h : Forall (fun fo => wf_op (snd fo)) h -> inv (run h).
Proof. apply inv_run_from. apply inv_init. Qed.

(* Without an injected failure del_key and del_identity have one outcome.  G: whether a failure may have been
   injected into the run that is determined (it was not); F, further down: the same for the attempt that failed. *)
Section Det.
  Variable G : Prop.
  Hypothesis NG : ~ G.

  Lemma out_del_key_nofault_det kn c x y : out_del_key G kn c x -> out_del_key G kn c y -> x = y.
  Proof.
    intros Hx Hy. destruct (key_lookup kn (db c)) as [k|] eqn:L.
    - rewrite (out_del_key_nofault _ _ _ _ _ NG L Hx), (out_del_key_nofault _ _ _ _ _ NG L Hy). reflexivity.
    - apply out_del_key_cases in Hx, Hy. rewrite L in Hx, Hy. congruence.
  Qed.
  Lemma del_ident_nofault_det n ks c x y : del_ident_out G n ks c x -> del_ident_out G n ks c y -> x = y.
  Proof.
    intros H. revert y. induction H as [c t' Ed | c HF | k ks c e c' Hout | k ks c c' x Hout Hrest IH]; intros y Hy.
    - inversion Hy; subst; [congruence | contradiction].
    - contradiction.
    - inversion Hy; subst.
      + eapply out_del_key_nofault_det; eassumption.
      + pose proof (out_del_key_nofault_det _ _ _ _ Hout H1). discriminate.
    - inversion Hy; subst.
      + pose proof (out_del_key_nofault_det _ _ _ _ Hout H3). discriminate.
      + pose proof (out_del_key_nofault_det _ _ _ _ Hout H1) as E. inversion E; subst. apply IH. assumption.
  Qed.

  Variable F : Prop.

  (* A failed del_key has at most reset the cache and removed the private key, which is how del_key begins:
     the repeat ends as a del_key in its place would have ended. *)
  Lemma out_del_key_retry kn c e c1 y :
    NoDup (map fst (tpm c)) -> out_del_key F kn c (Err e, c1) -> out_del_key G kn c1 y -> out_del_key G kn c y.
  Proof.
    intros ND H Hy. apply out_del_key_cases in H. apply out_del_key_cases in Hy. apply out_del_key_cases.
    destruct (key_lookup kn (db c)) as [k|] eqn:L; [|injection H as _ ->; rewrite L in Hy; exact Hy].
    assert (E : db c1 = db c /\ del_key_done k kn c1 = del_key_done k kn c).
    { destruct H as [H | [_ [[= _ ->] | [= _ ->]]]]; [discriminate | split; reflexivity|].
      split; [reflexivity|]. unfold del_key_done. cbn. rewrite (al_del_idem name_eqb name_eqb_eq) by assumption. reflexivity. }
    destruct E as [Edb Ed]. rewrite Edb, L, Ed in Hy. destruct Hy as [-> | [g _]]; [left; reflexivity | contradiction].
  Qed.

  (* the repeat of a failed del_identity, seen from the state before the failed attempt *)
  Lemma del_ident_retry n i ks c x :
    at_loop n i ks c -> del_ident_out F n ks c x ->
    forall e c1, x = (Err e, c1) -> forall x1, out_del_identity G n c1 x1 -> del_ident_out G n ks c x1.
  Proof.
    intros A H. pattern ks, c, x. revert A H. apply del_ident_loop; try discriminate.
    - intros c0 A _ e c1 [= _ <-] x1 H1. exact (proj1 (out_del_identity_at _ _ _ _ _ _ A) H1).
    - intros k ks0 c0 kr e0 c' [I [Gi Ei]] L Hout e c1 [= _ <-] x1 H1.
      destruct (out_del_key_err _ _ _ _ _ Hout) as [Edb _]. unfold out_del_identity in H1. rewrite Edb, Gi, Ei in H1.
      inversion H1 as [| |? ? ? e1 c'' Hk|? ? ? c'' ? Hk Hks]; subst; apply (out_del_key_retry _ _ _ _ _ (inv_nd _ I) Hout) in Hk.
      + discriminate (out_del_key_nofault _ _ _ _ _ NG L Hk).
      + eapply DI_step; eassumption.
    - intros k ks0 c0 kr x0 _ L IH e c1 -> x1 H1. eapply DI_step; [|eapply IH; eauto].
      apply out_del_key_cases. rewrite L. left. reflexivity.
  Qed.

  Lemma out_del_identity_nofault_det n c x y : out_del_identity G n c x -> out_del_identity G n c y -> x = y.
  Proof. unfold out_del_identity. destruct (kc_get n (db c)); [apply del_ident_nofault_det | congruence]. Qed.
  Lemma out_del_identity_retry n c e c1 y :
    inv c -> out_del_identity F n c (Err e, c1) -> out_del_identity G n c1 y -> out_del_identity G n c y.
  Proof.
    intros I H Hy. destruct (out_del_identity_loop _ _ _ _ I H) as [[e' [_ [= _ ->]]] | [i [ks [A D]]]]; [exact Hy|].
    apply (out_del_identity_at _ _ _ _ _ _ A). exact (del_ident_retry n i ks c _ A D e c1 eq_refl y Hy).
  Qed.
End Det.

Lemma outs_err_same F o c e c1 :
  inv c -> outs F o c (Err e, c1) ->
  match o with ODelKey _ | OIdDelKey _ _ | ODelIdentity _ | OTouchIdentity _ _ _ _ => True | _ => c1 = c end.
Proof.
  intros I H0. destruct (outs_cases _ _ _ _ H0) as [[e' [= _ ->]] | H]; [destruct o; auto|]. clear H0.
  destruct (op_txn o) as [[fn fin]|] eqn:T.
  { apply out_txn1_err in H. destruct o; auto; discriminate T. }
  destruct o; try discriminate T; auto; cbn [outs] in H.
  - (* new_identity *)
    destruct (out_new_identity_cases _ _ _ _ H) as [[e' [= _ ->]] | [t1 [i [_ [_ [=]]]]]]. reflexivity.
  - (* new_key *)
    destruct (out_new_key_cases _ _ _ _ _ _ _ _ (inv_clean _ I) H) as [[e' [= _ ->]] | [i [kn [t2 [k [_ [_ [_ [_ [=]]]]]]]]]].
    reflexivity.
  - (* get_signer *)
    destruct (out_get_signer_cases _ _ _ _ H) as [[r [= _ ->]] | [kn [loc [m [_ H']]]]]; [reflexivity | discriminate].
  - (* reopen does not raise *) discriminate.
Qed.

Theorem failure_recovery f o c e c1 :
  inv c -> run_op f o c = (Err e, c1) ->
  inv c1 /\ run_op None o c1 = run_op None o c.
Proof.
  intros I R. pose proof (run_op_outs_inv f o c I) as H. rewrite R in H.
  pose proof (outs_err_same _ _ _ _ _ I H) as Same.
  (* wf_op restricts import_cert only, and an import_cert that raises has changed nothing *)
  assert (I1 : inv c1) by (destruct o; try (refine (inv_run_op _ _ _ _ _ I _ R); exact Logic.I); rewrite Same; exact I).
  split; [assumption|].
  pose proof (run_op_outs_none o c I) as HX. pose proof (run_op_outs_none o c1 I1) as HY.
  assert (NF : ~ False) by tauto.
  assert (Triv : c1 = c -> run_op None o c1 = run_op None o c) by (intros ->; reflexivity).
  destruct o as [| n cands m v | | | | | | | kn | n | idn kn | | |]; try (apply Triv, Same); cbn [outs] in H, HX, HY.
  - (* touch_identity *)
    destruct (out_touch_recover _ _ _ _ _ _ _ _ _ _ (inv_wf _ I) H HX HY) as [E | E]; [apply Triv, E | exact E].
  - (* del_key *) eapply (out_del_key_nofault_det False NF); [|exact HX]. eapply out_del_key_retry; eauto. apply I.
  - (* del_identity *) eapply (out_del_identity_nofault_det False NF); [|exact HX]. eapply out_del_identity_retry; eauto.
  - (* Identity.del_key: the failed del_key has left the identities as they were, so the lookup repeats *)
    destruct (guarded_cases _ _ _ _ H) as [[i [Gi Hk]] | [e' [_ [= _ ->]]]]; [|reflexivity].
    destruct (out_del_key_err _ _ _ _ _ Hk) as [Edb _]. rewrite Edb, Gi in HY. rewrite Gi in HX.
    eapply (out_del_key_nofault_det False NF); [|exact HX]. eapply out_del_key_retry; eauto. apply I.
Qed.

Theorem fault_recovery k o c c1 :
  inv c -> wf_op o -> run_op (Some k) o c = (Err EFault, c1) ->
  inv c1 /\ run_op None o c1 = run_op None o c.
Proof. intros I _. apply failure_recovery, I. Qed.
