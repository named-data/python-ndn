(* C19: the retry discipline against ANY producer (arbitrary oracle).
   [disciplined att trace ending]: the trace is a sequence of bursts; a burst asks the same request
   again after every timeout, at most [att] times; a burst ends with Data (the fetch goes on), with an
   exception other than a timeout (the fetch ends right there with that exception) or with the
   [att]-th timeout (the fetch ends with a timeout). *)
From NDN Require Import Base.Prelude Model.TlvVar Model.Name Model.SegFetch Spec.SegFetchSpec.
From NDN Require Import Proofs.SegFetchBasics.
Local Open Scope nat_scope.

Definition tmo (rq : request) : event := EvAsk rq (RExc XTimeout).

Inductive disciplined (att : nat) : list event -> ending -> Prop :=
| D_done : disciplined att [] Completed
| D_fuel : disciplined att [] OutOfFuel
| D_py e : disciplined att [] (Raised (XPy e))
| D_yield c ev en : disciplined att ev en -> disciplined att (EvYield c :: ev) en
| D_data rq k nm c fb ev en :
    k < att -> disciplined att ev en ->
    disciplined att (repeat (tmo rq) k ++ EvAsk rq (RData nm c fb) :: ev) en
| D_exc rq k x :
    k < att -> x <> XTimeout ->
    disciplined att (repeat (tmo rq) k ++ [EvAsk rq (RExc x)]) (Raised x)
| D_timeout rq : disciplined att (repeat (tmo rq) att) (Raised XTimeout).

Definition burst_shape (att : nat) (rq : request) (ev : list event) (res : exc + (name * bytes * option bytes)) : Prop :=
  match res with
  | inr (nm, c, fb) => exists k, k < att /\ ev = repeat (tmo rq) k ++ [EvAsk rq (RData nm c fb)]
  | inl x =>
      (x = XTimeout /\ ev = repeat (tmo rq) att) \/
      (x <> XTimeout /\ exists k, k < att /\ ev = repeat (tmo rq) k ++ [EvAsk rq (RExc x)])
  end.

Lemma shape_now att rq r : 0 < att -> r <> RExc XTimeout ->
  burst_shape att rq [EvAsk rq r] match r with RData nm c fb => inr (nm, c, fb) | RExc x => inl x end.
Proof.
  destruct r as [nm c fb|x]; intros Ha Hr; cbn; [|right; split; [congruence|]]; exists 0; split; auto.
Qed.

Lemma retry_shape b : forall o rq,
  burst_shape (attempts_of b) rq (snd (fst (retry b o rq))) (snd (retry b o rq)).
Proof.
  induction b as [|[|b'] IH]; intros o rq.
  (* budgets 0 and 1: one attempt; a timeout exhausts them, any other answer ends the loop *)
  1, 2: cbn; destruct (o rq O) as [nm c fb|[| | | |]];
    try (left; split; reflexivity); apply (shape_now 1); (lia || discriminate).
  specialize (IH (shift o rq) rq). rewrite retry_SS.
  change (attempts_of (Datatypes.S (Datatypes.S b'))) with (Datatypes.S (attempts_of (Datatypes.S b'))).
  destruct (o rq O) as [nm c fb|[| | | |]]; try (apply shape_now; (lia || discriminate)).
  destruct (retry (Datatypes.S b') (shift o rq) rq) as [[o2 ev] res]. cbn [fst snd] in *.
  fold (tmo rq). destruct res as [x|[[nm c] fb]]; cbn [burst_shape] in *.
  - destruct IH as [[-> ->]|(Hx & k & Hk & ->)]; [left; split; reflexivity|right].
    split; [exact Hx|]. exists (Datatypes.S k). split; [lia|reflexivity].
  - destruct IH as (k & Hk & ->). exists (Datatypes.S k). split; [lia|reflexivity].
Qed.

Lemma shape_fail att rq ev x : burst_shape att rq ev (inl x) -> disciplined att ev (Raised x).
Proof.
  intros [[-> ->]|(Hx & k & Hk & ->)]; [apply D_timeout|apply D_exc; assumption].
Qed.

Lemma shape_data att rq ev nm c fb rest en :
  burst_shape att rq ev (inr (nm, c, fb)) -> disciplined att rest en -> disciplined att (ev ++ rest) en.
Proof.
  intros (k & Hk & ->) H. rewrite <- app_assoc. cbn [app]. apply D_data; assumption.
Qed.

Lemma seg_loop_disciplined cfg : forall fuel o nm seg_no,
  disciplined (attempts_of (retry_times cfg)) (fst (seg_loop fuel cfg o nm seg_no)) (snd (seg_loop fuel cfg o nm seg_no)).
Proof.
  induction fuel as [|f IH]; intros o nm seg_no; [apply D_fuel|]. cbn [seg_loop].
  destruct (comp_from_segment seg_no) as [c|e]; [|apply D_py].
  destruct (set_last nm c) as [nm1|e]; [|apply D_py].
  pose proof (retry_shape (retry_times cfg) o (mk_req cfg nm1 false)) as SH.
  destruct (retry (retry_times cfg) o (mk_req cfg nm1 false)) as [[o1 ev] r]. cbn [fst snd] in SH.
  destruct r as [x|[[nm2 content] fb]].
  - cbn [fst snd]. apply shape_fail with (rq := mk_req cfg nm1 false). exact SH.
  - destruct (last_comp nm2) as [lc|e].
    + destruct (fb_eq fb lc).
      * cbn [fst snd]. eapply shape_data; [exact SH|]. apply D_yield, D_done.
      * unfold after. cbn [fst snd]. rewrite <- app_assoc. eapply shape_data; [exact SH|].
        cbn [app]. apply D_yield. apply IH.
    + cbn [fst snd]. eapply shape_data; [exact SH|]. apply D_yield, D_py.
Qed.

Theorem fetcher_disciplined fuel cfg o nm0 :
  disciplined (attempts_of (retry_times cfg)) (fst (segment_fetcher fuel cfg o nm0)) (snd (segment_fetcher fuel cfg o nm0)).
Proof.
  unfold segment_fetcher.
  pose proof (retry_shape (retry_times cfg) o (mk_req cfg nm0 true)) as SH.
  destruct (retry (retry_times cfg) o (mk_req cfg nm0 true)) as [[o1 ev] r]. cbn [fst snd] in SH.
  destruct r as [x|[[nm content] fb]].
  - cbn [fst snd]. apply shape_fail with (rq := mk_req cfg nm0 true). exact SH.
  - assert (P : forall e, disciplined (attempts_of (retry_times cfg)) ev (Raised (XPy e))).
    { intros e. rewrite <- (app_nil_r ev). eapply shape_data; [exact SH|]. apply D_py. }
    destruct (last_comp nm) as [lc|e]; [|apply P].
    destruct (comp_get_type lc) as [t|e]; [|apply P].
    destruct (negb (t =? TYPE_SEGMENT)%N).
    + cbn [fst snd]. eapply shape_data; [exact SH|]. apply D_yield, D_done.
    + destruct (comp_to_number lc) as [num|e]; [|apply P].
      destruct (num =? 0)%N.
      * destruct (fb_eq fb lc).
        -- cbn [fst snd]. eapply shape_data; [exact SH|]. apply D_yield, D_done.
        -- unfold after. cbn [fst snd]. rewrite <- app_assoc. eapply shape_data; [exact SH|].
           cbn [app]. apply D_yield. apply seg_loop_disciplined.
      * unfold after. cbn [fst snd]. eapply shape_data; [exact SH|]. apply seg_loop_disciplined.
Qed.

Lemma after_timeouts rq k l : forall pre rq' x post,
  repeat (tmo rq) k ++ l = pre ++ EvAsk rq' (RExc x) :: post -> x <> XTimeout ->
  exists pre', l = pre' ++ EvAsk rq' (RExc x) :: post.
Proof.
  induction k as [|k IH]; intros pre rq' x post E Hne; [exists pre; exact E|].
  destruct pre as [|p pre]; injection E as E0 E; [congruence|]. exact (IH pre rq' x post E Hne).
Qed.

Lemma disciplined_exc_last att ev en : disciplined att ev en ->
  forall pre rq x post, ev = pre ++ EvAsk rq (RExc x) :: post -> x <> XTimeout -> post = [] /\ en = Raised x.
Proof.
  induction 1 as [| | |c ev en H IH|rq k nm c fb ev en Hk H IH|rq k x0 Hk Hx|rq]; intros pre rq' x post E Hne.
  1, 2, 3: destruct pre; discriminate.
  - destruct pre as [|p pre]; [discriminate|]. injection E as _ E. exact (IH pre rq' x post E Hne).
  - apply after_timeouts in E; [|exact Hne]. destruct E as ([|p pre'] & E); [discriminate|].
    injection E as _ E. exact (IH pre' rq' x post E Hne).
  - apply after_timeouts in E; [|exact Hne]. destruct E as ([|p [|q pre']] & E); [|discriminate..].
    injection E as _ -> <-. split; reflexivity.
  - rewrite <- (app_nil_r (repeat _ _)) in E. apply after_timeouts in E; [|exact Hne].
    destruct E as ([|p pre'] & E); discriminate.
Qed.
