(* C14 — proofs: the validator model accepts exactly the packets with a valid chain, and answers when the key-locator
   path is finite; what the constructors accept.  [Chain] is a function of the key-locator path ([chain_iff]);
   [validate] is what it does before its fetch ([local_verdict]) followed by the return into the suspended caller
   ([unwind]): soundness is proved for these two pieces, which are also those of the concurrent model.  The [set_nth]
   lemmas at the head serve Proofs/ValidatorHistory.v and Proofs/ValidatorConcProofs.v. *)
From NDN Require Import Base.Prelude Proofs.ListLemmas Model.Validator Model.ValidatorConc Spec.ChainSpec.
Local Open Scope N_scope.

Lemma set_nth_cons {A} (x : A) l i a : set_nth (x :: l) (S i) a = x :: set_nth l i a.
Proof. reflexivity. Qed.

Lemma nth_error_set_nth {A} (l : list A) : forall i a j,
  (i < length l)%nat -> nth_error (set_nth l i a) j = if Nat.eqb j i then Some a else nth_error l j.
Proof.
  induction l as [|x l IH]; intros i a j H; cbn in H; [lia|].
  destruct i as [|i], j as [|j]; try reflexivity. rewrite set_nth_cons. cbn [nth_error Nat.eqb]. apply IH. lia.
Qed.

Lemma Forall_set_nth {A} (P : A -> Prop) (l : list A) : forall i a, Forall P l -> P a -> Forall P (set_nth l i a).
Proof.
  induction l as [|x l IH]; intros i a Hl Ha.
  - destruct i; repeat constructor; exact Ha.
  - inversion Hl; subst. destruct i as [|i]; [|rewrite set_nth_cons]; constructor; auto.
Qed.

Lemma name_eqb_spec a b : name_eqb a b = true <-> a = b.
Proof. apply list_eqb_spec. apply bytes_eqb_spec. Qed.

Lemma name_eqP a b : reflect (a = b) (name_eqb a b).
Proof. apply iff_reflect. symmetry. apply name_eqb_spec. Qed.

Lemma name_eqb_refl a : name_eqb a a = true.
Proof. apply name_eqb_spec. reflexivity. Qed.

Lemma name_eqb_false a b : a <> b -> name_eqb a b = false.
Proof. apply eqb_neq'. apply name_eqb_spec. Qed.

Lemma load_save st cn k cn' :
  cache_load (cache_save st cn k) cn' = if name_eqb cn' cn then Some k else cache_load st cn'.
Proof.
  unfold cache_load, cache_save. apply al_get_set, name_eqb_spec.
Qed.

Lemma truthy_some k k' : truthy k = Some k' -> k = Some k' /\ k' <> [].
Proof. destruct k as [[|b r]|]; cbn; intros H; inversion H; subst; split; congruence. Qed.

Lemma truthy_content (k : bytes) : k <> [] -> truthy (Some k) = Some k.
Proof. destruct k; [intros H; destruct H|]; reflexivity. Qed.

Lemma key_locator_spec p cn : key_locator p = Some cn <-> names_key p cn.
Proof.
  unfold key_locator, names_key. split.
  - destruct (p_sig p) as [si|]; [|discriminate].
    destruct (s_kl si) as [[|c r]|] eqn:K; try discriminate.
    intros H; inversion H; subst. split; [congruence|]. exists si. auto.
  - intros (Hne & si & -> & ->). destruct cn; [exfalso; apply Hne; reflexivity | reflexivity].
Qed.

Lemma dispatch_true_iff tbl w ty k p :
  dispatch tbl w ty k p = Ok true <->
  match find (fun row => ty =? fst (fst row)) tbl with
  | Some (_, fn, ret) => ret = true /\ w_verify w fn k p = Ok true
  | None => False
  end.
Proof.
  induction tbl as [|[[t fn] ret] rest IH]; cbn [dispatch find fst]; [split; [discriminate | tauto]|].
  destruct (ty =? t); [|exact IH]. destruct (w_verify w fn k p) as [[]|], ret; cbn; intuition congruence.
Qed.

Lemma dispatch_true w ty k p :
  dispatch sig_branches w ty k p = Ok true <-> asymmetric ty = true /\ w_verify w ty k p = Ok true.
Proof.
  rewrite dispatch_true_iff. unfold sig_branches, asymmetric. cbn [find fst].
  destruct (N.eqb_spec ty SIG_HMAC) as [->|_]; [cbn; intuition discriminate|].
  destruct (N.eqb_spec ty SIG_RSA) as [->|_]; [cbn; tauto|].
  destruct (N.eqb_spec ty SIG_ECDSA) as [->|_]; [cbn; tauto|].
  destruct (N.eqb_spec ty SIG_ED25519) as [->|_]; [cbn; tauto|].
  cbn. intuition discriminate.
Qed.

Lemma dispatch_no_fuel tbl w ty k p :
  (forall a, w_verify w a k p <> Err EFuel) -> dispatch tbl w ty k p <> Err EFuel.
Proof.
  intros H. induction tbl as [|[[t fn] ret] rest IH]; cbn [dispatch]; [discriminate|].
  destruct (ty =? t); [|exact IH]. specialize (H fn). destruct (w_verify w fn k p); cbn; congruence.
Qed.

Lemma verify_sig_true_sig w k p : verify_sig w k p = Ok true <-> verifies_sig w k p.
Proof.
  unfold verify_sig, verifies_sig. split.
  - destruct (p_sig p) as [si|]; [|discriminate]. intros H. apply dispatch_true in H. destruct H.
    exists si; auto.
  - intros (si & -> & Ha & Hv). apply dispatch_true. auto.
Qed.

Lemma verify_sig_true w k p : k <> [] -> (verify_sig w k p = Ok true <-> verifies w k p).
Proof.
  intros Hk. rewrite verify_sig_true_sig. unfold verifies. tauto.
Qed.

Lemma check_key_true w k p : check_key w k p = Ok true <-> verifies w k p.
Proof.
  unfold check_key. destruct k as [|b r].
  - split; [discriminate | intros [H _]; congruence].
  - apply verify_sig_true. discriminate.
Qed.

Lemma verifies_sigb_spec w k p : verifies_sigb w k p = true <-> verifies_sig w k p.
Proof.
  unfold verifies_sigb, verifies_sig. destruct (p_sig p) as [si|].
  - rewrite andb_true_iff. split.
    + intros [Ha Hv]. exists si. repeat split; auto.
      destruct (w_verify w (s_type si) k p) as [[]|]; congruence.
    + intros (si' & E & Ha & Hv). inversion E; subst si'. rewrite Hv. auto.
  - split; [discriminate | intros (si & E & _); discriminate].
Qed.

Lemma verifiesb_spec w k p : verifiesb w k p = true <-> verifies w k p.
Proof.
  unfold verifiesb, verifies. destruct k as [|b r].
  - split; [discriminate | intros [H _]; congruence].
  - rewrite verifies_sigb_spec. split; [intros H; split; [discriminate | exact H] | tauto].
Qed.

Lemma name_check_true c n cn : name_check c n cn = Ok true <-> t_allowed (trust_of c) n cn = true.
Proof.
  unfold name_check, trust_of, allowed_of; cbn. destruct (c_check c) as [f|].
  - destruct (f n cn) as [[]|]; split; congruence.
  - split; auto.
Qed.

Definition cache_ok (w : world) (t : trust) (st : cache) : Prop :=
  forall cn k, truthy (cache_load st cn) = Some k ->
               exists d, w_fetch w cn = FData d /\ p_content d = Some k /\ Chain w t d.

Lemma cache_ok_nil w t : cache_ok w t [].
Proof. intros cn k H. discriminate. Qed.

Lemma cache_ok_save w t st cn d k :
  cache_ok w t st -> w_fetch w cn = FData d -> truthy (p_content d) = Some k -> Chain w t d ->
  cache_ok w t (cache_save st cn k).
Proof.
  intros Hst Hf Hk Hc cn' k'. rewrite load_save. destruct (name_eqP cn' cn) as [->|_]; [|apply Hst].
  apply truthy_some in Hk as [Hk Hne]. cbv iota. rewrite (truthy_content _ Hne). intros H. injection H as <-. exists d. auto.
Qed.

(* the key locator decides which constructor applies, the world which certificate it is *)
Lemma chain_iff w t p :
  Chain w t p <->
  match key_locator p with
  | None => False
  | Some cn =>
      t_allowed t (p_name p) cn = true /\
      if name_eqb cn (t_anchor_name t) then verifies w (t_anchor_key t) p
      else match w_fetch w cn with
           | FData d => exists k, p_content d = Some k /\ verifies w k p /\ Chain w t d
           | _ => False
           end
  end.
Proof.
  split.
  - intros [p' NK AL V|p' cn d k NK NE AL F C V Ch]; apply key_locator_spec in NK; rewrite NK.
    + rewrite name_eqb_refl. auto.
    + rewrite (name_eqb_false _ _ NE), F. eauto.
  - destruct (key_locator p) as [cn|] eqn:KL; [|contradiction]. intros [AL H]. apply key_locator_spec in KL.
    destruct (name_eqP cn (t_anchor_name t)) as [->|NE].
    + apply ByAnchor; auto.
    + destruct (w_fetch w cn) as [d| | |] eqn:F; try contradiction.
      destruct H as (k & C & V & Ch). eapply ByCert; eauto.
Qed.

Lemma chain_asymmetric w t p :
  Chain w t p -> exists si, p_sig p = Some si /\ asymmetric (s_type si) = true.
Proof.
  intros [p' _ _ V|p' ? ? ? _ _ _ _ _ V _]; destruct V as (_ & si & E & A & _); exists si; auto.
Qed.

Section Frames.
Variables (w : world) (t : trust).

(* what a finished call validate(q) -> r guarantees; "out of fuel" is the one answer that says nothing *)
Definition answer_ok (r : res bool) (q : pkt) : Prop :=
  (r = Ok true -> Chain w t q) /\ (Chain w t q -> r = Ok true \/ r = Err EFuel).

Lemma answer_ok_of_iff r q : (r = Ok true <-> Chain w t q) -> answer_ok r q.
Proof. intros H. split; [apply H | left; apply H; assumption]. Qed.

Lemma not_chain_answer r q : r <> Ok true -> ~ Chain w t q -> answer_ok r q.
Proof. intros N H. split; [intros E; contradiction | intros Hc; contradiction]. Qed.

Lemma answer_ok_iff r q : answer_ok r q -> r <> Err EFuel -> (r = Ok true <-> Chain w t q).
Proof. intros [S C] N. split; [exact S|]. intros Hc. destruct (C Hc); [assumption | contradiction]. Qed.

(* a suspended validate(p) *)
Definition frame_ok (f : frame) : Prop :=
  key_locator (fst f) = Some (snd f) /\ t_allowed t (p_name (fst f)) (snd f) = true /\ snd f <> t_anchor_name t.

(* the suspended calls below a running validate(q), innermost first: each frame is a legitimate fetch that brought the
   packet above it; [rt] is the packet the outermost call was asked about *)
Fixpoint stack_ok (q : pkt) (stack : list frame) (rt : pkt) : Prop :=
  match stack with
  | [] => q = rt
  | (p, cn) :: rest => frame_ok (p, cn) /\ w_fetch w cn = FData q /\ stack_ok p rest rt
  end.

Lemma chain_frame p cn :
  frame_ok (p, cn) ->
  (Chain w t p <-> match w_fetch w cn with
                   | FData q => exists k, p_content q = Some k /\ verifies w k p /\ Chain w t q
                   | _ => False
                   end).
Proof.
  intros (KL & AL & NE). cbn [fst snd] in *. rewrite chain_iff, KL, AL, (name_eqb_false _ _ NE). tauto.
Qed.

Lemma unwind_cons q r p cn rest st :
  unwind w q r ((p, cn) :: rest) st = let '(r1, st1) := unwind w q r [(p, cn)] st in unwind w p r1 rest st1.
Proof. cbn [unwind]. destruct r as [[|]|e]; [destruct (truthy (p_content q))|..]; reflexivity. Qed.

(* validate(q) returned r below [stack]: what the outermost call then returns.  One frame (p, cn), which had fetched q:
   a verdict other than True is handed down unchanged, and p has no chain unless q has one; on True the key of q is
   saved and decides. *)
Lemma unwind_ok : forall stack q r st r' st' rt,
  cache_ok w t st -> stack_ok q stack rt -> answer_ok r q ->
  unwind w q r stack st = (r', st') ->
  cache_ok w t st' /\ answer_ok r' rt.
Proof.
  induction stack as [|[p cn] rest IH]; intros q r st r' st' rt Hst Hs [Hs1 Hcmp] Hu; cbn [unwind stack_ok] in *.
  { subst rt. injection Hu as <- <-. split; [exact Hst | split; assumption]. }
  destruct Hs as (Hf & Fq & Hs). pose proof (chain_frame _ _ Hf) as Inv. rewrite Fq in Inv.
  assert (Down : forall x, x <> Ok true -> r = x -> answer_ok x p).
  { intros x N <-. split; [contradiction|]. rewrite Inv. intros (_ & _ & _ & Chq). exact (Hcmp Chq). }
  destruct r as [[|]|e]; [|eapply IH; eauto; apply Down; [discriminate | reflexivity]..].
  specialize (Hs1 eq_refl). destruct (truthy (p_content q)) as [k|] eqn:TK.
  - apply (IH _ _ _ _ _ _ (cache_ok_save _ _ _ _ _ _ Hst Fq TK Hs1) Hs) in Hu; [exact Hu|].
    apply truthy_some in TK as [Cq Kne].
    apply answer_ok_of_iff. rewrite (verify_sig_true _ _ _ Kne), Inv. split; [eauto|].
    intros (k' & C' & V' & _). congruence.
  - apply (IH _ _ _ _ _ _ Hst Hs) in Hu; [exact Hu|]. apply not_chain_answer; [discriminate|]. rewrite Inv.
    intros (k' & C' & [Kne _] & _). rewrite C', (truthy_content _ Kne) in TK. discriminate.
Qed.

End Frames.

Lemma local_verdict_inr w c st q cn :
  local_verdict w c st q = inr cn ->
  key_locator q = Some cn /\ name_check c (p_name q) cn = Ok true /\ cn <> c_anchor_name c /\
  truthy (cache_load st cn) = None.
Proof.
  unfold local_verdict. destruct (key_locator q) as [cn'|]; [|discriminate].
  destruct (name_check c (p_name q) cn') as [[|]|e] eqn:NC; try discriminate.
  destruct (name_eqP cn' (c_anchor_name c)) as [->|NE]; [discriminate|].
  destruct (truthy (cache_load st cn')) eqn:CL; [discriminate|]. intros H. injection H as <-. auto.
Qed.

Lemma local_verdict_spec w c st q :
  cache_ok w (trust_of c) st ->
  match local_verdict w c st q with
  | inl r => r = Ok true <-> Chain w (trust_of c) q
  | inr cn => frame_ok (trust_of c) (q, cn)
  end.
Proof.
  intros Hst. destruct (local_verdict w c st q) as [r|cn] eqn:LV.
  2:{ apply local_verdict_inr in LV as (KL & NC & NE & _). apply name_check_true in NC. repeat split; assumption. }
  rewrite chain_iff. unfold local_verdict in LV. destruct (key_locator q) as [cn|].
  2:{ injection LV as <-. split; [discriminate | contradiction]. }
  rewrite <- name_check_true. cbn [trust_of t_anchor_name t_anchor_key].
  destruct (name_check c (p_name q) cn) as [[|]|e].
  2,3: injection LV as <-; split; [|intros [? _]]; discriminate.
  destruct (name_eqb cn (c_anchor_name c)).
  - injection LV as <-. rewrite check_key_true. tauto.
  - destruct (truthy (cache_load st cn)) as [k|] eqn:CL; [|discriminate]. injection LV as <-.
    destruct (Hst _ _ CL) as (d & -> & Cd & Chd). apply truthy_some in CL as [_ Kne].
    rewrite (verify_sig_true _ _ _ Kne). split; [eauto|]. intros (_ & k' & C' & V' & _). congruence.
Qed.

Lemma validate_local w c fuel st q :
  validate w c fuel st q =
  match local_verdict w c st q with
  | inl r => (r, st, [])
  | inr cn =>
      match fuel with
      | O => (Err EFuel, st, [])
      | S f =>
          match w_fetch w cn with
          | FData d => let '(ri, st1, tr) := validate w c f st d in
                       let '(r, st') := unwind w d ri [(q, cn)] st1 in (r, st', cn :: tr)
          | FNack | FTimeout => (Ok false, st, [cn])
          | FFail e => (Err e, st, [cn])
          end
      end
  end.
Proof.
  (* both sides branch on the same scrutinees, in the order of [validate]; each leaf is an identity *)
  unfold local_verdict. destruct fuel; cbn [validate];
    destruct (key_locator q) as [cn|]; try reflexivity;
    destruct (name_check c (p_name q) cn) as [[|]|]; try reflexivity;
    destruct (name_eqb cn (c_anchor_name c)); try reflexivity;
    destruct (truthy (cache_load st cn)); try reflexivity.
  destruct (w_fetch w cn) as [d| | |e]; try reflexivity.
  destruct (validate w c fuel st d) as [[[[|]|e] st1] tr]; cbn [unwind]; [destruct (truthy (p_content d))|..]; reflexivity.
Qed.

Lemma validate_no_fetch w c fuel st p r : local_verdict w c st p = inl r -> validate w c fuel st p = (r, st, []).
Proof. intros H. rewrite validate_local, H. reflexivity. Qed.

(* a certificate that is its own signer: every fetch brings the same question back *)
Lemma self_loop_never_answers w c st p cn :
  local_verdict w c st p = inr cn -> w_fetch w cn = FData p ->
  forall fuel, validate w c fuel st p = (Err EFuel, st, repeat cn fuel).
Proof.
  intros LV F. induction fuel as [|f IH]; rewrite validate_local, LV; [reflexivity|]. rewrite F, IH. reflexivity.
Qed.

Lemma validate_sound w c : forall fuel st p r st' tr,
  cache_ok w (trust_of c) st ->
  validate w c fuel st p = (r, st', tr) ->
  cache_ok w (trust_of c) st' /\ answer_ok w (trust_of c) r p.
Proof.
  induction fuel as [fuel IH] using lt_wf_ind. intros st p r st' tr Hst Hv. rewrite validate_local in Hv.
  pose proof (local_verdict_spec w c st p Hst) as Hf. destruct (local_verdict w c st p) as [r0|cn].
  { injection Hv as <- <- _. split; [exact Hst | apply answer_ok_of_iff, Hf]. }
  destruct fuel as [|f].
  { injection Hv as <- <- _. split; [exact Hst|]. split; [discriminate | auto]. }
  destruct (w_fetch w cn) as [d| | |e] eqn:F.
  2,3,4: injection Hv as <- <- _; split; [exact Hst|]; apply not_chain_answer; [discriminate|];
         rewrite (chain_frame _ _ _ _ Hf), F; tauto.
  destruct (validate w c f st d) as [[ri st1] tri] eqn:VI.
  destruct (IH f (Nat.lt_succ_diag_r f) _ _ _ _ _ Hst VI) as [Hst1 Vd].
  destruct (unwind w d ri [(p, cn)] st1) as [r1 st2] eqn:U. injection Hv as <- <- _.
  exact (unwind_ok _ _ [(p, cn)] d ri st1 r1 st2 p Hst1 (conj Hf (conj F eq_refl)) Vd U).
Qed.

(* A packet with a chain is accepted as soon as there is enough fuel (= the chain is finite):
   completeness without a termination hypothesis. *)
Lemma validate_complete w c p :
  Chain w (trust_of c) p ->
  exists n, forall fuel st, (n <= fuel)%nat -> cache_ok w (trust_of c) st ->
                            fst (fst (validate w c fuel st p)) = Ok true.
Proof.
  induction 1 as [p NK AL V | p cn d k NK NE AL F C V Ch IH].
  - exists 0%nat. intros fuel st _ Hst. rewrite validate_local.
    pose proof (local_verdict_spec w c st p Hst) as LV. destruct (local_verdict w c st p) as [r|cn'].
    + apply LV, ByAnchor; assumption.
    + destruct LV as (KL & _ & NE). apply key_locator_spec in NK. cbn in *. congruence.
  - destruct IH as (n & IH). exists (S n). intros [|f] st Hf Hst; [lia|]. rewrite validate_local.
    pose proof (local_verdict_spec w c st p Hst) as LV. destruct (local_verdict w c st p) as [r|cn'].
    + apply LV. eapply ByCert; eassumption.
    + destruct LV as (KL & _). apply key_locator_spec in NK. cbn in KL. assert (cn' = cn) by congruence. subst cn'.
      rewrite F. specialize (IH f st ltac:(lia) Hst). destruct (validate w c f st d) as [[ri st1] tri]. cbn in IH. subst ri.
      destruct V as [Kne V']. cbn [unwind]. rewrite C, (truthy_content _ Kne). apply verify_sig_true; [exact Kne | split; auto].
Qed.

Theorem accepts_iff_chain w c st p :
  cache_ok w (trust_of c) st ->
  (exists fuel, fst (fst (validate w c fuel st p)) = Ok true) <-> Chain w (trust_of c) p.
Proof.
  intros Hst. split.
  - intros (fuel & H). destruct (validate w c fuel st p) as [[r st'] tr] eqn:V. cbn in H. subst r.
    apply (validate_sound _ _ _ _ _ _ _ _ Hst V). reflexivity.
  - intros Hc. destruct (validate_complete _ _ _ Hc) as (n & Hn). exists n. apply Hn; auto.
Qed.

(* the key-locator path from p reaches a packet where no fetch happens within n steps *)
Inductive Bounded (w : world) (c : cfg) : nat -> pkt -> Prop :=
| BNoKey n p : key_locator p = None -> Bounded w c n p
| BAnchor n p : key_locator p = Some (c_anchor_name c) -> Bounded w c n p
| BNoData n p cn : key_locator p = Some cn -> (forall d, w_fetch w cn <> FData d) -> Bounded w c (S n) p
| BStep n p cn d : key_locator p = Some cn -> w_fetch w cn = FData d -> Bounded w c n d -> Bounded w c (S n) p.

(* [EFuel] marks fuel exhaustion and is no Python exception (Base/Prelude.v): the verification oracle, the schema's
   check and the fetch do not answer with it, so that it comes from [validate] running out of fuel only *)
Definition no_fuel_err (w : world) : Prop := forall a k p, w_verify w a k p <> Err EFuel.
Definition check_no_fuel (c : cfg) : Prop :=
  forall f n cn, c_check c = Some f -> f n cn <> Err EFuel.
Definition fetch_no_fuel (w : world) : Prop := forall cn, w_fetch w cn <> FFail EFuel.

Lemma bounded_fetch w c n p st cn :
  Bounded w c n p -> local_verdict w c st p = inr cn ->
  exists n', n = S n' /\ forall d, w_fetch w cn = FData d -> Bounded w c n' d.
Proof.
  intros HB LV. apply local_verdict_inr in LV as (KL & _ & NE & _).
  destruct HB as [n p K|n p K|n p cn0 K ND|n p cn0 d0 K F0 B0]; rewrite K in KL; try discriminate; injection KL as <-.
  - destruct NE. reflexivity.
  - exists n. split; [reflexivity|]. intros d F. destruct (ND d F).
  - exists n. split; [reflexivity|]. intros d F. congruence.
Qed.

Lemma verify_sig_no_fuel w k p : no_fuel_err w -> verify_sig w k p <> Err EFuel.
Proof. intros NV. unfold verify_sig. destruct (p_sig p); [|discriminate]. apply dispatch_no_fuel. intros a. apply NV. Qed.

Lemma local_verdict_no_fuel w c st p :
  no_fuel_err w -> check_no_fuel c -> local_verdict w c st p <> inl (Err EFuel).
Proof.
  intros NV NCk. unfold local_verdict. destruct (key_locator p) as [cn|]; [|discriminate].
  destruct (name_check c (p_name p) cn) as [[|]|e] eqn:E; try discriminate.
  - destruct (name_eqb cn (c_anchor_name c)).
    + unfold check_key. destruct (c_anchor_key c); [discriminate|]. intros X. injection X. apply verify_sig_no_fuel, NV.
    + destruct (truthy (cache_load st cn)); [|discriminate]. intros X. injection X. apply verify_sig_no_fuel, NV.
  - intros X. injection X as ->. unfold name_check in E. destruct (c_check c) as [f|] eqn:Ec; [|discriminate].
    exact (NCk _ _ _ Ec E).
Qed.

Lemma validate_terminates w c :
  no_fuel_err w -> check_no_fuel c -> fetch_no_fuel w ->
  forall n p, Bounded w c n p ->
  forall fuel st, (n <= fuel)%nat -> fst (fst (validate w c fuel st p)) <> Err EFuel.
Proof.
  intros NV NCk NF. induction n as [n IH] using lt_wf_ind. intros p HB fuel st Hn. rewrite validate_local.
  pose proof (local_verdict_no_fuel w c st p NV NCk) as LN.
  destruct (local_verdict w c st p) as [r|cn] eqn:LV; [cbn; congruence|].
  destruct (bounded_fetch _ _ _ _ _ _ HB LV) as (n' & -> & Hd). destruct fuel as [|f]; [lia|].
  destruct (w_fetch w cn) as [d| | |e] eqn:F; cbn; try discriminate.
  2:{ intros X. injection X as ->. exact (NF _ F). }
  specialize (IH n' (Nat.lt_succ_diag_r n') d (Hd d eq_refl) f st ltac:(lia)).
  destruct (validate w c f st d) as [[[[|]|e] st1] tr]; cbn in *; [|discriminate | congruence].
  destruct (truthy (p_content d)); cbn; [apply verify_sig_no_fuel, NV | discriminate].
Qed.

Lemma chainb_eq w t fuel p :
  chainb w t fuel p =
  match key_locator p with
  | None => Some false
  | Some cn =>
      if negb (t_allowed t (p_name p) cn) then Some false
      else if name_eqb cn (t_anchor_name t) then Some (verifiesb w (t_anchor_key t) p)
      else match w_fetch w cn with
           | FData d =>
               match p_content d with
               | Some k => if verifiesb w k p then match fuel with O => None | S f => chainb w t f d end
                           else Some false
               | None => Some false
               end
           | _ => Some false
           end
  end.
Proof. destruct fuel; reflexivity. Qed.

Lemma chainb_spec w t : forall fuel p b, chainb w t fuel p = Some b -> (b = true <-> Chain w t p).
Proof.
  induction fuel as [fuel IH] using lt_wf_ind. intros p b H. rewrite chainb_eq in H.
  rewrite chain_iff. destruct (key_locator p) as [cn|].
  2:{ injection H as <-. split; [discriminate | contradiction]. }
  destruct (t_allowed t (p_name p) cn); cbn [negb] in H; [|injection H as <-; intuition discriminate].
  destruct (name_eqb cn (t_anchor_name t)).
  { injection H as <-. rewrite verifiesb_spec. tauto. }
  destruct (w_fetch w cn) as [d| | |e]; try (injection H as <-; intuition discriminate).
  destruct (p_content d) as [k|].
  2:{ injection H as <-. split; [discriminate | intros (_ & k & E & _); discriminate]. }
  destruct (verifiesb w k p) eqn:V.
  - destruct fuel as [|f]; [discriminate|]. apply IH in H; [|lia]. apply verifiesb_spec in V. rewrite H.
    split; [eauto | intros (_ & k' & _ & _ & Ch); exact Ch].
  - injection H as <-. split; [discriminate|]. intros (_ & k' & E & V' & _). injection E as <-.
    apply verifiesb_spec in V'. congruence.
Qed.

Lemma subsetb_spec a b : subsetb a b = true <-> forall r, In r a -> In r b.
Proof.
  unfold subsetb. rewrite forallb_forall.
  split; intros H r Hr; apply (existsb_eqb_in _ bytes_eqb_spec), H, Hr.
Qed.

Lemma anchor_matchesb_spec sc a : anchor_matchesb sc a = true <-> anchor_matches sc a.
Proof.
  unfold anchor_matchesb, anchor_matches. destruct (sc_match sc (p_name a)) as [[|m ms]|e].
  - split; [discriminate | intros (ms & E & N & _); inversion E; subst; congruence].
  - rewrite subsetb_spec. split.
    + intros H. exists (m :: ms). repeat split; auto. discriminate.
    + intros (ms' & E & _ & H). inversion E; subst. exact H.
  - split; [discriminate | intros (ms & E & _); discriminate].
Qed.

Lemma self_signedb_spec w a : self_signedb w a = true <-> self_signed w a.
Proof.
  unfold self_signedb, self_signed. destruct (p_content a) as [k|].
  - rewrite verifies_sigb_spec. split; [intros H; exists k; auto | intros (k' & E & H); inversion E; subst; auto].
  - split; [discriminate | intros (k & E & _); discriminate].
Qed.

Lemma sanity_check_ok sc a :
  sanity_check sc a = Ok tt <-> sc_fns_ok sc = true /\ exists p, a = Ok p /\ anchor_matches sc p.
Proof.
  assert (M : forall p, sanity_check sc (Ok p) = Ok tt <-> sc_fns_ok sc = true /\ anchor_matchesb sc p = true).
  { intros p. unfold sanity_check, anchor_matchesb. destruct (sc_fns_ok sc); cbn; [|intuition discriminate].
    destruct (sc_match sc (p_name p)) as [[|m ms]|e]; cbn; try (intuition discriminate).
    destruct (subsetb (sc_roots sc) (m :: ms)); intuition discriminate. }
  destruct a as [p|e].
  - rewrite M, anchor_matchesb_spec. split; [intros [F A]; eauto | intros (F & p' & E & A); injection E as <-; auto].
  - split; [unfold sanity_check; destruct (sc_fns_ok sc); discriminate | intros (_ & p & E & _); discriminate].
Qed.

Lemma cascade_init_ok w a chk c :
  cascade_init w a chk = Ok c <->
  exists p k, a = Ok p /\ p_content p = Some k /\ verifies_sig w k p /\
              c = {| c_anchor_name := p_name p; c_anchor_key := k; c_check := chk |}.
Proof.
  unfold cascade_init. split.
  - destruct a as [p|e]; cbn; [|discriminate]. destruct (p_content p) as [k|] eqn:C; [|discriminate].
    destruct (verify_sig w k p) as [[|]|e] eqn:V; cbn; try discriminate.
    intros H. injection H as <-. apply verify_sig_true_sig in V. exists p, k. auto.
  - intros (p & k & -> & C & V & ->). apply verify_sig_true_sig in V. cbn. rewrite C, V. reflexivity.
Qed.

Theorem cascade_init_iff w a chk :
  (exists c, cascade_init w a chk = Ok c) <-> exists p, a = Ok p /\ self_signed w p.
Proof.
  split.
  - intros (c & H). apply cascade_init_ok in H as (p & k & E & C & V & _). exists p. split; auto. exists k; auto.
  - intros (p & E & k & C & V). eexists. apply cascade_init_ok. exists p, k. repeat split; eauto.
Qed.

Theorem lvs_init_iff w sc a :
  (exists c, lvs_init w sc a = Ok c) <->
  sc_fns_ok sc = true /\ exists p, a = Ok p /\ anchor_matches sc p /\ self_signed w p.
Proof.
  unfold lvs_init. destruct (sanity_check sc a) as [[]|e] eqn:S; cbn [bind].
  - rewrite cascade_init_iff. apply sanity_check_ok in S as (F & p & -> & M). split.
    + intros (p' & E & SS). injection E as <-. eauto.
    + intros (_ & p' & E & _ & SS). eauto.
  - split; [intros (c & H); discriminate|]. intros (F & p & E & M & _).
    rewrite (proj2 (sanity_check_ok sc a)) in S by eauto. discriminate.
Qed.

Theorem lvs_init_cfg w sc a c :
  lvs_init w sc a = Ok c ->
  exists p k, a = Ok p /\ p_content p = Some k /\
              trust_of c = {| t_anchor_name := p_name p; t_anchor_key := k; t_allowed := allowed_of (Some (sc_check sc)) |}.
Proof.
  unfold lvs_init. destruct (sanity_check sc a) as [[]|e]; [|discriminate]. cbn. intros H.
  apply cascade_init_ok in H as (p & k & E & C & _ & ->). exists p, k. auto.
Qed.
