(* T1 tie for C04: the lifetime default reflected from ndn.appv2 on this run is the one the model
   (Model/Dispatch.v, deadline_of) uses. *)
From NDN Require Import Base.Prelude Model.Dispatch.
From NDN Require Generated.ConstsApp.
Local Open Scope N_scope.

Theorem default_lifetime_agree : Generated.ConstsApp.DEFAULT_LIFETIME = DEFAULT_LIFETIME.
Proof. reflexivity. Qed.

Theorem deadline_default now :
  deadline_of FE_V2 None now = deadline_of FE_V2 (Some Generated.ConstsApp.DEFAULT_LIFETIME) now.
Proof. reflexivity. Qed.
