(* C04: what one attach, detach, Interest or reply does, read through [attached] (Properties/C04.v exports these at
   the tables reachable by any history). *)
From NDN Require Import Base.Prelude Model.Trie Model.Dispatch Spec.DispatchSpec
  Proofs.TrieProofs Proofs.TrieInverse Proofs.DispatchProofs.
Local Open Scope N_scope.

(* an Interest: exactly the selected handler gets one invocation (queued in the app front-ends, made
   on the spot by Dispatcher.dispatch); the table is not touched *)
Theorem top_recv fe s n life now :
  all_cb (s_fib s) ->
  let s' := fst (step fe s (ORecv n life now)) in
  let hit := match dispatch (s_fib s) n with
             | Some h => [mk_call h n (deadline_of fe life now)]
             | None => []
             end in
  s_fib s' = s_fib s /\
  match fe with
  | FE_Disp => s_calls s' = s_calls s ++ hit /\ s_pending s' = s_pending s
  | _ => s_pending s' = s_pending s ++ hit /\ s_calls s' = s_calls s
  end.
Proof.
  intros A s' hit. subst s' hit. rewrite step_recv by exact A. destruct fe; cbn; auto.
Qed.

Lemma pair_eq {A B} (x : A * B) b : snd x = b -> x = (fst x, b).
Proof. intros <-. apply surjective_pairing. Qed.

(* the refusal is a no-op on the whole node of every prefix: callback, validator and the options of the occupying
   handler (need_raw_packet / need_sig_ptrs) stay what they were, whatever the refused call asked for *)
Theorem top_duplicate_refused_nodes fe t k h0 h v ex :
  attached t k = Some h0 ->
  exists t', fib_attach fe t k h v ex = (t', Err EValue) /\ forall q, t_get t' q = t_get t q.
Proof.
  intros H. exists (fst (fib_attach fe t k h v ex)). split.
  - apply pair_eq. rewrite fib_attach_res, H. reflexivity.
  - destruct (fib_attach_spec fe t k h v ex) as (nd & _ & G). intros q. rewrite G, H. reflexivity.
Qed.

Theorem top_duplicate_refused fe t k h0 h v ex :
  attached t k = Some h0 ->
  exists t', fib_attach fe t k h v ex = (t', Err EValue) /\ forall q, attached t' q = attached t q.
Proof.
  intros H. destruct (top_duplicate_refused_nodes fe t k h0 h v ex H) as (t' & E & G).
  exists t'. split; [exact E|]. intros q. unfold attached. rewrite G. reflexivity.
Qed.

Theorem top_attach_frame fe t k h v ex :
  attached t k = None ->
  exists t', fib_attach fe t k h v ex = (t', Ok tt) /\ attached t' k = h /\
             forall q, q <> k -> attached t' q = attached t q.
Proof.
  intros H. exists (fst (fib_attach fe t k h v ex)). split; [|split].
  - apply pair_eq. rewrite fib_attach_res, H. reflexivity.
  - rewrite attached_attach, H. apply a_upd_same.
  - intros q N. rewrite attached_attach, H. apply a_upd_other, N.
Qed.

Theorem top_detach_frame t k h :
  attached t k = Some h ->
  exists t', fib_detach t k = (t', Ok tt) /\ attached t' k = None /\
             forall q, q <> k -> attached t' q = attached t q.
Proof.
  intros H. exists (fst (fib_detach t k)). split; [|split].
  - apply pair_eq. rewrite fib_detach_res. unfold attached in H. destruct (t_get t k); [reflexivity|discriminate].
  - rewrite attached_detach. apply a_upd_same.
  - intros q N. rewrite attached_detach. apply a_upd_other, N.
Qed.

(* attach followed by detach of a free prefix gives back the very same table (structure included) *)
Theorem attach_detach_inverse fe (t : fib) k h v ex :
  t_get t k = None -> t_pruned t = true ->
  fib_detach (fst (fib_attach fe t k h v ex)) k = (t, Ok tt).
Proof.
  intros G P. unfold fib_attach, t_setdefault. rewrite G. cbn [pn_cb pnode0 fst].
  unfold fib_detach, t_set. rewrite t_set_node_twice. rewrite t_del_set_node by assumption. reflexivity.
Qed.

Theorem top_detach_absent t k : all_cb t -> attached t k = None -> fib_detach t k = (t, Err EKey).
Proof.
  intros C H. unfold fib_detach. pose proof (t_del_spec t k) as S. destruct (t_del t k) as [t'|e].
  - destruct S as [G _]. destruct (G (attached_none t k C H)).
  - destruct S as [-> _]. reflexivity.
Qed.

Theorem top_reply_truthful d t running sent r :
  reply_closure d t running = Ok (sent, r) ->
  (sent = true -> t <= d) /\ (running = true -> (sent = true <-> t <= d)) /\
  r = (if sent then RTrue else RFalse).
Proof.
  unfold reply_closure. destruct (d <? t) eqn:E.
  - intros H. inversion H; subst. repeat split; try discriminate; intros; lia.
  - destruct running; [|discriminate]. intros H. inversion H; subst. repeat split; intros; try reflexivity; lia.
Qed.

(* the same for either state of the face, against the specification's decision: what the closure returns
   is "sent", and it is True exactly when the Data went out; it raises (NetworkError) only when the face is
   down inside the lifetime, i.e. only when nothing was and nothing could be transmitted *)
Theorem top_reply_any_face d t running :
  match reply_closure d t running with
  | Ok (sent, r) => sent = s_reply_out d t running /\ r = (if sent then RTrue else RFalse)
  | Err e => e = E_NETWORK /\ s_reply_out d t running = false /\ running = false /\ t <= d
  end.
Proof.
  unfold reply_closure, s_reply_out, s_reply_sent.
  destruct (d <? t) eqn:E, (t <=? d) eqn:F, running; cbn; repeat split; try reflexivity; lia.
Qed.
