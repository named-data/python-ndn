(* setting a key that had no value in a pruned trie and deleting it again gives back the very same trie (structure
   included) *)
From NDN Require Import Base.Prelude Model.Trie Proofs.ListLemmas Proofs.TrieProofs.

Section Inverse.
  Context {V : Type}.
  Notation trie := (trie V).

  Lemma ch_set_set (l : list (bytes * trie)) c s1 s2 : ch_set (ch_set l c s1) c s2 = ch_set l c s2.
  Proof. apply (al_set_set _ bytes_eqb_spec). Qed.

  Lemma ch_set_same (l : list (bytes * trie)) c s : ch_get l c = Some s -> ch_set l c s = l.
  Proof. apply (al_set_same _ bytes_eqb_spec). Qed.

  Lemma ch_del_set_fresh (l : list (bytes * trie)) c s : ch_get l c = None -> ch_del (ch_set l c s) c = l.
  Proof.
    unfold ch_get, ch_set, ch_del. induction l as [|[d s'] l IH]; cbn.
    - rewrite bytes_eqb_refl. reflexivity.
    - destruct (bytes_eqb c d) eqn:E; [discriminate|]. intros H. cbn. rewrite E. cbn. rewrite IH by exact H. reflexivity.
  Qed.

  Lemma t_set_node_twice (t : trie) k a o1 b :
    t_set_node (t_set_node t k a o1) k b false = t_set_node t k b false.
  Proof.
    revert t. induction k as [|c k IH]; intros t.
    - cbn. destruct (t_val t), o1; cbn; try reflexivity. destruct t as [[x|] l]; reflexivity.
    - cbn [t_set_node t_ch t_val]. rewrite ch_get_set_same, IH, ch_set_set. reflexivity.
  Qed.

  Theorem t_del_set_node (t : trie) k v oim :
    t_get t k = None -> t_pruned t = true -> t_del (t_set_node t k v oim) k = Ok t.
  Proof.
    revert t. induction k as [|c k IH]; intros t G P.
    - rewrite t_get_nil in G. destruct t as [x l]. cbn in G. subst x. reflexivity.
    - rewrite t_get_cons in G. cbn [t_set_node t_del t_ch t_val]. rewrite ch_get_set_same.
      apply t_pruned_ch in P. destruct t as [x l]. cbn [t_ch t_val] in *.
      destruct (ch_get l c) as [s|] eqn:Ec.
      + destruct (ch_ok_get _ _ _ P Ec) as [Ne Ps]. rewrite (IH s G Ps). cbn [bind]. rewrite Ne.
        rewrite ch_set_set, ch_set_same by exact Ec. reflexivity.
      + rewrite (IH t_empty (t_get_empty k) eq_refl). cbn [bind t_is_empty t_empty].
        rewrite ch_del_set_fresh by exact Ec. reflexivity.
  Qed.
End Inverse.
