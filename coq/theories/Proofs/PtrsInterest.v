(* C02 (receiving side, Interest): on every well-formed Interest value that the decoder accepts, the reported
   signature value is the specified one; the reported signed range and digest range are the specified ones when
   ApplicationParameters precedes the signature elements (as the packet format demands); the reported digest is the
   value of the ParametersSha256 component.
   A Type written next to a position ([7 0], [36 9], [46 11]; the markers at 7 and 8) is a position in LI, listed
   where Proofs/PtrsInterestWalk.v defines it; the [eq_refl] that follows checks it. *)
From NDN Require Import Base.Prelude Model.Name Model.Tlv Model.PacketPtrs Spec.SignedPortion Proofs.NameWire
  Proofs.PtrsSpecView Proofs.PtrsSplit Proofs.PtrsWalk Proofs.PtrsInterestWalk.
Local Open Scope N_scope.

Lemma name_decode_strict raw nv sel :
  is_el (7, raw) -> el_value raw = Some nv -> strict_split (S (length nv)) nv = Some sel ->
  exists u, name_decode raw = Ok (raws sel, u).
Proof.
  intros Hel Hv Hc.
  destruct (is_el_unfold 7 raw Hel) as (st & l & sl & E & Hlen & S1 & S2 & Hv'). destruct (E []) as (E1 & E2).
  rewrite app_nil_r in E1, E2. rewrite Hv' in Hv. injection Hv as <-.
  destruct (strict_split_view _ _ Hc) as (Enc & Hall & Hf).
  unfold name_decode. rewrite E1. cbn [bind]. unfold TYPE_NAME. cbn [N.eqb Pos.eqb negb].
  rewrite E2. cbn [bind].
  assert (Hnl : length (skipn (st + sl) raw) = N.to_nat l) by (rewrite skipn_length, Hlen; apply Nat.add_sub_eq_l; reflexivity).
  rewrite <- skipn_length, Hnl, N2Nat.id, N.ltb_irrefl. rewrite <- (N2Nat.id l), <- Hnl, nat_N_Z, Enc.
  assert (Hfuel : (length (raws sel) < S (length raw))%nat).
  { unfold raws. rewrite map_length. apply (Nat.lt_le_trans _ _ _ Hf), le_n_S. rewrite skipn_length. apply Nat.le_sub_l. }
  pose proof (decode_loop_ok (raws sel) _ [] [] (N.of_nat (st + sl))
                (proj2 (Forall_map snd comp_form sel) (Forall_impl _ is_el_form Hall)) Hfuel) as G.
  rewrite app_nil_r in G. rewrite G. eexists; reflexivity.
Qed.

Definition non2 (c : bytes) : bool := negb (comp_type c =? 2).
Definition is2 (c : bytes) : bool := comp_type c =? 2.
Definition dig_fold (comps : list bytes) (d : option bytes) : option bytes :=
  fold_left (fun d c => if is2 c then el_value c else d) comps d.

Lemma name_parts_ok : forall sel cov dig, Forall is_el sel ->
  name_parts (raws sel) cov dig = Ok (cov ++ filter non2 (raws sel), dig_fold (raws sel) dig).
Proof.
  induction sel as [|[t c] r IH]; intros cov dig H; [cbn; rewrite app_nil_r; reflexivity|].
  inversion H as [|? ? Hel Hr]; subst. cbn [raws map snd]. fold (raws r).
  destruct (is_el_unfold t c Hel) as (st & l & sl & E & _ & _ & _ & Hv). destruct (E []) as (E1 & E2).
  rewrite app_nil_r in E1, E2.
  pose proof (comp_type_dec _ _ _ E1) as Hct.
  cbn [name_parts filter]. unfold comp_get_type, comp_get_value, dig_fold. rewrite E1. cbn [bind fst snd fold_left].
  unfold non2, is2. rewrite Hct. unfold TYPE_PARAMETERS_SHA256. destruct (t =? 2); cbn [negb].
  - rewrite E2. cbn [bind snd]. rewrite Hv. apply IH. exact Hr.
  - rewrite (IH _ _ Hr), <- app_assoc. reflexivity.
Qed.

Lemma dig_fold_none comps d : filter is2 comps = [] -> dig_fold comps d = d.
Proof.
  revert d; induction comps as [|c r IH]; intros d H; [reflexivity|]. cbn [filter] in H. unfold dig_fold. cbn [fold_left].
  destruct (is2 c); [discriminate|]. apply IH; exact H.
Qed.
Lemma dig_fold_one comps d c : filter is2 comps = [c] -> dig_fold comps d = el_value c.
Proof.
  revert d; induction comps as [|x r IH]; intros d H; [discriminate|]. cbn [filter] in H. unfold dig_fold. cbn [fold_left].
  destruct (is2 x) eqn:E.
  - inversion H; subst. apply dig_fold_none. assumption.
  - apply IH; exact H.
Qed.

(* InterestNameField.parse_from on the element assigned to the Name field *)
Definition name_run (rs : list (elem * bytes)) (ev : events) : res (list bytes * option bytes) :=
  match event_of TYPE_NAME ev with
  | Some (i, _) =>
      match nth_error rs i with
      | Some (_, raw) => do nd <- name_decode raw ;; name_parts (fst nd) [] None
      | None => Err EIndex
      end
  | None => Ok ([], None)
  end.

Lemma name_run_spec v sel rs ev nv comps :
  strict_split (S (length v)) v = Some sel -> Forall2 agrees rs sel -> walk LI 0 (types sel) 0 [] = Ok ev ->
  value_of_type (S (length v)) T_NAME v = Some nv -> components (S (length nv)) nv = Some comps ->
  name_run rs ev = Ok (filter non2 comps, dig_fold comps None).
Proof.
  intros Hs Hag W Hv Hc. destruct (strict_split_view _ _ Hs) as (_ & Hel & _).
  rewrite components_strict in Hc. destruct (strict_split (S (length nv)) nv) as [csel|] eqn:Hcs; [|discriminate].
  injection Hc as <-. destruct (split_scan v sel 7 Hs) as (_ & _ & E7). unfold T_NAME in Hv. rewrite E7 in Hv.
  pose proof (walk_first_event LI LI_nodup 7 0 eq_refl (or_introl eq_refl) _ _ _ _ _ W (or_introl (le_n 0))) as Hev.
  destruct (idx_of 7 (types sel)) as [k|] eqn:I7; [|discriminate]. destruct Hev as (m & Hm). cbn [Nat.add] in Hm.
  pose proof (idx_of_nth _ _ _ I7) as Ht. pose proof (agrees_raws _ _ Hag) as Hr.
  apply (f_equal (fun l => nth_error l k)) in Hr. unfold value_at in Hv. unfold types, raws in Ht, Hv, Hr.
  rewrite nth_error_map in Ht, Hv. rewrite !nth_error_map in Hr.
  destruct (nth_error sel k) as [[t e]|] eqn:En; [|discriminate]. cbn [option_map fst snd] in Ht, Hv, Hr. injection Ht as ->.
  destruct (nth_error rs k) as [[el raw]|] eqn:Er; cbn [option_map snd] in Hr; [|discriminate]. injection Hr as ->.
  destruct (name_decode_strict e nv csel (proj1 (Forall_forall _ _) Hel _ (nth_error_In _ _ En)) Hv Hcs) as (u & Hu).
  unfold name_run, TYPE_NAME. rewrite Hm, Er, Hu. cbn [bind fst].
  exact (name_parts_ok csel [] None (proj2 (strict_split_inv _ _ _ Hcs))).
Qed.

Lemma idx_firstn_notin t ts k : idx_of t ts = Some k -> ~ In t (firstn k ts).
Proof. intros H. apply (idx_of_split _ _ _ H). Qed.

(* ApplicationParameters comes before the signature elements *)
Definition params_first (ts : list N) : Prop :=
  forall k, idx_of 36 ts = Some k -> forall x, In x (firstn k ts) -> x <> 44 /\ x <> 46.

Lemma params_before ts k : params_first ts -> idx_of 36 ts = Some k -> Forall (before LI 7) (firstn k ts).
Proof.
  intros Hcanon I. apply before_markers. intros x Hx. destruct (Hcanon k I x Hx) as (N44 & N46).
  split; [|split; assumption]. intros ->. exact (idx_firstn_notin _ _ _ I Hx).
Qed.

Lemma digest_start_mark ts k ev : params_first ts -> idx_of 36 ts = Some k -> walk LI 0 ts 0 [] = Ok ev ->
  get_mark MARK_DIG_START (last_marks [] ev) = Some k.
Proof.
  intros Hcanon I W. destruct (idx_of_split _ _ _ I) as (E & L & _). rewrite E in W.
  assert (HA : Forall (before LI 8) (firstn k ts)).
  { eapply Forall_impl; [|exact (params_before _ _ Hcanon I)]. intros x Hx j Hj. apply Hx in Hj. lia. }
  pose proof (proj2 (walk_mark_set LI LI_nodup MARK_DIG_START 8 eq_refl 36 9 eq_refl (le_n 9) _ _ 0 0 [] ev HA W (Nat.le_0_l _))) as G.
  rewrite L in G. exact G.
Qed.

Section Spec.
Variables (v : bytes) (sel : list (N * bytes)) (p : ptrs).
Hypothesis Hs : strict_split (S (length v)) v = Some sel.
Hypothesis Hp : ptrs_interest_with LI v = Ok p.

Lemma run_parts : exists rs ev ncov dig,
  Forall2 agrees rs sel /\ walk LI 0 (types sel) 0 [] = Ok ev /\ name_run rs ev = Ok (ncov, dig) /\
  p = Ptrs (ncov ++ fst (sig_part 46 rs ev)) (snd (sig_part 46 rs ev))
           [let lo := match get_mark MARK_DIG_START (last_marks [] ev) with Some a => a | None => O end in
            match get_mark MARK_DIG_END (last_marks [] ev) with
            | Some b => raws_between (raws sel) lo b
            | None => raws_from (raws sel) lo
            end] dig.
Proof.
  destruct (split_raw_strict _ _ Hs) as (rs & Ers & Hag).
  pose proof Hp as Hp'. unfold ptrs_interest_with in Hp'. rewrite Ers in Hp'. cbn [bind] in Hp'.
  rewrite (agrees_types _ _ Hag), (agrees_raws _ _ Hag) in Hp'.
  destruct (walk LI 0 (types sel) 0 []) as [ev|] eqn:W; [|discriminate]. cbn [bind] in Hp'.
  fold (name_run rs ev) in Hp'. destruct (name_run rs ev) as [[ncov dig]|] eqn:En; [|discriminate]. cbn [bind] in Hp'.
  exists rs, ev, ncov, dig. split; [exact Hag|]. split; [reflexivity|]. split; [exact En|].
  destruct (sig_part 46 rs ev) as [cov sv]. injection Hp' as <-. reflexivity.
Qed.

Theorem interest_sig_value : p_sig_value p = value_of_type (S (length v)) 46 v.
Proof.
  destruct run_parts as (rs & ev & ncov & dig & Hag & W & _ & ->). cbn [p_sig_value].
  destruct (split_scan v sel 46 Hs) as (_ & _ & ->).
  (* Type 46 is not critical: its first element is the one assigned because no field is declared after it *)
  exact (proj1 (sig_part_value LI LI_nodup 46 11 eq_refl (or_intror LI_last) rs sel ev Hag W)).
Qed.

Theorem interest_digest_value dc : digest_component v = Some dc -> p_dig_value p = Some dc.
Proof.
  intros Hd. unfold digest_component in Hd.
  destruct (value_of_type (S (length v)) T_NAME v) as [nv|] eqn:Hv; [|discriminate].
  destruct (components (S (length nv)) nv) as [comps|] eqn:Hc; [|discriminate].
  destruct run_parts as (rs & ev & ncov & dig & Hag & W & Hn & ->). cbn [p_dig_value].
  rewrite (name_run_spec _ _ _ _ _ _ Hs Hag W Hv Hc) in Hn. injection Hn as _ <-.
  fold is2 in Hd. destruct (filter is2 comps) as [|c [|c' r]] eqn:F; try discriminate.
  rewrite (dig_fold_one _ _ _ F). exact Hd.
Qed.

Hypothesis Hcanon : params_first (types sel).

Theorem interest_digest_range dp : digest_portion v = Some dp -> concat (p_dig_covered p) = dp.
Proof.
  intros Hd. unfold digest_portion in Hd. destruct (split_scan v sel 36 Hs) as (_ & E36 & _). rewrite E36 in Hd.
  destruct (idx_of 36 (types sel)) as [k|] eqn:I; [|discriminate]. injection Hd as <-.
  destruct run_parts as (rs & ev & ncov & dig & Hag & W & _ & ->). cbn [p_dig_covered concat]. rewrite app_nil_r.
  rewrite (digest_start_mark _ k ev Hcanon I W).
  rewrite (walkI_no_end _ _ _ _ _ W). cbn [get_mark]. unfold raws_from. rewrite raws_skipn. reflexivity.
Qed.

Theorem interest_signed_range s : signed_portion_interest v = Some s -> concat (p_sig_covered p) = s.
Proof.
  intros Hsp. unfold signed_portion_interest in Hsp.
  destruct (value_of_type (S (length v)) T_NAME v) as [nv|] eqn:Hv; [|discriminate].
  destruct (components (S (length nv)) nv) as [comps|] eqn:Hc; [|discriminate].
  (* what remains of the specification is [between 36 46 v] behind the name components *)
  pose proof (between_view 36 46 v sel Hs) as Bv. unfold between in Bv.
  destruct (before_type (S (length v)) 46 v) as [pre|]; [|discriminate]. rewrite Bv in Hsp. clear Bv.
  destruct (idx_of 46 (types sel)) as [k46|] eqn:I46; [|discriminate].
  destruct (idx_of 36 (firstn k46 (types sel))) as [k36|] eqn:I36f; [|discriminate]. injection Hsp as <-.
  destruct (idx_of_firstn _ _ _ _ I36f) as (I36 & _).
  destruct run_parts as (rs & ev & ncov & dig & Hag & W & Hn & ->). cbn [p_sig_covered].
  rewrite (name_run_spec _ _ _ _ _ _ Hs Hag W Hv Hc) in Hn. injection Hn as <- _.
  rewrite (sig_part_between LI LI_nodup 46 11 eq_refl (or_intror LI_last) 7 36 9 eq_refl eq_refl (le_S _ _ (le_n 8))
             (proj1 (Nat.leb_le 7 11) eq_refl) rs sel ev k36 k46 Hag W I46 I36f (params_before _ _ Hcanon I36)).
  rewrite concat_app. cbn [concat]. rewrite app_nil_r. reflexivity.
Qed.
End Spec.
