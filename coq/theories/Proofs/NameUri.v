(* C09: URI <-> component round trips, and the components built from a value and a type number.
   What to_str and to_canonical_uri print for a component is described by one relation, [rendering]: from_str reads
   any rendering back ([comp_from_str_rendering]), and each of the two prints one ([uri_body_rendering],
   [to_str_rendering]). *)
From NDN Require Import Base.Prelude Base.Text Model.TlvVar Model.Name
  Proofs.BytesLemmas Proofs.TlvVarProofs Proofs.TextProofs Proofs.NameWire.
Local Open Scope N_scope.

(* a CHARSET character other than '=' and '/' *)
Definition okc (c : N) : bool := in_charset c && negb (c =? 61) && negb (c =? 47).

Lemma okc_spec c : okc c = true -> in_charset c = true /\ c <> 61 /\ c <> 47.
Proof.
  unfold okc. rewrite !andb_true_iff. intros [[Hc H61] H47].
  repeat split; [exact Hc| |]; intros ->; discriminate.
Qed.

Lemma okc_in_charset s : forallb okc s = true -> forallb in_charset s = true.
Proof. apply forallb_impl. intros c H. now apply okc_spec in H. Qed.

Lemma okc_noslash s : forallb okc s = true -> forallb (fun c => negb (c =? 47)) s = true.
Proof. intros H. exact (forallb_avoid 47 H eq_refl). Qed.

Lemma okc_no_eq s : forallb okc s = true -> ~ In 61 s.
Proof. exact (not_in_class okc 61 s eq_refl). Qed.

Lemma count_eq_notin c s : ~ In c s -> count_eq c s = 0%nat.
Proof.
  induction s as [|x s IH]; intros H; [reflexivity|]. cbn [count_eq]. rewrite IH by (intros Hi; apply H; now right).
  destruct (N.eqb_spec x c) as [->|_]; [destruct H; now left|reflexivity].
Qed.

Lemma index_of_notin c s : ~ In c s -> index_of c s = None.
Proof.
  induction s as [|x s IH]; intros H; [reflexivity|]. cbn [index_of]. rewrite IH by (intros Hi; apply H; now right).
  destruct (N.eqb_spec x c) as [->|_]; [destruct H; now left|reflexivity].
Qed.

Lemma index_of_app_notin c a r : ~ In c a -> index_of c (a ++ c :: r) = Some (length a).
Proof.
  induction a as [|x a IH]; intros H; cbn [app index_of length]; [now rewrite N.eqb_refl|].
  rewrite IH by (intros Hi; apply H; now right).
  destruct (N.eqb_spec x c) as [->|_]; [destruct H; now left|reflexivity].
Qed.

Lemma count_eq_app c a b : count_eq c (a ++ b) = (count_eq c a + count_eq c b)%nat.
Proof. induction a as [|x a IH]; cbn [app count_eq]; [reflexivity|]. rewrite IH. lia. Qed.

Lemma alnum_okc c : is_alpha c || is_digit c = true -> okc c = true.
Proof.
  intros H. unfold okc, in_charset. rewrite H. cbn [orb andb].
  destruct (N.eqb_spec c 61) as [->|_]; [discriminate H|]. destruct (N.eqb_spec c 47) as [->|_]; [discriminate H|].
  reflexivity.
Qed.

Lemma is_digit_okc c : is_digit c = true -> okc c = true.
Proof. intros H. apply alnum_okc. rewrite H. apply orb_true_r. Qed.

Lemma digits_okc s : forallb is_digit s = true -> forallb okc s = true.
Proof. apply forallb_impl, is_digit_okc. Qed.

Lemma hexdigit_okc x : x < 16 -> okc (hexdigit_upper x) = true /\ okc (hexdigit_lower x) = true.
Proof.
  intros H. unfold hexdigit_upper, hexdigit_lower. destruct (N.ltb_spec x 10).
  - assert (D : is_digit (48 + x) = true) by (unfold is_digit; lia). split; apply is_digit_okc, D.
  - split; apply alnum_okc, orb_true_iff; left; unfold is_alpha; lia.
Qed.

Lemma uri_char_okc b : b < 256 -> forallb okc (uri_char b) = true.
Proof.
  intros Hb. unfold uri_char. destruct (in_charset b && negb (b =? 37) && negb (b =? 61)) eqn:E; cbn [forallb].
  - (* kept as it is: in CHARSET and not '=', so not '/' either *)
    rewrite !andb_true_iff in E. destruct E as [[Ec _] E61].
    unfold okc. rewrite Ec, E61. destruct (N.eqb_spec b 47) as [->|_]; [discriminate Ec|reflexivity].
  - assert (H1 : b / 16 < 16) by (apply N.div_lt_upper_bound; lia). assert (H2 : b mod 16 < 16) by (apply N.mod_lt; lia).
    now rewrite (proj1 (hexdigit_okc _ H1)), (proj1 (hexdigit_okc _ H2)).
Qed.

Lemma uri_char_nonempty b : uri_char b <> [].
Proof. unfold uri_char. destruct (_ && _); discriminate. Qed.

Lemma pct_decode_uri_char b r : b < 256 ->
  pct_decode (uri_char b ++ r) = option_map (cons b) (pct_decode r).
Proof.
  intros Hb. unfold uri_char.
  destruct (in_charset b && negb (b =? 37) && negb (b =? 61)) eqn:E.
  - cbn [app pct_decode]. destruct (b =? 37) eqn:E37.
    + rewrite andb_false_r in E. cbn in E. discriminate.
    + destruct (pct_decode r); reflexivity.
  - cbn [app pct_decode]. change (37 =? 37) with true. cbv iota.
    rewrite !hexval_upper by lia. cbn [obind].
    destruct (pct_decode r); cbn [obind option_map]; [|reflexivity]. now replace (b / 16 * 16 + b mod 16) with b by lia.
Qed.

Lemma pct_decode_body v : wf_bytes v -> pct_decode (flat_map uri_char v) = Some v.
Proof.
  induction 1 as [|b v Hb Hv IH]; [reflexivity|].
  cbn [flat_map]. rewrite pct_decode_uri_char by exact Hb. rewrite IH. reflexivity.
Qed.

Lemma body_okc v : wf_bytes v -> forallb okc (flat_map uri_char v) = true.
Proof.
  induction 1 as [|b v Hb Hv IH]; [reflexivity|].
  cbn [flat_map]. rewrite forallb_app, uri_char_okc by exact Hb. exact IH.
Qed.

Lemma body_nonempty v : v <> [] -> flat_map uri_char v <> [].
Proof.
  destruct v as [|b v]; [congruence|]. intros _. cbn [flat_map].
  pose proof (uri_char_nonempty b). destruct (uri_char b); [congruence|discriminate].
Qed.

Lemma typed_charset k r : forallb okc k = true -> forallb okc r = true -> forallb in_charset (k ++ 61 :: r) = true.
Proof.
  intros Hk Hr. rewrite forallb_app. cbn [forallb]. rewrite (okc_in_charset k Hk), (okc_in_charset r Hr). reflexivity.
Qed.

Lemma comp_from_str_nonempty val : val <> [] ->
  comp_from_str val =
  if negb (forallb in_charset val) then Err EValue
  else if Nat.ltb 1 (count_eq 61 val) then Err EValue
  else match index_of 61 val with
       | Some off => comp_from_typed (firstn off val) (skipn (S off) val)
       | None => do body <- of_opt EValue (pct_decode val) ;; Ok (comp_enc TYPE_GENERIC body)
       end.
Proof. destruct val; [congruence|reflexivity]. Qed.

Lemma comp_from_str_typed ds body :
  forallb okc ds = true -> forallb okc body = true ->
  comp_from_str (ds ++ 61 :: body) = comp_from_typed ds body.
Proof.
  intros Hd Hb. rewrite comp_from_str_nonempty by (destruct ds; discriminate).
  rewrite (typed_charset ds body Hd Hb). cbn [negb].
  rewrite count_eq_app. cbn [count_eq]. rewrite !count_eq_notin by (now apply okc_no_eq).
  change (61 =? 61) with true. cbn [Nat.add Nat.ltb Nat.leb].
  rewrite index_of_app_notin by (now apply okc_no_eq).
  rewrite firstn_app_exact.
  replace (skipn (S (length ds)) (ds ++ 61 :: body)) with body; [reflexivity|].
  clear. induction ds as [|c ds IH]; [reflexivity|]. cbn [length app skipn]. exact IH.
Qed.

Lemma digit_not_alpha c k : is_digit c = true -> is_alpha k = true -> (c =? k) = false.
Proof. unfold is_digit, is_alpha. lia. Qed.

Lemma head_digit_not_key ds :
  ds <> [] -> forallb is_digit ds = true ->
  str_eqb ds s_sha256digest = false /\ str_eqb ds s_params_sha256 = false /\ alt_by_str alt_uri ds = None.
Proof.
  intros Hne Hd. destruct ds as [|c r]; [congruence|]. cbn [forallb] in Hd. apply andb_true_iff in Hd.
  destruct Hd as [Hc _]. pose proof (digit_not_alpha c) as Hk.
  repeat split; [apply str_eqb_head, Hk; [exact Hc|reflexivity]..|].
  cbn [alt_by_str alt_uri]. now rewrite !str_eqb_head by (apply Hk; [exact Hc|reflexivity]).
Qed.

Definition rendering (t : N) (v : bytes) (p : str) : Prop :=
  (t = 8 /\ p = flat_map uri_char v) \/
  (t <> 8 /\ exists k r, p = k ++ 61 :: r /\ forallb okc k = true /\ forallb okc r = true /\
                        comp_from_typed k r = Ok (comp_enc t v)).

Lemma comp_from_str_rendering t v p : wf_bytes v -> rendering t v p -> comp_from_str p = Ok (comp_enc t v).
Proof.
  intros Hv [[-> ->]|(_ & k & r & -> & Hk & Hr & E)]; [|now rewrite comp_from_str_typed].
  destruct v as [|b v'] eqn:Ev; [reflexivity|]. rewrite <- Ev in *.
  rewrite comp_from_str_nonempty by (apply body_nonempty; congruence).
  rewrite (okc_in_charset _ (body_okc v Hv)). cbn [negb].
  rewrite count_eq_notin, index_of_notin by (apply okc_no_eq, body_okc, Hv). cbn [Nat.ltb Nat.leb].
  now rewrite pct_decode_body.
Qed.

Lemma rendering_charset t v p : wf_bytes v -> rendering t v p -> forallb in_charset p = true.
Proof.
  intros Hv [[_ ->]|(_ & k & r & -> & Hk & Hr & _)]; [apply okc_in_charset, body_okc, Hv|now apply typed_charset].
Qed.

Lemma rendering_empty t v p : rendering t v p -> (p = [] <-> t = 8 /\ v = []).
Proof.
  intros [[-> ->]|(Ht & k & r & -> & _)].
  - split; [|now intros [_ ->]]. intros E. split; [reflexivity|]. destruct v as [|b v]; [reflexivity|].
    now destruct (body_nonempty (b :: v) ltac:(discriminate)).
  - split; [destruct k; discriminate|now intros [E _]].
Qed.

Definition valid_type (t : N) : Prop := 0 < t /\ t <= 65535.

Lemma valid_type_small t : valid_type t -> t < two64.
Proof. intros [_ H]. unfold two64. lia. Qed.

Lemma uri_body_rendering t v : valid_type t -> wf_bytes v -> rendering t v (uri_body t v).
Proof.
  intros [Ht0 Ht1] Hv. unfold uri_body, TYPE_GENERIC. destruct (N.eqb_spec t 8) as [->|Ht8]; [now left|right].
  split; [exact Ht8|]. destruct (dec_print_spec t) as (Hne & Hd & _).
  exists (dec_print t), (flat_map uri_char v). rewrite <- app_assoc.
  repeat split; [apply digits_okc, Hd|apply body_okc, Hv|]. unfold comp_from_typed.
  destruct (head_digit_not_key (dec_print t) Hne Hd) as (K1 & K2 & K3). rewrite K1, K2, K3.
  rewrite py_int_dec_print. cbn [of_opt bind]. unfold MAX_COMPONENT_TYPE.
  replace ((Z.of_N t <=? 0)%Z || (Z.of_N 65535 <? Z.of_N t)%Z) with false by lia.
  rewrite pct_decode_body by exact Hv. cbn [of_opt bind]. now rewrite N2Z.id.
Qed.

Lemma comp_to_canonical_uri_enc t v :
  t < two64 -> N.of_nat (length v) < two64 -> comp_to_canonical_uri (comp_enc t v) = Ok (uri_body t v).
Proof. intros Ht Hl. unfold comp_to_canonical_uri. now rewrite comp_split_enc. Qed.

(* C09: canonical URI round trip for every component *)
Theorem comp_canonical_uri_roundtrip t v :
  valid_type t -> wf_bytes v -> N.of_nat (length v) < two64 ->
  (do u <- comp_to_canonical_uri (comp_enc t v) ;; comp_from_str u) = Ok (comp_enc t v).
Proof.
  intros Ht Hv Hl. rewrite comp_to_canonical_uri_enc by (exact Hl || apply valid_type_small, Ht). cbn [bind].
  apply comp_from_str_rendering; [exact Hv|now apply uri_body_rendering].
Qed.

Lemma hex_print_okc v : wf_bytes v -> forallb okc (hex_print v) = true.
Proof.
  induction 1 as [|b v Hb Hv IH]; [reflexivity|]. cbn [hex_print forallb].
  assert (H1 : b / 16 < 16) by (apply N.div_lt_upper_bound; lia). assert (H2 : b mod 16 < 16) by (apply N.mod_lt; lia).
  now rewrite (proj2 (hexdigit_okc _ H1)), (proj2 (hexdigit_okc _ H2)), IH.
Qed.

Definition is_alt_type (t : N) : bool := (t =? 50) || (t =? 52) || (t =? 54) || (t =? 56) || (t =? 58).

Lemma alt_by_type_in l t k : alt_by_type l t = Some k -> In (k, t) l.
Proof.
  induction l as [|[k' t'] l IH]; cbn [alt_by_type]; [discriminate|].
  destruct (N.eqb_spec t t') as [->|_]; [intros H; injection H as ->; now left|right; now apply IH].
Qed.

Lemma alt_uri_keys :
  Forall (fun p => is_alt_type (snd p) = true /\ forallb okc (fst p) = true /\ str_eqb (fst p) s_sha256digest = false
                   /\ str_eqb (fst p) s_params_sha256 = false /\ alt_by_str alt_uri (fst p) = Some (snd p)) alt_uri.
Proof. repeat constructor. Qed.

Lemma comp_from_bytes_ok v t : valid_type t -> comp_from_bytes v (Z.of_N t) = Ok (comp_enc t v).
Proof.
  intros [H0 H1]. unfold comp_from_bytes, MAX_COMPONENT_TYPE.
  replace ((Z.of_N t <=? 0)%Z || (Z.of_N 65535 <? Z.of_N t)%Z) with false by lia.
  rewrite N2Z.id. reflexivity.
Qed.

Lemma comp_from_number_ok n t :
  valid_type t -> n < two64 -> comp_from_number (Z.of_N n) t = Ok (comp_enc t (nni_enc n)).
Proof.
  intros Ht Hn. unfold comp_from_number. replace (Z.of_N n <? 0)%Z with false by lia.
  rewrite N2Z.id, nni_enc_r_ok by exact Hn. apply comp_from_bytes_ok, Ht.
Qed.

Definition to_str_body (t : N) (v : bytes) : str :=
  if t =? 1 then s_sha256digest ++ 61 :: hex_print v
  else if t =? 2 then s_params_sha256 ++ 61 :: hex_print v
  else match alt_by_type alt_uri t with
       | Some k => if nni_len_ok (length v) then k ++ 61 :: dec_print (be_to_N v) else uri_body t v
       | None => uri_body t v
       end.

Lemma comp_to_str_enc t v :
  t < two64 -> N.of_nat (length v) < two64 -> comp_to_str (comp_enc t v) = Ok (to_str_body t v).
Proof.
  intros Ht Hl. unfold comp_to_str, to_str_body. rewrite comp_split_enc by assumption. cbn [bind].
  unfold TYPE_IMPLICIT_SHA256, TYPE_PARAMETERS_SHA256.
  destruct (t =? 1); [reflexivity|]. destruct (t =? 2); [reflexivity|].
  destruct (alt_by_type alt_uri t); [destruct (nni_len_ok (length v))|]; reflexivity.
Qed.

Lemma to_str_rendering t v :
  valid_type t -> wf_bytes v ->
  (is_alt_type t = true -> nni_len_ok (length v) = true -> exists m, m < two64 /\ v = nni_enc m) ->
  rendering t v (to_str_body t v).
Proof.
  intros Ht Hv Hcanon. unfold to_str_body.
  destruct (N.eqb_spec t 1) as [->|_].
  { right. split; [discriminate|]. exists s_sha256digest, (hex_print v). repeat split; [apply hex_print_okc, Hv|].
    unfold comp_from_typed. change (str_eqb s_sha256digest s_sha256digest) with true. cbv iota.
    rewrite hex_parse_print by exact Hv. exact (comp_from_bytes_ok v 1 Ht). }
  destruct (N.eqb_spec t 2) as [->|_].
  { right. split; [discriminate|]. exists s_params_sha256, (hex_print v). repeat split; [apply hex_print_okc, Hv|].
    unfold comp_from_typed. change (str_eqb s_params_sha256 s_sha256digest) with false.
    change (str_eqb s_params_sha256 s_params_sha256) with true. cbv iota.
    rewrite hex_parse_print by exact Hv. exact (comp_from_bytes_ok v 2 Ht). }
  destruct (alt_by_type alt_uri t) as [k|] eqn:Ea; [|now apply uri_body_rendering].
  destruct (nni_len_ok (length v)) eqn:EL; [|now apply uri_body_rendering].
  destruct (proj1 (Forall_forall _ _) alt_uri_keys _ (alt_by_type_in _ _ _ Ea)) as (Ha & Hk & K1 & K2 & K3).
  cbn [fst snd] in Ha, Hk, K1, K2, K3.
  destruct (Hcanon Ha eq_refl) as (m & Hm & ->). right. split; [intros ->; discriminate Ha|].
  destruct (dec_print_spec (be_to_N (nni_enc m))) as (_ & Hd & _).
  exists k, (dec_print (be_to_N (nni_enc m))). repeat split; [exact Hk|apply digits_okc, Hd|].
  unfold comp_from_typed. rewrite K1, K2, K3, py_int_dec_print. cbn [of_opt bind].
  unfold nni_enc at 1. rewrite be_to_N_to_be_small by (apply nni_width_bound; exact Hm).
  now apply comp_from_number_ok.
Qed.

(* C09: URI round trip with naming-convention shorthands; numbers must be canonically encoded *)
Theorem comp_uri_roundtrip t v :
  valid_type t -> wf_bytes v -> N.of_nat (length v) < two64 ->
  (is_alt_type t = true -> nni_len_ok (length v) = true -> exists m, m < two64 /\ v = nni_enc m) ->
  (do u <- comp_to_str (comp_enc t v) ;; comp_from_str u) = Ok (comp_enc t v).
Proof.
  intros Ht Hv Hl Hcanon. rewrite comp_to_str_enc by (exact Hl || apply valid_type_small, Ht). cbn [bind].
  apply comp_from_str_rendering; [exact Hv|now apply to_str_rendering].
Qed.

(* Component.from_bytes / from_hex, and from_number through the shortest big-endian value *)
Lemma built_component t v :
  0 < t <= 65535 -> N.of_nat (length v) < two64 ->
  comp_from_bytes v (Z.of_N t) = Ok (comp_enc t v) /\
  comp_get_type (comp_enc t v) = Ok t /\ comp_get_value (comp_enc t v) = Ok v.
Proof.
  intros Ht Hv. pose proof (valid_type_small t Ht).
  split; [apply comp_from_bytes_ok; exact Ht|].
  split; [apply comp_get_type_enc; assumption | apply comp_get_value_enc; assumption].
Qed.

Lemma built_component_refused v (t : Z) : (t <= 0 \/ 65535 < t)%Z -> comp_from_bytes v t = Err EValue.
Proof.
  intros H. unfold comp_from_bytes, MAX_COMPONENT_TYPE.
  destruct (Z.leb_spec t 0); [reflexivity|].
  destruct (Z.ltb_spec (Z.of_N 65535) t); [reflexivity|]. lia.
Qed.

Lemma built_number (n t : N) :
  0 < t <= 65535 -> n < two64 ->
  exists b, nni_enc_r n = Ok b /\ comp_from_number (Z.of_N n) t = Ok (comp_enc t b) /\
            comp_get_type (comp_enc t b) = Ok t.
Proof.
  intros Ht Hn. exists (nni_enc n). split; [exact (nni_enc_r_ok n Hn)|].
  split; [exact (comp_from_number_ok n t Ht Hn)|apply comp_get_type_enc, valid_type_small, Ht].
Qed.
