(* C05 — the validation clauses of expressed Interests, proved on the specification automaton and transferred to the
   operational model through the refinement. *)
From NDN Require Import Base.Prelude Spec.ExpressSpec Model.ExpressPipeline Proofs.ListLemmas Proofs.ExpressBasics
  Proofs.ExpressRefine Proofs.ExpressMain.
Local Open Scope N_scope.

Definition verdict_given (h : list (tie * ev)) (i v : N) : Prop :=
  (exists m n cbp dig life t, In (m, Express i n cbp dig life (VImm v) t) h) \/ (exists m t, In (m, VDone i v t) h).
Definition data_received (h : list (tie * ev)) (d : N) : Prop := exists m n hs t, In (m, Data d n hs t) h.
Definition expressed_with (h : list (tie * ev)) (i : N) (vm : vmode) : Prop :=
  exists m n cbp dig life t, In (m, Express i n cbp dig life vm t) h.

Definition justified (fe : frontend) (h : list (tie * ev)) (i : N) (st : istate) : Prop :=
  match st with
  | INone => True
  | IPending r => expressed_with h i (s_vm r)
  | IValidating r d => expressed_with h i (s_vm r) /\ s_vm r = VDef /\ data_received h d
  | IDone (OGot d) => data_received h d /\ exists v, pass fe v = true /\ verdict_given h i v
  | IDone (OInvalid d v') => data_received h d /\ exists v, pass fe v = false /\ v' = norm_verdict fe v /\ verdict_given h i v
  | IDone _ => True
  end.

Lemma justified_expire fe sb t h i st : justified fe h i st -> justified fe h i (expire fe sb t st).
Proof.
  destruct st as [|r|r d|o]; cbn; auto.
  - destruct (due sb (s_D r) t); cbn; auto.
  - destruct fe; auto. destruct (due sb (s_D r) t); cbn; auto.
Qed.

Lemma justified_verdict fe h i d v :
  data_received h d -> verdict_given h i v -> justified fe h i (IDone (verdict_outcome fe d v)).
Proof. intros D G. unfold verdict_outcome. destruct (pass fe v) eqn:P; cbn; split; auto; exists v; auto. Qed.

Lemma justified_react fe h i st m e :
  In (m, e) h -> justified fe h i st -> justified fe h i (react fe i st e).
Proof.
  intros HERE J. destruct e; destruct st as [|r|r d0|o]; cbn [react]; auto.
  - (* Express *) destruct (N.eqb_spec i0 i); [subst|exact J]. cbn. do 6 eexists. exact HERE.
  - (* Data on Pending *)
    destruct (matches r n hash && (t <? s_D r)); [|exact J]. cbn in J.
    assert (DR : data_received h d) by (do 4 eexists; exact HERE).
    destruct (s_vm r) eqn:VM.
    + apply justified_verdict; [exact DR | left; exact J].
    + cbn. rewrite VM. split; [exact J | split; [reflexivity | exact DR]].
  - (* Nack *) destruct (name_eqb n (s_name r) && odig_eqb dig (s_dig r) && (t <? s_D r)); [exact I | exact J].
  - (* VDone *)
    destruct ((i0 =? i) && match fe with V2 => t <? s_D r | V1 => true end) eqn:C; [|exact J].
    apply andb_true_iff in C. destruct C as [C _]. apply N.eqb_eq in C. subst i0.
    apply justified_verdict; [apply J | right; do 2 eexists; exact HERE].
  - destruct (i0 =? i); [exact I | exact J].
  - destruct (i0 =? i); [exact I | exact J].
  - destruct (t <? s_D r); [exact I | exact J].
Qed.

(* by induction over the prefixes [h] of a history [h0], so that what justifies a state stays in sight *)
Lemma justified_prefix fe h0 h i : incl h h0 -> justified fe h0 i (spec_state fe h i).
Proof.
  induction h as [|[m e] h IH] using rev_ind; intros IN; [exact I|].
  rewrite spec_state_snoc. apply justified_expire, (justified_react _ _ _ _ m); [apply IN, in_app_iff; right; left; reflexivity|].
  apply justified_expire, IH. intros y Y. apply IN, in_app_iff. left. exact Y.
Qed.

Lemma completion_justified fe h i o :
  wf_history h -> completion (run_hist fe h) i = Some o -> justified fe h i (IDone o).
Proof.
  intros WF C. rewrite (outcome_correct fe h i WF) in C. unfold outcome_of in C.
  pose proof (justified_prefix fe h h i (incl_refl h)) as J. destruct (spec_state fe h i); try discriminate. injection C as <-. exact J.
Qed.

Theorem data_only_if_pass fe h i d :
  wf_history h -> completion (run_hist fe h) i = Some (OGot d) ->
  data_received h d /\ exists v, pass fe v = true /\ verdict_given h i v.
Proof. apply completion_justified. Qed.

Theorem failure_carries_packet_and_verdict fe h i d v' :
  wf_history h -> completion (run_hist fe h) i = Some (OInvalid d v') ->
  data_received h d /\ exists v, pass fe v = false /\ v' = norm_verdict fe v /\ verdict_given h i v.
Proof. apply completion_justified. Qed.

Definition slow_event (i D : N) (x : tie * ev) : Prop :=
  match snd x with
  | VDone j v t => j = i -> D <= t
  | Cancel j t => j <> i
  | _ => True
  end.

Lemma slow_step i r d x :
  slow_event i (s_D r) x ->
  spec_step V2 i (IValidating r d) x = if s_D r <=? ev_time (snd x) then IDone OTimeout else IValidating r d.
Proof.
  destruct x as [m e]. unfold slow_event, spec_step. cbn [fst snd expire]. intros SX.
  destruct (due (match m with NoTie => false | _ => true end) (s_D r) (ev_time e)) eqn:D1.
  - (* the deadline passed before the event is looked at *)
    replace (s_D r <=? ev_time e) with true
      by (symmetry; destruct m; [exact D1 | apply N.leb_le; apply N.ltb_lt in D1; lia ..]).
    destruct e; reflexivity.
  - assert (R : react V2 i (IValidating r d) e = IValidating r d).
    { destruct e; cbn [react]; auto.
      - destruct (N.eqb_spec i0 i) as [E|NE]; cbn [andb]; auto. cbn [ev_time] in *.
        destruct (N.ltb_spec t (s_D r)); [specialize (SX E); lia | reflexivity].
      - destruct (N.eqb_spec i0 i); auto. congruence. }
    rewrite R. reflexivity.
Qed.

Lemma slow_validator_spec i r d h2 :
  Forall (slow_event i (s_D r)) h2 ->
  fold_left (spec_step V2 i) h2 (IValidating r d) =
  if existsb (fun x => s_D r <=? ev_time (snd x)) h2 then IDone OTimeout else IValidating r d.
Proof.
  induction 1 as [|x h2 SX _ IH]; cbn [fold_left existsb]; [reflexivity|].
  rewrite (slow_step i r d x SX). destruct (s_D r <=? ev_time (snd x)); [apply spec_run_done | exact IH].
Qed.

(* a validator (V2) that does not answer strictly before the deadline ([slow_event]: nor does the caller cancel): the
   result is never the payload nor a validation failure; it is a timeout, once an event at or after the deadline is seen *)
Theorem slow_validator_is_timeout h1 h2 i r d :
  wf_history (h1 ++ h2) -> spec_state V2 h1 i = IValidating r d ->
  Forall (slow_event i (s_D r)) h2 ->
  (completion (run_hist V2 (h1 ++ h2)) i = None \/ completion (run_hist V2 (h1 ++ h2)) i = Some OTimeout) /\
  ((exists x, In x h2 /\ s_D r <= ev_time (snd x)) -> completion (run_hist V2 (h1 ++ h2)) i = Some OTimeout).
Proof.
  intros WF V SL. rewrite (outcome_correct V2 _ i WF). unfold outcome_of, spec_state. rewrite fold_left_app.
  fold (spec_state V2 h1 i). rewrite V, (slow_validator_spec i r d h2 SL).
  destruct (existsb _ h2) eqn:X; [auto|]. split; [auto|]. intros [x [I L]].
  apply Bool.not_true_iff_false in X. exfalso. apply X, existsb_exists. exists x. split; [exact I | apply N.leb_le, L].
Qed.

Lemma fib_settle fe s : fib (settle fe s) = fib s. Proof. reflexivity. Qed.
Lemma fib_fire b t s : fib (fire b t s) = fib s. Proof. reflexivity. Qed.
