(* Every accepted input form of one name normalises to the same component list. *)
From NDN Require Import Base.Prelude Base.Text Model.TlvVar Model.Name
  Proofs.BytesLemmas Proofs.NameWire Proofs.NameUri Proofs.NameUriName.
Local Open Scope N_scope.

Lemma uri_comp_wf c : uri_comp c -> wf_comp c.
Proof. intros (t & v & -> & Ht & _ & Hl). exists t, v. repeat split; [apply valid_type_small, Ht|exact Hl]. Qed.

Definition canon_strs (n : name) : res (list str) := rmap comp_to_canonical_uri n.

Theorem normalize_agree n :
  Forall uri_comp n -> N.of_nat (name_value_length n) < two64 ->
  name_normalize (NSWire (name_encode n)) = Ok n /\
  name_normalize (NSList (map NCBytes n)) = Ok n /\
  (do u <- name_to_canonical_uri n ;; name_normalize (NSStr u)) = Ok n /\
  (do ss <- canon_strs n ;; name_normalize (NSList (map NCStr ss))) = Ok n.
Proof.
  intros H Hl. repeat split.
  - cbn [name_normalize]. unfold name_from_bytes.
    rewrite <- (app_nil_r (name_encode n)).
    rewrite name_decode_encode; [reflexivity| |exact Hl].
    eapply Forall_impl; [|exact H]. apply uri_comp_wf.
  - cbn [name_normalize]. rewrite rmap_map. apply rmap_Ok.
  - apply name_canonical_uri_roundtrip. exact H.
  - unfold canon_strs.
    assert (Hp : Forall (part_ok comp_to_canonical_uri) n) by (eapply Forall_impl; [|exact H]; apply canonical_part_ok).
    destruct (rmap_parts _ _ Hp) as (parts & E & F). rewrite E. cbn [bind name_normalize].
    rewrite rmap_map. exact (rmap_back _ _ _ F).
Qed.
