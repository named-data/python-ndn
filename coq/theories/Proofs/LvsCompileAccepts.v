(* When compile succeeds: exactly on the schemas that are [compilable] (references closed and ranked, constraints resolvable,
   signers known), and otherwise it raises SemanticError ([compile_cases]).  The error class, one rejection theorem per static
   error of Spec/LvsSem.v and [compile_accepts] are its corollaries; the chains of a [schema_wf] schema meet [chains_ok]. *)
From NDN Require Import Proofs.ListLemmas Proofs.LvsTraverse Base.Prelude Base.Text Model.Name Model.LvsAst
  Model.LvsChecker Model.LvsCompiler Spec.LvsSem Spec.LvsChains Proofs.LvsFlatten Proofs.LvsGenTree Proofs.LvsCompileTree
  Proofs.LvsSortRules Proofs.LvsNumbering Proofs.LvsReplicate Proofs.LvsCompileStatic
  Proofs.LvsChainsOk Proofs.LvsSimD.
Local Open Scope N_scope.

Lemma chain_from_no_refs nrules rc : chain_from nrules rc -> no_refs rc.
Proof. intros (Hnf & _) r Hin. rewrite Forall_forall in Hnf. exact (Hnf _ Hin). Qed.

Definition chains_facts (S : lvsfile) (chains : list chain) (st : numst) : Prop :=
  exists sorted order nrules,
    sort_rule_references S = Ok (sorted, order) /\ gen_pattern_numbers sorted = Ok (nrules, st) /\
    (forall rc, In rc chains -> chain_from nrules rc /\
       exists r, In r (rename_temp_rules 1 S) /\ ch_id rc = r_id r /\ ch_sign rc = isort str_leb (r_sign r)) /\
    (forall r, In r (rename_temp_rules 1 S) -> exists rc, In rc chains /\ ch_id rc = r_id r /\ ch_sign rc = isort str_leb (r_sign r)).

Lemma chains_of_facts S chains st : chains_of S = Ok (chains, st) -> chains_facts S chains st.
Proof.
  intros H. destruct (chains_of_inv _ _ _ H) as (sorted & order & nrules & _ & Es & En & _).
  destruct (chains_of_total S sorted order nrules st (ref_fuel S) (le_S _ _ (le_n _)) Es En) as (chains' & H' & Hs & _).
  rewrite H in H'. injection H' as <-. exists sorted, order, nrules. split; [exact Es|]. split; [exact En|].
  split; [|exact (every_rule_has_chain S chains st H)].
  intros rc Hrc. destruct (Hs rc Hrc) as (Hfrom & lbl & d & _ & Hl & _ & Hid & _ & Hsg). split; [exact Hfrom|].
  exists (set_rule_id d lbl). split; [exact (labelled_in_renamed S lbl d Hl) | auto].
Qed.

(* replication and sorting by key cannot fail *)
Lemma chains_of_cases S :
  verdict ESemantic (chains_of S) (refs_closed S /\ ref_acyclic S /\ cons_resolvable S) (fun cs => chains_facts S (fst cs) (snd cs)).
Proof.
  destruct (sort_rule_references S) as [[sorted order]|e1] eqn:Es.
  2:{ destruct (verdict_err _ _ _ _ _ (sort_cases S) Es) as [-> Hn]. unfold chains_of. rewrite Es. split; [reflexivity | tauto]. }
  destruct (verdict_ok _ _ _ _ _ (sort_cases S) Es) as [[Hcl Hac] Hs]. cbn [fst snd] in Hs.
  assert (Hiff : all_cons_ok sorted <-> cons_resolvable S) by (apply all_cons_ok_ext, (so_rules _ _ _ Hs)).
  destruct (gen_pattern_numbers sorted) as [[nrules st]|e2] eqn:En.
  - destruct (chains_of_total S sorted order nrules st (ref_fuel S) (le_S _ _ (le_n _)) Es En) as (chains & Hc & _). rewrite Hc.
    split; [|exact (chains_of_facts S chains st Hc)].
    split; [exact Hcl|]. split; [exact Hac | apply Hiff, (verdict_ok _ _ _ _ _ (numbering_cases sorted) En)].
  - destruct (verdict_err _ _ _ _ _ (numbering_cases sorted) En) as [-> Hn]. unfold chains_of. rewrite Es. cbn [bind fst]. rewrite En.
    split; [reflexivity|]. intros (_ & _ & Hcons). apply Hn, Hiff, Hcons.
Qed.

Lemma chain_rule S chains st rc : chains_facts S chains st -> In rc chains ->
  exists r, In r (rename_temp_rules 1 S) /\ ch_id rc = r_id r /\ ch_sign rc = isort str_leb (r_sign r).
Proof. intros (sorted & order & nrules & _ & _ & Hfrom & _) Hrc. apply (Hfrom rc Hrc). Qed.

Lemma rule_chain S chains st r : chains_facts S chains st -> In r (rename_temp_rules 1 S) ->
  exists rc, In rc chains /\ no_refs rc /\ ch_id rc = r_id r /\ ch_sign rc = isort str_leb (r_sign r).
Proof.
  intros (sorted & order & nrules & _ & _ & Hfrom & Hhas) Hr. destruct (Hhas r Hr) as (rc & Hrc & Hid).
  exists rc. split; [exact Hrc|]. split; [exact (chain_from_no_refs _ _ (proj1 (Hfrom rc Hrc))) | exact Hid].
Qed.

Lemma rids_entry_iff S chains st t k : chains_facts S chains st ->
  gen_tree (Datatypes.S (max_chain_len chains)) 0 chains [] = Ok t ->
  listed (rids_of (fst (flatten t None O (N.of_nat (length (ns_named st)))))) k <-> exists r, In r (rename_temp_rules 1 S) /\ r_id r = k.
Proof.
  intros Hfacts Et. set (npc := N.of_nat (length (ns_named st))). set (pool := fst (flatten t None O npc)). split.
  - (* an entry is never empty: some node carries k, a chain named k ends there, it comes from a rule named k *)
    intros (l & Hl). destruct l as [|i l]; [destruct (rids_of_nonempty pool k [] Hl eq_refl)|].
    destruct (proj1 (rids_of_in pool k i)) as (j' & g' & _ & Hg' & Hkr); [exists (i :: l); cbn; auto|].
    destruct (pool_node_chains _ _ _ _ _ Et (nth_error_In _ _ Hg')) as (ended & Hsub & Hru' & _).
    rewrite Hru' in Hkr. apply in_map_iff in Hkr. destruct Hkr as (rck & Hidk & Hrck).
    destruct (chain_rule S chains st rck Hfacts (Hsub rck Hrck)) as (rk & Hrk & Hidrk & _). exists rk. split; [exact Hrk | congruence].
  - (* a rule has a chain of its own, which ends at some node *)
    intros (rk & Hrk & <-). destruct (rule_chain S chains st rk Hfacts Hrk) as (rck & Hrck & Hnr & <- & _).
    destruct (chain_node npc pool _ _ _ _ Et (flatten_root npc t) Hrck Hnr) as (ended & j & gj & Hend & Hj & Hru & _).
    destruct (proj2 (rids_of_in pool (ch_id rck) (N.of_nat j))) as (l & Hl & _); [exists j, gj; rewrite Hru; auto using in_map | exists l; exact Hl].
Qed.

Lemma pool_signer_iff S chains st t k : chains_facts S chains st ->
  gen_tree (Datatypes.S (max_chain_len chains)) 0 chains [] = Ok t ->
  (exists g, In g (fst (flatten t None O (N.of_nat (length (ns_named st))))) /\ In k (g_sign g)) <->
  exists r, In r (rename_temp_rules 1 S) /\ In k (r_sign r).
Proof.
  intros Hfacts Et. set (npc := N.of_nat (length (ns_named st))). set (pool := fst (flatten t None O npc)). split.
  - intros (g & Hg & Hk). destruct (pool_node_chains _ _ _ _ _ Et Hg) as (ended & Hsub & _ & Hsg).
    rewrite Hsg in Hk. apply in_flat_map in Hk. destruct Hk as (rc & Hrc & Hkrc).
    destruct (chain_rule S chains st rc Hfacts (Hsub rc Hrc)) as (r & Hr & _ & Hsign). rewrite Hsign in Hkrc. apply in_isort in Hkrc. eauto.
  - intros (r & Hr & Hk). destruct (rule_chain S chains st r Hfacts Hr) as (rc & Hrc & Hnr & _ & Hsign).
    destruct (chain_node npc pool _ _ _ _ Et (flatten_root npc t) Hrc Hnr) as (ended & j & g & Hend & Hg & _ & Hsi).
    exists g. split; [exact (nth_error_In _ _ Hg)|]. rewrite Hsi. apply in_flat_map. exists rc. split; [exact Hend|]. rewrite Hsign. apply in_isort, Hk.
Qed.

Lemma resolve_arg_wf named a na : resolve_arg named a = Ok na -> arg_wf a = true -> arg_ok na = true.
Proof.
  destruct a as [c|p]; cbn; [intros H; inversion H; subst; auto|].
  destruct (is_temp_pat p); [discriminate|]. destruct (resolve_named named p); cbn; [|discriminate]. intros H; inversion H; subst. reflexivity.
Qed.

Lemma resolve_opt_wf named o no : resolve_opt named o = Ok no -> opt_wf o = true -> opt_ok no = true.
Proof.
  destruct o as [c|p|f args]; cbn [resolve_opt opt_wf].
  - intros H; inversion H; subst. auto.
  - destruct (is_temp_pat p); [discriminate|]. destruct (resolve_named named p); cbn; [|discriminate]. intros H; inversion H; subst. reflexivity.
  - destruct (rmap (resolve_arg named) args) as [l|] eqn:E; cbn; [|discriminate]. intros H; inversion H; subst.
    rewrite andb_true_iff. intros [Hf Ha]. cbn. rewrite Hf. cbn. apply BytesLemmas.rmap_ok_iff in E.
    rewrite forallb_forall in Ha. apply forallb_forall. intros na Hna. destruct (forall2_in_r _ _ _ _ E Hna) as (a & Ha' & Hr).
    eapply resolve_arg_wf; eauto.
Qed.

Lemma resolve_cons_wf named tp tc nc : resolve_cons named tp tc = Ok nc -> forallb opt_wf (tc_opts tc) = true -> Spec.LvsChains.cons_ok nc = true.
Proof.
  intros H Hw. destruct (resolve_cons_ok named tp tc nc H) as [F _]. rewrite forallb_forall in Hw. apply forallb_forall.
  intros no Hno. destruct (forall2_in_r _ _ _ _ F Hno) as (o & Ho & Hr). exact (resolve_opt_wf named o no Hr (Hw o Ho)).
Qed.

Lemma forall2_in_r2 {A B} (R : A -> B -> Prop) l l' y : Forall2 R l l' -> In y l' -> exists x, In x l /\ R x y.
Proof. apply forall2_in_r. Qed.

Lemma schema_wf_rule S d : schema_wf S = true -> In d S ->
  (forall v, In (CLit v) (r_name d) -> v <> []) /\
  (forall cs tc, In cs (r_cons d) -> In tc cs -> forallb opt_wf (tc_opts tc) = true).
Proof.
  unfold schema_wf, rule_wf. rewrite forallb_forall. intros H Hd. specialize (H d Hd).
  rewrite andb_true_iff, !forallb_forall in H. destruct H as [Hn Hc]. split.
  - intros v Hv ->. discriminate (Hn _ Hv).
  - intros cs tc Hcs Htc. specialize (Hc cs Hcs). rewrite forallb_forall in Hc. exact (Hc tc Htc).
Qed.

(* Literals are non-empty, function names well spelled and named tags in range in the chains because they are in the text:
   the executable check of Spec/LvsChains.v passes. *)
Lemma wf_chains_ok S chains st : schema_wf S = true -> chains_of S = Ok (chains, st) ->
  chains_ok (N.of_nat (length (ns_named st))) chains.
Proof.
  intros Hwf Hch. destruct (chains_of_facts _ _ _ Hch) as (sorted & order & nrules & Es & En & Hfrom' & _).
  assert (Hfrom : forall rc, In rc chains -> chain_from nrules rc) by (intros rc Hrc; apply (Hfrom' rc Hrc)).
  destruct (numbering_ok _ _ _ En) as [HI _ Hrel]. pose proof (so_rules _ _ _ (sort_ok S _ _ Es)) as Hsin.
  assert (Hsrc : forall nr, In nr nrules -> exists r d, In r sorted /\ nrule_num (ns_named st) (ns_next_temp st) r nr /\ In d S /\ same_body d r).
  { intros nr Hnr. destruct (forall2_in_r _ _ _ _ Hrel Hnr) as (r & Hr & Hrl).
    destruct (rename_bwd _ _ (proj1 (Hsin r) Hr)) as (d & Hd & Hsame & _). eauto 8. }
  apply chains_okb_spec, andb_true_iff. split; apply forallb_forall; intros rc Hrc; apply forallb_forall.
  - (* a constraint of a chain has the options of a constraint resolved from the text *)
    intros c Hc. destruct (Hfrom rc Hrc) as (_ & Hcf & _). rewrite Forall_forall in Hcf.
    destruct (Hcf c Hc) as (nr & cs & c0 & Hnr & Hcs & Hc0 & Hopts). unfold LvsChains.cons_ok. rewrite Hopts.
    destruct (Hsrc nr Hnr) as (r & d & Hr & (_ & _ & tp & _ & Hcr) & Hd & (_ & Hcd & _)).
    destruct (forall2_in_r _ _ _ _ Hcr Hcs) as (scs & Hscs & Hf2). destruct (forall2_in_r _ _ _ _ Hf2 Hc0) as (tc & Htc & Hres).
    apply (resolve_cons_wf _ _ _ _ Hres), (proj2 (schema_wf_rule S d Hwf Hd) scs tc); [rewrite <- Hcd; exact Hscs | exact Htc].
  - intros c Hc. destruct (Hfrom rc Hrc) as (Hnf & _). rewrite Forall_forall in Hnf. specialize (Hnf _ Hc).
    destruct c as [v|t|r0]; cbn in Hnf |- *; [| |reflexivity].
    + destruct Hnf as (nr & Hnr & Hvn). destruct (Hsrc nr Hnr) as (r & d & Hr & (_ & _ & tp & (Hnum & _) & _) & Hd & (Hnd' & _)).
      destruct (forall2_in_r _ _ _ _ Hnum Hvn) as (c & Hc' & Hcs). destruct c as [v'|p|r0]; cbn in Hcs; try contradiction. subst v'.
      rewrite Hnd' in Hc'. pose proof (proj1 (schema_wf_rule S d Hwf Hd) v Hc'). destruct v; [contradiction | reflexivity].
    + destruct (Z.ltb_spec t 0); [reflexivity|]. destruct Hnf as [Hneg|(nr & Hnr & Htn)]; [lia|].
      destruct (Hsrc nr Hnr) as (r & d & Hr & (_ & _ & tp & (Hnum & _) & _) & _).
      destruct (forall2_in_r _ _ _ _ Hnum Htn) as (c & _ & Hcn). destruct c as [v'|p|r0]; cbn in Hcn; try contradiction.
      destruct (is_temp_pat p); [lia|]. destruct Hcn as [_ Hp].
      apply (named_good_range _ (to_good _ HI)) in Hp. cbn. apply N.leb_le. lia.
Qed.

Lemma compiled_chains_ok S m : schema_wf S = true -> compile S = Ok m ->
  exists chains st, chains_of S = Ok (chains, st) /\ chains_ok (N.of_nat (length (ns_named st))) chains.
Proof.
  intros Hwf Hm. destruct (compile_inv _ _ Hm) as (chains & st & _ & Hc & _).
  exists chains, st. split; [exact Hc | exact (wf_chains_ok S chains st Hwf Hc)].
Qed.

(* what the lexer produces: no '#' after the first character *)
Definition ident_plain (k : ident) : Prop := ~ In ch_hash (tl k).

Lemma renamed_temp_not_plain r k : is_temp_rule r = true -> ~ ident_plain (r ++ ch_hash :: dec_print k).
Proof.
  intros Ht Hp. apply Hp. destruct r as [|a [|b r]]; cbn in Ht; try discriminate. cbn. right. apply in_or_app. right. left. reflexivity.
Qed.

Lemma plain_signer_defined S d k : signers_known S -> In d S -> In k (r_sign d) -> ident_plain k -> defined S k = true.
Proof.
  intros Hsg Hd Hk Hplain. destruct (known_signer S Hsg d k Hd Hk) as [H|(r & n & Ht & ->)]; [exact H|].
  destruct (renamed_temp_not_plain _ _ Ht Hplain).
Qed.

Theorem compile_cases S : verdict ESemantic (compile S) (compilable S) any.
Proof.
  unfold compile.
  apply (verdict_imp ESemantic _ ((refs_closed S /\ ref_acyclic S /\ cons_resolvable S) /\ signers_known S) _ any any).
  { split; [intros [(H1 & H2 & H3) H4]; constructor; assumption | intros [H1 H2 H3 H4]; auto]. }
  { auto. }
  apply (verdict_bind ESemantic _ _ _ _ _ _ (chains_of_cases S)). intros [chains st] Hc. cbn [fst snd] in Hc.
  destruct (gen_tree_root_ok chains) as (t & Et). rewrite Et. cbn [bind]. unfold model_of.
  set (npc := N.of_nat (length (ns_named st))). set (pool := fst (flatten t None O npc)).
  pose proof (pool_signer_iff S chains st t) as Hps. pose proof (rids_entry_iff S chains st t) as Hre. fold npc pool in Hps, Hre.
  (* the names looked up are the signers of the rules, and rule_node_ids lists exactly the rule names *)
  apply (verdict_imp ESemantic _ (forall g k, In g pool -> In k (g_sign g) -> listed (rids_of pool) k) _ any any).
  { split.
    - intros H r k Hr Hk. apply (Hre k Hc Et). destruct (proj2 (Hps k Hc Et)) as (g & Hg & Hkg); [eauto|]. exact (H g k Hg Hkg).
    - intros Hsg g k Hg Hk. destruct (proj1 (Hps k Hc Et)) as (r & Hr & Hkr); [eauto|]. exact (proj2 (Hre k Hc Et) (Hsg r k Hr Hkr)). }
  { auto. }
  exact (verdict_then _ _ _ _ _ any (fix_all_verdict _ _ _) (fun _ _ => I)).
Qed.

Theorem compile_err S e : compile S = Err e -> e = ESemantic.
Proof. exact (proj2 (verdict_ok_iff _ _ _ _ (compile_cases S)) e). Qed.

Lemma not_compilable S : ~ compilable S -> compile S = Err ESemantic.
Proof. intros Hn. pose proof (compile_cases S) as Hc. destruct (compile S); [destruct Hc; contradiction | destruct Hc as [-> _]; reflexivity]. Qed.

Theorem compile_rejects_bad_reference S d c :
  In d S -> In c (rule_refs d) -> defined S c = false -> compile S = Err ESemantic.
Proof.
  intros Hd Hc Hdef. apply not_compilable. intros Hcp. rewrite (proj1 (refs_closed_iff S) (cp_refs _ Hcp) d c Hd Hc) in Hdef. discriminate.
Qed.

Theorem compile_rejects_cyclic_references S a cyc : src_walk S a a cyc -> compile S = Err ESemantic.
Proof.
  intros Hw. apply not_compilable. intros [_ (rank & Hr) _ _].
  pose proof (ref_walk_rank S rank Hr cyc a a (src_walk_ref S a cyc a Hw)). lia.
Qed.

Theorem compile_rejects_bad_constraint S d cs tc :
  In d S -> In cs (r_cons d) -> In tc cs -> LvsSem.cons_ok S d tc = false -> compile S = Err ESemantic.
Proof.
  intros Hd Hcs Htc Hbad. apply not_compilable. intros Hcp.
  rewrite (proj1 (cons_resolvable_iff S) (cp_cons _ Hcp) d cs tc Hd Hcs Htc) in Hbad. discriminate.
Qed.

Theorem compile_rejects_unknown_signer S d k :
  In d S -> In k (r_sign d) -> defined S k = false -> ident_plain k -> compile S = Err ESemantic.
Proof.
  intros Hd Hk Hdef Hplain. apply not_compilable. intros Hcp.
  rewrite (plain_signer_defined S d k (cp_sign _ Hcp) Hd Hk Hplain) in Hdef. discriminate.
Qed.

Theorem static_compiles S : static_ok S = true -> exists m, compile S = Ok m.
Proof. intros H. exact (proj2 (proj1 (verdict_ok_iff _ _ _ _ (compile_cases S))) (static_compilable S H)). Qed.

Theorem compile_accepts S : static_ok S = true -> schema_wf S = true ->
  exists chains st m, chains_of S = Ok (chains, st) /\ compile S = Ok m /\ chains_ok (N.of_nat (length (ns_named st))) chains.
Proof.
  intros Hstatic Hwf. destruct (static_compiles S Hstatic) as (m & Hm). destruct (compiled_chains_ok S m Hwf Hm) as (chains & st & Hch & Hok).
  exists chains, st, m. auto.
Qed.
