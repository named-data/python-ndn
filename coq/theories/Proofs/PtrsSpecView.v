(* The specification functions of Spec/SignedPortion.v: what [next_element] and the value of an element ([el_value])
   are on a serialised element; the scans seen through the list of top-level elements ([is_el], [scan_view]);
   [between ta tb], the pattern both signed portions are written with ([between_view]). *)
From NDN Require Import Base.Prelude Model.TlvVar Model.Tlv Spec.SignedPortion Proofs.BytesLemmas Proofs.TlvVarProofs
  Proofs.TlvSplit Proofs.NameWire.
Local Open Scope N_scope.

Definition is_el (tr : N * bytes) : Prop := forall rest, next_element (snd tr ++ rest) = Some (fst tr, snd tr, rest).

Lemma next_element_tlv t p rest : t < two64 -> N.of_nat (length p) < two64 ->
  next_element (tlv t p ++ rest) = Some (t, tlv t p, rest).
Proof.
  intros Ht Hl. unfold next_element.
  destruct (tl_header t p rest Ht Hl) as (E1 & E2 & _). rewrite E1, E2.
  rewrite (proj2 (N.ltb_ge _ _)) by (rewrite app_length, tlv_length; lia).
  rewrite Nat2N.id, <- tlv_length. rewrite firstn_app_exact', skipn_app_exact' by reflexivity. reflexivity.
Qed.

Lemma el_ok_is_el e : el_ok e -> is_el (e_type e, ser_elem e).
Proof. intros (Ht & Hl & Hl2) rest. rewrite Hl in Hl2. exact (next_element_tlv _ _ rest Ht Hl2). Qed.

Lemma next_element_some w t e r : next_element w = Some (t, e, r) ->
  exists st l sl, tl_dec w = Ok (t, st) /\ tl_dec (skipn st w) = Ok (l, sl) /\ (1 <= st)%nat /\ (1 <= sl)%nat /\
    (st + sl + N.to_nat l <= length w)%nat /\
    e = firstn (st + sl + N.to_nat l) w /\ r = skipn (st + sl + N.to_nat l) w.
Proof.
  intros H. unfold next_element in H. destruct (tl_dec w) as [[t' st]|] eqn:E1; [|discriminate].
  destruct (tl_dec (skipn st w)) as [[l sl]|] eqn:E2; [|discriminate].
  destruct (N.ltb_spec (N.of_nat (length w - (st + sl))) l) as [|E3]; [discriminate|]. injection H as <- <- <-.
  pose proof (tl_dec_ok _ _ _ E1) as A. pose proof (tl_dec_ok _ _ _ E2) as B. rewrite skipn_length in B.
  exists st, l, sl. repeat split; try assumption; [exact (proj1 A)|exact (proj1 B)|lia].
Qed.

Definition el_value (e : bytes) : option bytes :=
  match tl_dec e with
  | Ok (_, st) => match tl_dec (skipn st e) with Ok (_, sl) => Some (skipn (st + sl) e) | Err _ => None end
  | Err _ => None
  end.

Lemma el_value_tlv t p : t < two64 -> N.of_nat (length p) < two64 -> el_value (tlv t p) = Some p.
Proof.
  intros Ht Hl. destruct (tl_header t p [] Ht Hl) as (E1 & E2 & E3). rewrite app_nil_r in E1, E2, E3.
  unfold el_value. rewrite E1, E2, E3, app_nil_r. reflexivity.
Qed.

Lemma comp_type_dec c t sz : tl_dec c = Ok (t, sz) -> comp_type c = t.
Proof. intros H. unfold comp_type. rewrite H. reflexivity. Qed.

Lemma is_el_unfold t e : is_el (t, e) ->
  exists st l sl, (forall rest, tl_dec (e ++ rest) = Ok (t, st) /\ tl_dec (skipn st (e ++ rest)) = Ok (l, sl)) /\
                  length e = (st + sl + N.to_nat l)%nat /\ (1 <= st)%nat /\ (1 <= sl)%nat /\
                  el_value e = Some (skipn (st + sl) e).
Proof.
  intros H. specialize (H []). cbn [fst snd] in H. rewrite app_nil_r in H.
  destruct (next_element_some _ _ _ _ H) as (st & l & sl & E1 & E2 & S1 & S2 & Hle & _ & Hr).
  apply (f_equal (@length N)) in Hr. rewrite skipn_length in Hr. cbn [length] in Hr.
  pose proof (proj2 (tl_dec_ok _ _ _ E1)) as A. pose proof (proj2 (tl_dec_ok _ _ _ E2)) as B.
  exists st, l, sl. split; [|unfold el_value; rewrite E1, E2; repeat split; [lia|exact S1|exact S2]]. intros rest. split.
  - rewrite <- (firstn_all e). exact (tl_dec_prefix _ _ _ E1 _ rest A).
  - rewrite skipn_app, (proj2 (Nat.sub_0_le _ _) A), <- (firstn_all (skipn st e)). exact (tl_dec_prefix _ _ _ E2 _ rest B).
Qed.

Lemma is_el_form tr : is_el tr -> comp_form (snd tr).
Proof.
  destruct tr as [t c]. intros Hel. destruct (is_el_unfold t c Hel) as (st & l & sl & E & Hlen & _).
  exists t, st, l, sl. split; assumption.
Qed.

Lemma is_el_length tr : is_el tr -> (2 <= length (snd tr))%nat.
Proof. destruct tr as [t e]. intros H. destruct (is_el_unfold t e H) as (st & l & sl & _ & L & S1 & S2 & _). cbn [snd]. lia. Qed.

Lemma next_element_inv w t e r : next_element w = Some (t, e, r) -> w = e ++ r /\ is_el (t, e).
Proof.
  intros H. destruct (next_element_some _ _ _ _ H) as (st & l & sl & E1 & E2 & S1 & S2 & Hle & -> & ->).
  remember (st + sl + N.to_nat l)%nat as n eqn:En. split; [symmetry; apply firstn_skipn|].
  assert (Ar : (st <= n /\ sl <= n - st /\ st - n = 0)%nat) by lia. destruct Ar as (A1 & A2 & A3).
  assert (Le : length (firstn n w) = n) by (rewrite firstn_length; apply Nat.min_l, Hle).
  intros rest. cbn [fst snd]. unfold next_element. rewrite (tl_dec_prefix _ _ _ E1 n rest A1).
  assert (S : skipn st (firstn n w ++ rest) = firstn (n - st) (skipn st w) ++ rest).
  { rewrite skipn_app, Le, A3. cbn [skipn]. rewrite skipn_firstn_comm. reflexivity. }
  rewrite S, (tl_dec_prefix _ _ _ E2 (n - st)%nat rest A2). rewrite app_length, Le.
  replace (N.of_nat (n + length rest - (st + sl)) <? l) with false by (symmetry; apply N.ltb_ge; lia).
  rewrite <- En, firstn_app_exact', skipn_app_exact' by (symmetry; exact Le). reflexivity.
Qed.

Definition raws (sel : list (N * bytes)) : list bytes := map snd sel.

Definition value_at (sel : list (N * bytes)) (k : nat) : option bytes :=
  match nth_error (raws sel) k with Some e => el_value e | None => None end.

Lemma length_le_concat sel : Forall is_el sel -> (2 * length sel <= length (concat (raws sel)))%nat.
Proof.
  intros H. unfold raws. rewrite <- (map_length snd sel). apply concat_length_ge, Forall_map. revert H. apply Forall_impl, is_el_length.
Qed.

Lemma strict_split_inv : forall fuel w sel, strict_split fuel w = Some sel -> w = concat (raws sel) /\ Forall is_el sel.
Proof.
  induction fuel as [|f IH]; intros w sel H.
  - destruct w; [injection H as <-; split; constructor|discriminate].
  - destruct w as [|b w']; [injection H as <-; split; constructor|].
    cbn [strict_split] in H. destruct (next_element (b :: w')) as [[[t e] r]|] eqn:E; [|discriminate].
    destruct (strict_split f r) as [sel'|] eqn:E'; [|discriminate]. injection H as <-.
    destruct (next_element_inv _ _ _ _ E) as (A & C). destruct (IH _ _ E') as (A' & C').
    split; [cbn [raws map concat snd]; rewrite A; f_equal; exact A'|]. constructor; assumption.
Qed.

Lemma strict_split_concat : forall sel fuel, Forall is_el sel -> (length sel < fuel)%nat ->
  strict_split fuel (concat (raws sel)) = Some sel.
Proof.
  induction sel as [|[t e] s IH]; intros fuel H Hf; (destruct fuel; [destruct (Nat.nlt_0_r _ Hf)|]); [reflexivity|].
  inversion H as [|? ? He Hs]; subst. pose proof (is_el_length _ He) as L. specialize (He (concat (raws s))).
  cbn [raws map concat fst snd] in *. fold (raws s) in *.
  destruct e as [|b e]; [cbn in L; lia|]. cbn [strict_split app] in *.
  rewrite He, (IH fuel Hs (proj2 (Nat.succ_lt_mono _ _) Hf)). reflexivity.
Qed.

(* the last conjunct is the fuel the specification functions need *)
Lemma strict_split_view v sel : strict_split (S (length v)) v = Some sel ->
  v = concat (raws sel) /\ Forall is_el sel /\ (length sel < S (length v))%nat.
Proof.
  intros H. destruct (strict_split_inv _ _ _ H) as (Ev & Hel).
  pose proof (length_le_concat sel Hel) as G. rewrite <- Ev in G. repeat split; [exact Ev|exact Hel|lia].
Qed.

Lemma components_strict : forall fuel v, components fuel v = option_map raws (strict_split fuel v).
Proof.
  induction fuel as [|f IH]; intros [|b w]; try reflexivity. cbn [components strict_split].
  destruct (next_element (b :: w)) as [[[t e] r]|]; [|reflexivity]. rewrite IH. destruct (strict_split f r); reflexivity.
Qed.

Lemma concat_nonempty_head (tr : N * bytes) sel : (2 <= length (snd tr))%nat -> concat (raws (tr :: sel)) <> [].
Proof. destruct tr as [t [|x e]]; cbn; [lia|discriminate]. Qed.

Fixpoint idx_of (t : N) (ts : list N) : option nat :=
  match ts with
  | [] => None
  | t' :: r => if t' =? t then Some O else option_map S (idx_of t r)
  end.
Definition types (sel : list (N * bytes)) : list N := map fst sel.

Lemma types_firstn k sel : types (firstn k sel) = firstn k (types sel).
Proof. symmetry. apply firstn_map. Qed.
Lemma raws_firstn k sel : raws (firstn k sel) = firstn k (raws sel).
Proof. symmetry. apply firstn_map. Qed.
Lemma raws_skipn k sel : raws (skipn k sel) = skipn k (raws sel).
Proof. symmetry. apply skipn_map. Qed.

Lemma idx_of_split t : forall ts k, idx_of t ts = Some k ->
  ts = firstn k ts ++ t :: skipn (S k) ts /\ length (firstn k ts) = k /\ ~ In t (firstn k ts).
Proof.
  induction ts as [|x r IH]; intros k H; [discriminate|]. cbn [idx_of] in H.
  destruct (N.eqb_spec x t) as [->|Hne].
  - injection H as <-. repeat split. intros [].
  - destruct (idx_of t r) as [k'|]; [|discriminate]. injection H as <-.
    destruct (IH k' eq_refl) as (E & L & Hn). cbn [firstn skipn app length].
    split; [f_equal; exact E|]. split; [f_equal; exact L|]. intros [X|X]; [exact (Hne X)|exact (Hn X)].
Qed.

Lemma idx_of_nth t ts k : idx_of t ts = Some k -> nth_error ts k = Some t.
Proof.
  intros H. destruct (idx_of_split _ _ _ H) as (E & L & _). rewrite E, nth_error_app2, L, Nat.sub_diag by lia. reflexivity.
Qed.
Lemma idx_of_lt t ts k : idx_of t ts = Some k -> (k < length ts)%nat.
Proof. intros H. destruct (idx_of_split _ _ _ H) as (E & L & _). rewrite E, app_length, L. cbn [length]. lia. Qed.

Lemma idx_of_firstn t : forall l k j, idx_of t (firstn k l) = Some j -> idx_of t l = Some j /\ (j < k)%nat.
Proof.
  induction l as [|x l IH]; intros k j H; [destruct k; discriminate|].
  destruct k; [discriminate|]. cbn [firstn idx_of] in H |- *.
  destruct (x =? t); [injection H as <-; split; [reflexivity|lia]|].
  destruct (idx_of t (firstn k l)) as [j'|] eqn:E; [|discriminate]. injection H as <-.
  destruct (IH _ _ E) as (A & B). rewrite A. split; [reflexivity|lia].
Qed.

Lemma scan_view t : forall sel fuel, Forall is_el sel -> (length sel < fuel)%nat ->
  let w := concat (raws sel) in let k := idx_of t (types sel) in
  before_type fuel t w = option_map (fun k => concat (raws (firstn k sel))) k /\
  from_type fuel t w = option_map (fun k => concat (raws (skipn k sel))) k /\
  value_of_type fuel t w = match k with Some k => value_at sel k | None => None end.
Proof.
  induction sel as [|[t' e] s IH]; intros fuel Hel Hf; (destruct fuel; [destruct (Nat.nlt_0_r _ Hf)|]); [repeat split|].
  inversion Hel as [|? ? H1 H2]; subst. specialize (H1 (concat (raws s))). cbn [fst snd] in H1.
  destruct (IH fuel H2 (proj2 (Nat.succ_lt_mono _ _) Hf)) as (Eb & Ef & Ev).
  cbv zeta. cbn [raws map concat snd before_type from_type value_of_type types fst idx_of]. fold (raws s) (types s).
  rewrite H1. destruct (t' =? t); [repeat split|]. rewrite Eb, Ef, Ev.
  destruct (idx_of t (types s)); repeat split.
Qed.

Lemma split_scan v sel t : strict_split (S (length v)) v = Some sel ->
  let k := idx_of t (types sel) in
  before_type (S (length v)) t v = option_map (fun k => concat (raws (firstn k sel))) k /\
  from_type (S (length v)) t v = option_map (fun k => concat (raws (skipn k sel))) k /\
  value_of_type (S (length v)) t v = match k with Some k => value_at sel k | None => None end.
Proof.
  intros H. destruct (strict_split_view _ _ H) as (Ev & Hel & Hf).
  pose proof (scan_view t sel _ Hel Hf) as G. cbv zeta in G. rewrite <- Ev in G. exact G.
Qed.

Lemma from_type_view sel (Hel : Forall is_el sel) t fuel (Hf : (length sel < fuel)%nat) :
  from_type fuel t (concat (raws sel)) = option_map (fun k => concat (raws (skipn k sel))) (idx_of t (types sel)).
Proof. apply (scan_view t sel fuel Hel Hf). Qed.

(* The pattern both signed portions of the specification are written with: from the first [ta] that precedes the
   first [tb], up to that [tb] (Name / SignatureValue for Data, ApplicationParameters / InterestSignatureValue). *)
Definition between (ta tb : N) (v : bytes) : option bytes :=
  match before_type (S (length v)) tb v with
  | Some pre => from_type (S (length pre)) ta pre
  | None => None
  end.

Lemma between_view ta tb v sel : strict_split (S (length v)) v = Some sel ->
  between ta tb v =
  match idx_of tb (types sel) with
  | Some kb => match idx_of ta (firstn kb (types sel)) with
               | Some ka => Some (concat (firstn (kb - ka) (skipn ka (raws sel))))
               | None => None
               end
  | None => None
  end.
Proof.
  intros H. destruct (strict_split_view _ _ H) as (_ & Hel & _).
  destruct (split_scan v sel tb H) as (Hb & _). unfold between. rewrite Hb.
  destruct (idx_of tb (types sel)) as [kb|]; cbn [option_map]; [|reflexivity].
  set (pre := firstn kb sel).
  pose proof (length_le_concat pre (Forall_firstn _ _ _ Hel)) as G.
  rewrite (from_type_view pre (Forall_firstn _ _ _ Hel)) by lia.
  unfold pre. rewrite types_firstn.
  destruct (idx_of ta (firstn kb (types sel))) as [ka|]; cbn [option_map]; [|reflexivity].
  rewrite raws_skipn, raws_firstn, skipn_firstn_comm. reflexivity.
Qed.
