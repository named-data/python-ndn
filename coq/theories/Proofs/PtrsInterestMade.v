(* C02, both ends for Interests: for every Interest the library makes with a signer, whatever its fields hold, the receiver's
   decoder reports exactly the bytes the signer was given, the bytes that were hashed into the parameters digest, and that
   digest. *)
From NDN Require Import Base.Prelude Model.TlvVar Model.Tlv Model.Packet Model.PacketEnc Model.PacketPtrs
  Spec.SignedPortion Proofs.TlvSplit Proofs.TlvRoundtrip Proofs.TlvRoundtrip2 Proofs.SignedPortionInterest
  Proofs.PtrsSpecView Proofs.PtrsSplit Proofs.PtrsWalk Proofs.PtrsInterestWalk Proofs.PtrsInterest.
Local Open Scope N_scope.

Lemma ptrs_interest_of_strict v sel ev s :
  strict_split (S (length v)) v = Some sel -> walk LI 0 (types sel) 0 [] = Ok ev -> signed_portion_interest v = Some s ->
  exists p, ptrs_interest_with LI v = Ok p.
Proof.
  intros Hs W Hsp. destruct (split_raw_strict _ _ Hs) as (rs & Ers & Hag).
  unfold signed_portion_interest in Hsp.
  destruct (value_of_type (S (length v)) T_NAME v) as [nv|] eqn:Hnv; [|discriminate].
  destruct (components (S (length nv)) nv) as [comps|] eqn:Hc; [|discriminate].
  unfold ptrs_interest_with. rewrite Ers. cbn [bind]. rewrite (agrees_types _ _ Hag), W. cbn [bind]. fold (name_run rs ev).
  rewrite (name_run_spec _ _ _ _ _ _ Hs Hag W Hnv Hc). cbn [bind].
  destruct (sig_part 46 rs ev). eexists; reflexivity.
Qed.

(* in declared order, what precedes ApplicationParameters (position 9) is declared before it: not the signature elements *)
Lemma ascending_params_first ts : ascending LI 0 ts = true -> params_first ts.
Proof.
  intros Ha k Hk x Hx. destruct (idx_of_split _ _ _ Hk) as (E & _ & _). rewrite E in Ha.
  destruct (ascending_before LI 36 9 _ eq_refl _ _ Ha) as (_ & F). pose proof (proj1 (Forall_forall _ _) F x Hx) as B.
  split; intros ->; [specialize (B 10%nat eq_refl)|specialize (B 11%nat eq_refl)]; lia.
Qed.

Section Made.
Variables sha sign : bytes -> bytes.

Theorem made_interest_reported i m s :
  (forall x, length (sha x) = 32%nat) -> make_interest sha sign i = Ok m -> i_sig i = Some s ->
  N.of_nat (length (m_wire m)) < two64 -> Forall wf_comp64 (i_name i) ->
  exists body p,
    m_wire m = tlv TYPE_INTEREST body /\ well_formed_value body /\
    ptrs_interest_with LI body = Ok p /\
    concat (p_sig_covered p) = m_sig_covered m /\
    concat (p_dig_covered p) = m_digest_covered m /\
    p_dig_value p = Some (sha (m_digest_covered m)) /\
    p_sig_value p = value_of_type (S (length body)) 46 body.
Proof.
  intros Hsha H Es Hl Hn.
  destruct (interest_sign_covers sha sign Hsha i m s H Es Hl Hn) as (body & Ew & Hsp & Hdp & Hdc).
  destruct (make_interest_slots sha sign Hsha i m s H Es Hn) as (segs & a & s8 & F6 & S8 & _ & _ & _ & Ed & Ew').
  rewrite Ew' in Ew. apply tlv_inj in Ew. subst body. rewrite Ew' in Hl. apply tlv_len_bound in Hl. rewrite Ed in *.
  pose proof (slots_split LI _ _ (Forall2_cons _ _ (slot_name (m_final_name m)) (Forall2_app F6
                (Forall2_cons _ _ (slot_tlv T_APP_PARAM a) (Forall2_cons _ _ S8
                   (Forall2_cons _ _ (slot_tlv T_ISIG_VALUE (sign (m_sig_covered m))) (Forall2_nil _))))))) as G.
  cbn [concat] in G. rewrite concat_app in G. cbn [concat] in G. rewrite app_nil_r in G.
  destruct G as (sel & ev & Hsel & W & Hasc); [repeat constructor|exact LI_nodup|exact Hl|reflexivity|].
  apply ascending_params_first in Hasc.
  destruct (ptrs_interest_of_strict _ sel ev _ Hsel W Hsp) as (p & Hp).
  eexists. exists p. split; [exact Ew'|]. split; [exists sel; exact Hsel|]. split; [exact Hp|].
  split; [exact (interest_signed_range _ sel p Hsel Hp Hasc _ Hsp)|].
  split; [exact (interest_digest_range _ sel p Hsel Hp Hasc _ Hdp)|].
  split; [exact (interest_digest_value _ sel p Hsel Hp _ Hdc)|exact (interest_sig_value _ sel p Hsel Hp)].
Qed.

End Made.
