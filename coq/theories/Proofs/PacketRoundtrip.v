(* C01: what make_data / make_interest produce is one well-formed element that the library's decoder maps back
   to the values that went in (for certificates and the strict reader: Proofs/CertStrict.v). *)
From NDN Require Import Base.Prelude Model.TlvVar Model.Tlv Model.Packet Model.PacketEnc Spec.TlvWf Generated.Schemas
  Proofs.BytesLemmas Proofs.TlvSplit Proofs.TlvRoundtrip2 Proofs.TlvAssign.
Local Open Scope N_scope.

(* a descriptor is an association list from Type numbers to kinds *)
Lemma kind_of_al fs t : kind_of fs t = al_get N.eqb fs t.
Proof. induction fs as [|[t' k] fs IH]; [reflexivity|]. cbn [kind_of al_get]. rewrite N.eqb_sym, IH. reflexivity. Qed.

Lemma in_kind_of fs t k : NoDup (map fst fs) -> In (t, k) fs -> kind_of fs t = Some k.
Proof. rewrite kind_of_al. apply (al_get_of_in N.eqb N.eqb_eq). Qed.

Lemma kind_of_in fs t k : kind_of fs t = Some k -> In (t, k) fs.
Proof. rewrite kind_of_al. apply (al_get_some_in N.eqb N.eqb_eq). Qed.

(* [encode_model] over a packet's descriptor is its fields encoded one by one by Type number, the way
   make_data / make_interest write them. *)
Lemma enc_fields_by fs0 : forall fs vs, (forall t k, In (t, k) fs -> kind_of fs0 t = Some k) ->
  enc_fields_with (enc_val (depth_of fs0)) fs vs = enc_fields_with (fun t _ v => enc_by fs0 t v) fs vs.
Proof.
  induction fs as [|[t k] fs IH]; intros vs H; [reflexivity|]. destruct vs as [|v vs]; [reflexivity|].
  cbn [enc_fields_with]. unfold enc_by at 1.
  rewrite (H t k (or_introl eq_refl)), IH by (intros t' k' Hin; apply H; right; exact Hin). reflexivity.
Qed.

Lemma encode_model_by fs vs : wf_fields fs ->
  encode_model (depth_of fs) fs vs = enc_fields_with (fun t _ v => enc_by fs t v) fs vs.
Proof. intros [fs0 Hnd _]. apply enc_fields_by. intros t k. apply in_kind_of, Hnd. Qed.

Lemma enc_sig_field fs t k (sg : option sig_in) sv w : kind_of fs t = Some k ->
  match sg with
  | None => Ok []
  | Some s => do _ <- check_sig_len (si_reserved s) sv ;; enc_by fs t (VBytes sv)
  end = Ok w ->
  exists o, enc_by fs t (vbytes o) = Ok w /\ match sg with Some _ => o = Some sv | None => o = None end.
Proof.
  intros Hk H. destruct sg as [s|].
  - apply bind_ok in H as (u & _ & H). exists (Some sv). split; [exact H|reflexivity].
  - injection H as <-. exists None. split; [|reflexivity]. unfold enc_by. rewrite Hk. apply enc_val_none.
Qed.

Lemma require_name_tlv (pm : nat -> list field -> bool -> bytes -> res (list value)) t fs ic body vs :
  t < two64 -> N.of_nat (length (tlv t body)) < two64 ->
  (N.of_nat (length body) < two64 -> pm (depth_of fs) fs ic body = Ok vs) -> field_value fs vs Name.TYPE_NAME <> VNone ->
  require_name fs (gen_decode pm t fs ic (tlv t body)) = Ok vs.
Proof.
  intros Ht Hl Hpm Hn. apply tlv_len_bound in Hl. unfold require_name.
  rewrite (gen_decode_tlv pm t fs ic body Ht Hl), (Hpm Hl). cbn [bind]. destruct (field_value fs vs Name.TYPE_NAME); congruence.
Qed.

Section Data.
Variable sign : bytes -> bytes.

Definition data_fits (d : data_in) (sv : option bytes) : Prop :=
  Forall2 (fun f v => fits (snd f) v) ndn_format_0_3_DataPacketValue (data_values d sv).

Lemma make_data_body d m :
  make_data sign d = Ok m ->
  exists body sv,
    m_wire m = tlv TYPE_DATA body /\
    encode_model (depth_of ndn_format_0_3_DataPacketValue) ndn_format_0_3_DataPacketValue (data_values d sv) = Ok body /\
    (match d_sig d with Some _ => sv = Some (sign (m_sig_covered m)) | None => sv = None end).
Proof.
  unfold make_data. intros H.
  apply bind_ok in H as (s_meta & E1 & H). apply bind_ok in H as (s_content & E2 & H).
  apply bind_ok in H as (s_info & E3 & H). apply bind_ok in H as (s_sig & E4 & H). injection H as <-.
  apply (enc_sig_field _ _ (KBytes false)) in E4 as (sv & E4 & Hsv); [|reflexivity].
  cbn [m_wire m_sig_covered]. eexists. exists sv. split; [reflexivity|]. split; [|exact Hsv].
  rewrite encode_model_by by exact (wf_fieldsb_spec _ wf_ndn_format_0_3_DataPacketValue).
  unfold data_values. cbn [enc_fields_with ndn_format_0_3_DataPacketValue].
  unfold T_META_INFO, T_CONTENT, T_SIG_INFO, T_SIG_VALUE in *.
  rewrite E1, E2, E3, E4. cbn [bind]. rewrite app_nil_r. reflexivity.
Qed.

(* The signature value among the encoded values is the signer's output, which the caller of the theorem does not
   have: hence the values are asked to fit whatever it is (likewise for Interests below). *)
Theorem make_data_roundtrip d m :
  make_data sign d = Ok m ->
  N.of_nat (length (m_wire m)) < two64 ->
  (forall sv, data_fits d sv) ->
  exists sv, dec_data (m_wire m) = Ok (data_values d sv) /\
             (match d_sig d with Some _ => sv = Some (sign (m_sig_covered m)) | None => sv = None end).
Proof.
  intros H Hl Hfit. destruct (make_data_body d m H) as (body & sv & Ew & Eb & Esv).
  exists sv. split; [|exact Esv]. rewrite Ew in *. apply require_name_tlv; [reflexivity|exact Hl| |discriminate].
  exact (parse_encode_roundtrip _ _ false _ _ (wf_fieldsb_spec _ wf_ndn_format_0_3_DataPacketValue) (Hfit sv) Eb).
Qed.
End Data.

Section Interest.
Variable sha : bytes -> bytes.
Variable sign : bytes -> bytes.

Definition interest_fits (i : interest_in) (fn : list bytes) (sv : option bytes) : Prop :=
  Forall2 (fun f v => fits (snd f) v) ndn_format_0_3_InterestPacketValue (interest_values i fn sv).

(* the ApplicationParameters make_interest sends: a signed Interest always carries them, empty if none were given *)
Definition eff_app (i : interest_in) : option bytes :=
  match i_sig i, i_app i with Some _, None => Some [] | _, a => a end.

Lemma make_interest_body i m :
  make_interest sha sign i = Ok m ->
  exists body sv,
    m_wire m = tlv TYPE_INTEREST body /\
    encode_model (depth_of ndn_format_0_3_InterestPacketValue) ndn_format_0_3_InterestPacketValue
                 (interest_values i (m_final_name m) sv) = Ok body /\
    (match i_sig i with Some _ => sv = Some (sign (m_sig_covered m)) | None => sv = None end).
Proof.
  unfold make_interest. intros H. fold (eff_app i) in H.
  apply bind_ok in H as (dp & _ & H).
  apply bind_ok in H as (s1 & E1 & H). apply bind_ok in H as (s2 & E2 & H). apply bind_ok in H as (s3 & E3 & H).
  apply bind_ok in H as (s4 & E4 & H). apply bind_ok in H as (s5 & E5 & H). apply bind_ok in H as (s6 & E6 & H).
  apply bind_ok in H as (s7 & E7 & H). apply bind_ok in H as (s8 & E8 & H). apply bind_ok in H as (s9 & E9 & H).
  injection H as <-.
  apply (enc_sig_field _ _ (KBytes false)) in E9 as (sv & E9 & Hsv); [|reflexivity].
  cbn [m_wire m_sig_covered m_final_name]. eexists. exists sv. split; [reflexivity|]. split; [|exact Hsv].
  rewrite encode_model_by by exact (wf_fieldsb_spec _ wf_ndn_format_0_3_InterestPacketValue).
  unfold interest_values. fold (eff_app i). cbn [enc_fields_with ndn_format_0_3_InterestPacketValue].
  unfold T_CAN_BE_PREFIX, T_MUST_BE_FRESH, T_FORWARDING_HINT, T_NONCE, T_LIFETIME, T_HOP_LIMIT, T_APP_PARAM,
    T_ISIG_INFO, T_ISIG_VALUE in *.
  rewrite E1, E2, E3, E4, E5, E6, E7, E8, E9. cbn [bind]. rewrite app_nil_r. reflexivity.
Qed.

Theorem make_interest_roundtrip i m :
  make_interest sha sign i = Ok m ->
  N.of_nat (length (m_wire m)) < two64 ->
  (forall sv, interest_fits i (m_final_name m) sv) ->
  exists sv, dec_interest (m_wire m) = Ok (interest_values i (m_final_name m) sv) /\
             (match i_sig i with Some _ => sv = Some (sign (m_sig_covered m)) | None => sv = None end).
Proof.
  intros H Hl Hfit. destruct (make_interest_body i m H) as (body & sv & Ew & Eb & Esv).
  exists sv. split; [|exact Esv]. rewrite Ew in *. apply require_name_tlv; [reflexivity|exact Hl| |discriminate].
  exact (parse_encode_roundtrip _ _ false _ _ (wf_fieldsb_spec _ wf_ndn_format_0_3_InterestPacketValue) (Hfit sv) Eb).
Qed.

(* the name that is sent: the given name, with the parameters digest appended / put in place exactly
   when parameters or a signer are present, and the digest is SHA-256 of the reported digest portion *)
Theorem make_interest_final_name i m :
  make_interest sha sign i = Ok m ->
  match eff_app i with
  | None => m_final_name m = i_name i
  | Some _ =>
      m_final_name m = i_name i ++ [digest_comp (sha (m_digest_covered m))] \/
      exists p, m_final_name m = set_nth (i_name i) p (digest_comp (sha (m_digest_covered m)))
  end.
Proof.
  unfold make_interest. intros H. fold (eff_app i) in H.
  apply bind_ok in H as (dp & _ & H). do 9 (apply bind_ok in H as (? & _ & H)).
  destruct (eff_app i) as [ap|]; inversion H; subst m; cbn [m_final_name m_digest_covered].
  - destruct dp as [p|]; [right; exists p; reflexivity|left; reflexivity].
  - reflexivity.
Qed.
End Interest.
