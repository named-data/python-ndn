(* The iterative matching machine of Checker._match (Model/LvsChecker.mrun) yields, on every model whose
   reachable part passes the sanity rules and whoever consumes, the events of the recursive depth-first
   traversal ([tree_events] of LvsTreePaths.v); it does so within [cost] steps. *)
From NDN Require Import Base.Prelude Model.LvsAst Model.LvsChecker Spec.LvsSem Proofs.ListLemmas Proofs.LvsSanity Proofs.LvsTreePaths.
Local Open Scope N_scope.

Section Machine.
  Variable ufn : ident -> option (bytes -> list (option bytes) -> res bool).
  Variable m : lvsmodel.

  Definition mk_mstate (cur : option N) (ei : option nat) (eis : list nat) (c : ctx) (ms : list (option N)) : mstate :=
    {| ms_cur := cur; ms_ei := ei; ms_eis := eis; ms_ctx := c; ms_ms := ms |}.

  (* an upper bound on the number of loop iterations spent below node [cur]: at an inner node, one iteration for the
     value edge, one for the final backtrack, and one per pattern edge (skipped or crossed), plus what the children cost *)
  Fixpoint cost (name : list bytes) (cur : N) : nat :=
    match name with
    | [] => 1
    | _ :: rest =>
        match get_node m cur with
        | None => 1
        | Some nd =>
            2 + list_sum (map (fun ve => match ve_dest ve with Some d => cost rest d | None => O end) (n_vedges nd))
              + list_sum (map (fun pe => S (match pe_dest pe with Some d => cost rest d | None => O end)) (n_pedges nd))
        end
    end%nat.

  Lemma mstep_yield name cur nd ei eis c ms :
    get_node m cur = Some nd -> length eis = length name ->
    mstep ufn m name cur (mk_mstate (Some cur) ei eis c ms) = Ok (backtrack nd (mk_mstate (Some cur) ei eis c ms), Some (cur, c)).
  Proof.
    intros Hn Hl. unfold mstep. rewrite Hn. cbn [ms_eis mk_mstate]. rewrite Hl, Nat.eqb_refl. reflexivity.
  Qed.

  Lemma mstep_value name cur nd eis c ms v :
    get_node m cur = Some nd -> nth_error name (length eis) = Some v ->
    mstep ufn m name cur (mk_mstate (Some cur) None eis c ms) =
    Ok (match find (fun ve => obytes_eqb v (ve_value ve)) (n_vedges nd) with
        | Some ve => mk_mstate (ve_dest ve) None (O :: eis) c (None :: ms)
        | None => mk_mstate (Some cur) (Some O) eis c ms
        end, None).
  Proof.
    intros Hn Hv. unfold mstep. rewrite Hn. cbn [ms_eis ms_ei mk_mstate].
    assert (Hlt : (length eis < length name)%nat) by (apply nth_error_Some; congruence).
    destruct (Nat.eqb_spec (length eis) (length name)); [lia|].
    destruct (n_vedges nd) as [|ve0 ves] eqn:Ev; [reflexivity|].
    rewrite Hv. destruct (find _ (ve0 :: ves)); reflexivity.
  Qed.

  Lemma mstep_back name cur nd i eis c ms :
    get_node m cur = Some nd -> (length eis < length name)%nat -> nth_error (n_pedges nd) i = None ->
    mstep ufn m name cur (mk_mstate (Some cur) (Some i) eis c ms) = Ok (backtrack nd (mk_mstate (Some cur) (Some i) eis c ms), None).
  Proof.
    intros Hn Hl Hp. unfold mstep. rewrite Hn. cbn [ms_eis ms_ei mk_mstate].
    destruct (Nat.eqb_spec (length eis) (length name)); [lia|]. rewrite Hp. reflexivity.
  Qed.

  Lemma mstep_pat name cur nd i eis c ms pe v :
    get_node m cur = Some nd -> nth_error name (length eis) = Some v -> nth_error (n_pedges nd) i = Some pe ->
    mstep ufn m name cur (mk_mstate (Some cur) (Some i) eis c ms) =
    do t <- try_pedge ufn m pe v c ;;
    Ok (match t with
        | None => mk_mstate (Some cur) (Some (S i)) eis c ms
        | Some (c', tg) => mk_mstate (pe_dest pe) None (S i :: eis) c' (tg :: ms)
        end, None).
  Proof.
    intros Hn Hv Hp. unfold mstep. rewrite Hn. cbn [ms_eis ms_ei ms_ctx ms_ms mk_mstate].
    assert (Hlt : (length eis < length name)%nat) by (apply nth_error_Some; congruence).
    destruct (Nat.eqb_spec (length eis) (length name)); [lia|]. rewrite Hp, Hv.
    unfold try_pedge, with_ei. cbn [ms_cur ms_eis ms_ctx ms_ms mk_mstate].
    destruct (match pe_tag pe with Some t => ctx_get c t | None => None end) as [w|] eqn:Eb.
    - destruct (negb (bytes_eqb v w)); [reflexivity|].
      destruct (check_cons ufn v c (pe_cons pe)) as [[|]|]; reflexivity.
    - destruct (check_cons ufn v c (pe_cons pe)) as [[|]|]; try reflexivity. cbn.
      destruct (pe_tag pe) as [t|]; [|reflexivity]. destruct (npc_leb m t) as [[|]|]; reflexivity.
  Qed.

  Lemma mrun_S {A R} k name cur st (f : A -> N -> ctx -> res (A + R)) a :
    ms_cur st = Some cur ->
    mrun ufn m (S k) name st f a =
    do r <- mstep ufn m name cur st ;;
    match snd r with
    | None => mrun ufn m k name (fst r) f a
    | Some y => do x <- f a (fst y) (snd y) ;;
                match x with inl a' => mrun ufn m k name (fst r) f a' | inr v => Ok (inr v) end
    end.
  Proof. intros H. cbn [mrun]. rewrite H. reflexivity. Qed.

  Lemma mrun_halt {A R} k name st (f : A -> N -> ctx -> res (A + R)) a :
    ms_cur st = None -> mrun ufn m k name st f a = Ok (inl a).
  Proof. intros H. destruct k; cbn [mrun]; rewrite H; reflexivity. Qed.


  Section Run.
    Variable name : list bytes.

    (* big-step form of the machine, whoever consumes: at most [bound] iterations from [st] yield the events [ev]; if
       the consumer is still listening and [ev] ends without an error, the loop goes on from [st'] *)
    Definition runs (bound : nat) (st : mstate) (ev : events) (st' : mstate) : Prop :=
      exists n, (n <= bound)%nat /\ forall fuel A R (f : A -> N -> ctx -> res (A + R)) a,
        mrun ufn m (n + fuel) name st f a =
        do x <- feed f ev a ;; match x with inl a' => mrun ufn m fuel name st' f a' | inr v => Ok (inr v) end.

    Lemma runs_done st : runs 0 st [] st.
    Proof. exists O. split; [lia | reflexivity]. Qed.

    Lemma runs_silent b b' cur st st1 ev st' :
      ms_cur st = Some cur -> mstep ufn m name cur st = Ok (st1, None) -> runs b st1 ev st' -> (b < b')%nat ->
      runs b' st ev st'.
    Proof.
      intros Hc Hs (n & Hn & Hr) Hb. exists (S n). split; [lia|]. intros fuel A R f a.
      cbn [Nat.add]. rewrite (mrun_S _ _ cur), Hs by exact Hc. apply Hr.
    Qed.

    Lemma runs_err b cur st e st' :
      ms_cur st = Some cur -> mstep ufn m name cur st = Err e -> (0 < b)%nat -> runs b st [Raise e] st'.
    Proof.
      intros Hc Hs Hb. exists 1%nat. split; [lia|]. intros fuel A R f a.
      cbn [Nat.add]. rewrite (mrun_S _ _ cur), Hs by exact Hc. reflexivity.
    Qed.

    Lemma runs_yield cur st st1 n c :
      ms_cur st = Some cur -> mstep ufn m name cur st = Ok (st1, Some (n, c)) -> runs 1 st [Yield n c] st1.
    Proof.
      intros Hc Hs. exists 1%nat. split; [lia|]. intros fuel A R f a.
      cbn [Nat.add]. rewrite (mrun_S _ _ cur), Hs by exact Hc. cbn.
      destruct (f a n c) as [[a'|v]|e]; reflexivity.
    Qed.

    Lemma runs_seq b1 b2 st ev1 st1 ev2 st2 :
      runs b1 st ev1 st1 -> runs b2 st1 ev2 st2 -> runs (b1 + b2) st (ev1 ++ ev2) st2.
    Proof.
      intros (n1 & Hn1 & Hr1) (n2 & Hn2 & Hr2). exists (n1 + n2)%nat. split; [lia|]. intros fuel A R f a.
      rewrite <- Nat.add_assoc, Hr1, feed_app. destruct (feed f ev1 a) as [[a1|v]|e]; cbn [bind]; [apply Hr2 | |]; reflexivity.
    Qed.

    (* entering a node with edge_index = -1 yields the events of the tree below it and backtracks to its parent *)
    Definition enters (suffix : list bytes) : Prop := forall cur up nd eis c ms,
      subtree_ok m cur up -> get_node m cur = Some nd -> skipn (length eis) name = suffix -> (length eis <= length name)%nat ->
      exists ei', runs (cost suffix cur) (mk_mstate (Some cur) None eis c ms) (tree_events ufn m suffix cur c)
                       (backtrack nd (mk_mstate (Some cur) ei' eis c ms)).

    Lemma enters_child rest cur v eis ms d c' tg i :
      enters rest -> skipn (length eis) name = v :: rest -> subtree_ok m d (Some cur) ->
      runs (cost rest d) (mk_mstate (Some d) None (i :: eis) c' (tg :: ms)) (tree_events ufn m rest d c')
           (mk_mstate (Some cur) (Some i) eis (match tg with Some t => al_del N.eqb c' t | None => c' end) ms).
    Proof.
      intros IHs Hs Hsub. pose proof Hsub as ((cnd & Hg & Hp) & _).
      destruct (IHs d (Some cur) cnd (i :: eis) c' (tg :: ms) Hsub Hg) as (ei' & Hrun).
      - apply skipn_cons_nth in Hs. apply Hs.
      - apply skipn_cons_length in Hs. cbn. lia.
      - unfold backtrack, mk_mstate in Hrun. cbn in Hrun. rewrite Hp in Hrun. destruct tg; exact Hrun.
    Qed.

    Lemma ploop cur nd v rest eis c ms :
      enters rest -> get_node m cur = Some nd -> skipn (length eis) name = v :: rest ->
      forall todo i, skipn i (n_pedges nd) = todo ->
        (forall pe, In pe todo -> exists d, pe_dest pe = Some d /\ subtree_ok m d (Some cur)) ->
        exists ei',
        runs (S (list_sum (map (fun pe => S (match pe_dest pe with Some d => cost rest d | None => O end)) todo)))
             (mk_mstate (Some cur) (Some i) eis c ms) (pevents ufn m (tree_events ufn m rest) v c todo)
             (backtrack nd (mk_mstate (Some cur) ei' eis c ms)).
    Proof.
      intros IHs Hn Hs.
      destruct (proj1 skipn_cons_nth Hs) as [Hv _].
      assert (Hlt : (length eis < length name)%nat) by (eapply skipn_cons_length; eauto).
      induction todo as [|pe todo IH]; intros i Hsk Hch.
      - exists (Some i). eapply runs_silent; [reflexivity | | apply runs_done | lia].
        apply mstep_back; auto. apply nth_error_None, skipn_nil_length, Hsk.
      - apply skipn_cons_nth in Hsk. destruct Hsk as [Hnth Hsk].
        destruct (IH _ Hsk (fun pe0 H0 => Hch pe0 (or_intror H0))) as (ei' & IH').
        exists ei'.
        assert (Hstep := mstep_pat name cur nd i eis c ms pe v Hn Hv Hnth).
        cbn [pevents map]. rewrite list_sum_cons.
        destruct (try_pedge ufn m pe v c) as [[[c' tg]|]|e] eqn:Et; cbn [bind] in Hstep.
        + (* edge passable: the subtree below it, then the remaining edges *)
          destruct (Hch pe (or_introl eq_refl)) as (d & Hd & Hsub). rewrite Hd in Hstep |- *.
          apply try_pedge_ctx in Et.
          eapply runs_silent;
            [ reflexivity | exact Hstep
            | eapply runs_seq; [eapply enters_child; eassumption | destruct tg as [t|]; rewrite Et; exact IH']
            | lia ].
        + eapply runs_silent; [reflexivity | exact Hstep | apply IH' | lia].
        + eapply runs_err; [reflexivity | exact Hstep | lia].
    Qed.

    Lemma enter suffix : enters suffix.
    Proof.
      induction suffix as [|v rest IHs]; intros cur up nd eis c ms Hsub Hn Hs Hle.
      - exists None. cbn [tree_events cost]. rewrite Hn. eapply runs_yield; [reflexivity|].
        apply mstep_yield; [exact Hn|]. apply skipn_nil_length in Hs. lia.
      - destruct (proj1 skipn_cons_nth Hs) as [Hv _].
        apply subtree_ok_iff in Hsub. destruct Hsub as (nd' & Hn' & _ & _ & Hve & Hpe & _).
        rewrite Hn in Hn'. injection Hn' as <-.
        destruct (ploop cur nd v rest eis c ms IHs Hn Hs (n_pedges nd) O eq_refl) as (ei' & Hp).
        { intros pe Hin. destruct (Hpe pe Hin) as (d & Hd & _ & _ & Hsub & _). eauto. }
        assert (Hstep := mstep_value name cur nd eis c ms v Hn Hv).
        exists ei'. cbn [tree_events cost]. rewrite Hn.
        destruct (find (fun ve => obytes_eqb v (ve_value ve)) (n_vedges nd)) as [ve|] eqn:Ef.
        + apply find_some in Ef. destruct Ef as [Hin _].
          destruct (Hve ve Hin) as (d & Hd & _ & Hsub).
          pose proof (list_sum_in (fun ve => match ve_dest ve with Some d => cost rest d | None => O end) _ _ Hin) as Hcost.
          cbv beta in Hcost. rewrite Hd in Hstep, Hcost |- *.
          eapply runs_silent;
            [ reflexivity | exact Hstep | eapply runs_seq; [eapply enters_child; eassumption | exact Hp] | lia ].
        + eapply runs_silent; [reflexivity | exact Hstep | exact Hp | lia].
    Qed.
  End Run.
End Machine.

Section Reach.
  Variable m : lvsmodel.
  Hypothesis Hsane : forall i, reach m i -> node_ok m i = true.

  Lemma node_ok_node i : reach m i -> exists nd, get_node m i = Some nd.
  Proof.
    intros Hr. apply Hsane in Hr. unfold node_ok in Hr. destruct (get_node m i) as [nd|]; [eauto|discriminate].
  Qed.
End Reach.

Section Top.
  Variable ufn : ident -> option (bytes -> list (option bytes) -> res bool).
  Variable m : lvsmodel.
  Hypothesis Hsane : sane m.

  (* a sane model has a start node ([root_subtree]): the default is never used *)
  Definition root : N := match m_start m with Some s => s | None => 0 end.

  Lemma root_subtree : m_start m = Some root /\ subtree_ok m root None.
  Proof. destruct (proj1 (sane_iff m) Hsane) as (_ & s & Es & Hsub). unfold root. rewrite Es. auto. Qed.

  Definition match_cost (name : list bytes) : nat :=
    match m_start m with Some s => cost m name s | None => O end.

  Theorem mrun_events {A R} fuel name c (f : A -> N -> ctx -> res (A + R)) a : (match_cost name <= fuel)%nat ->
    mrun ufn m fuel name (mstart m c) f a = feed f (tree_events ufn m name root c) a.
  Proof.
    destruct root_subtree as [Es Hsub]. pose proof Hsub as ((nd & En & Ep) & _). intros Hf.
    destruct (enter ufn m name name root None nd [] c [] Hsub En eq_refl (Nat.le_0_l _)) as (ei' & n & Hn & Hrun).
    unfold match_cost in Hf. rewrite Es in Hf.
    replace fuel with (n + (fuel - n))%nat by lia.
    unfold mstart. rewrite Es. fold (mk_mstate (Some root) None [] c []). rewrite Hrun.
    destruct (feed f (tree_events ufn m name root c) a) as [[a'|x]|e]; try reflexivity.
    apply mrun_halt. unfold backtrack, mk_mstate. cbn. exact Ep.
  Qed.
End Top.

