(* C07: the library's split and element reader versus those of a strict reading of the format, one level at a time
   (Proofs/PacketChecked.v relates the decoders at every depth). *)
From NDN Require Import Base.Prelude Base.Utf8 Model.TlvVar Model.Tlv Model.TlvChecked Spec.StrictTlv
  Proofs.BytesLemmas Proofs.TlvVarProofs Proofs.TlvSplit.
Local Open Scope N_scope.

Definition exact (e : elem) : Prop := e_dlen e = N.of_nat (length (e_payload e)).

Lemma forallb_exact els : forallb exactb els = true <-> Forall exact els.
Proof.
  rewrite forallb_forall, Forall_forall. split; intros H x Hx; apply (N.eqb_eq (e_dlen x)), H, Hx.
Qed.

Lemma exactb_elem t l p : exactb (Elem t l p) = (l =? N.of_nat (length p)).
Proof. reflexivity. Qed.

(* The strict split is the library's split followed by a test that no element was truncated: where a declared
   Length overruns, the library takes what is left, which is shorter than declared. *)
Lemma strict_elements_eq : forall fuel w,
  strict_elements fuel w =
  match elements fuel w with Ok els => if forallb exactb els then Some els else None | Err _ => None end.
Proof.
  induction fuel as [|fuel IH]; intros w; destruct w as [|b w']; try reflexivity.
  cbn [strict_elements elements]. set (w := b :: w').
  destruct (tl_dec w) as [[t st]|]; [|reflexivity]. cbn [bind].
  destruct (tl_dec (skipn st w)) as [[l sl]|]; [|reflexivity]. cbn [bind].
  set (body := skipn (st + sl) w). destruct (N.of_nat (length body) <? l) eqn:E.
  - replace (N.to_nat (N.min l (N.of_nat (length body)))) with (length body) by lia.
    rewrite skipn_all, firstn_all, elements_nil. cbn [bind forallb]. rewrite exactb_elem.
    replace (l =? N.of_nat (length body)) with false by lia. reflexivity.
  - replace (N.to_nat (N.min l (N.of_nat (length body)))) with (N.to_nat l) by lia.
    rewrite IH. destruct (elements fuel (skipn (N.to_nat l) body)) as [r|]; [|reflexivity].
    cbn [bind forallb]. rewrite exactb_elem, firstn_length.
    replace (l =? N.of_nat (Nat.min (N.to_nat l) (length body))) with true by lia.
    destruct (forallb exactb r); reflexivity.
Qed.

(* on an element whose Length is exact the strict reader is the library's, except that it splits a sub-model strictly:
   the [rd_step] that TlvRoundtrip2.v asks of an element reader (CertStrict.v takes the instance) *)
Lemma strict_val_exact d k e : exact e ->
  strict_val (S d) k e =
  match k with
  | KModel fs ic =>
      match strict_split (e_payload e) with
      | Some els => do vs <- assign_with (strict_val d) fs ic PNormal 0 els (blank fs) ;; Ok (VModel vs)
      | None => Err EIndex
      end
  | _ => parse_val (S d) k e
  end.
Proof.
  unfold exact. intros Hex. destruct k; cbn [strict_val parse_val]; try reflexivity.
  - rewrite Hex. destruct (_ || _ || _ || _); [rewrite N.eqb_refl|]; reflexivity.
  - destruct is_string, (utf8_valid (e_payload e)); reflexivity.
  - rewrite Hex, N.ltb_irrefl. reflexivity.
Qed.

Lemma elements_exact_strict fuel w els :
  elements fuel w = Ok els -> Forall exact els -> strict_elements fuel w = Some els.
Proof. intros H Hex. rewrite strict_elements_eq, H, (proj2 (forallb_exact els) Hex). reflexivity. Qed.

Lemma el_ok_exact e : el_ok e -> exact e.
Proof. intros (_ & He & _). exact He. Qed.

Lemma strict_split_ser els : Forall el_ok els -> strict_split (ser_els els) = Some els.
Proof.
  intros H. apply elements_exact_strict; [exact (split_wire_ser els H)|].
  exact (Forall_impl _ el_ok_exact H).
Qed.

Lemma strict_split_tlv t p :
  t < two64 -> N.of_nat (length p) < two64 -> strict_split (tlv t p) = Some [Elem t (N.of_nat (length p)) p].
Proof.
  intros Ht Hp. pose proof (ser_single (Elem t (N.of_nat (length p)) p)) as E. cbn [e_type e_payload] in E.
  rewrite <- E. apply strict_split_ser. constructor; [apply el_ok_intro; assumption|constructor].
Qed.

(* the number of elements is linear in the input (no work amplification) *)
Theorem elements_linear : forall fuel w els, elements fuel w = Ok els -> (2 * length els <= length w)%nat.
Proof.
  induction fuel as [|fuel IH]; intros w els H; (destruct w as [|b w']; [injection H as <-; cbn; lia|]); [discriminate|].
  rewrite elements_step in H by discriminate. set (w := b :: w') in *.
  apply bind_ok in H as ([t st] & E1 & H). apply bind_ok in H as ([l sl] & E2 & H).
  apply bind_ok in H as (r & Er & H). injection H as <-.
  apply IH in Er. rewrite !skipn_length in Er. apply tl_dec_ok in E1, E2. rewrite skipn_length in E2. cbn [length]. lia.
Qed.
