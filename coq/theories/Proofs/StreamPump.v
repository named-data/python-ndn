(* C06 (A): the StreamFace.run loop over chunk events.
   [pumps] is the fuel-free big-step reading of the loop; [pump] (the executable model) computes it
   whenever its fuel suffices, and the fuel the model passes always suffices.  On top of [run_one_app]
   of StreamRun.v: feeding two chunks = feeding their concatenation (state and deliveries), hence
   every chunking of a byte stream delivers the same packets. *)
From NDN Require Import Base.Prelude Model.Stream Spec.Framing Proofs.StreamRun.

(* the loop, from the state run() is in, on the bytes now buffered: what it hands over, where it stops and
   what stays in the buffer *)
Inductive pumps (running : bool) : cstate -> bytes -> list pkt -> cstate -> bytes -> Prop :=
| P_blocked m buf m' b :
    run_one m buf = OBlocked m' b -> pumps running (CBlocked m) buf [] (CBlocked m') b
| P_fail m buf e :
    run_one m buf = OFail e -> pumps running (CBlocked m) buf [] (CCrashed e) buf
| P_last m buf p rest :
    running = false -> run_one m buf = ODone p rest -> pumps running (CBlocked m) buf [p] CFinished rest
| P_next m buf p rest ps co b :
    running = true -> run_one m buf = ODone p rest ->
    pumps running (CBlocked run_body) rest ps co b -> pumps running (CBlocked m) buf (p :: ps) co b
| P_idle buf : pumps running CFinished buf [] CFinished buf.

(* The executable loop computes the big-step relation.  Every round after the first starts with
   readexactly(1) and so consumes a byte: two units of fuel more than the first round leaves suffice,
   and the model passes two more than the length of the buffer.  The relation is deterministic, so the
   loop also computes every derivation ([pump_complete]). *)
Lemma pump_sound : forall fuel r m buf, 0 < fuel ->
  (forall p rest, run_one m buf = ODone p rest -> length rest + 1 < fuel) ->
  let '(ps, co, b) := pump fuel r m buf in pumps r (CBlocked m) buf ps co b.
Proof.
  induction fuel as [|f IH]; intros r m buf H0 Hf; [lia|]. cbn [pump].
  destruct (run_one m buf) as [p rest|m' b'|e] eqn:E; [|apply P_blocked, E|apply P_fail, E].
  destruct r; [|apply P_last; [reflexivity|exact E]].
  specialize (Hf p rest eq_refl). specialize (IH true run_body rest).
  destruct (pump f true run_body rest) as [[ps co] b]. eapply P_next; [reflexivity|exact E|].
  apply IH; [lia|]. intros p' rest' E'. apply run_body_consumes in E'. lia.
Qed.

Lemma pump_pumps fuel r m buf : length buf + 1 < fuel ->
  let '(ps, co, b) := pump fuel r m buf in pumps r (CBlocked m) buf ps co b.
Proof. intros Hf. apply pump_sound; [lia|]. intros p rest E. apply run_one_done_length in E. lia. Qed.

Lemma pumps_det r c buf ps co b : pumps r c buf ps co b ->
  forall ps' co' b', pumps r c buf ps' co' b' -> (ps', co', b') = (ps, co, b).
Proof.
  induction 1 as [m buf m' b E|m buf e E|m buf p rest Hr E|m buf p rest ps co b Hr E _ IH|buf];
    intros ps' co' b' H'; inversion H'; subst; try congruence.
  rewrite E in *. injection H1 as <- <-. specialize (IH _ _ _ H2). congruence.
Qed.

Lemma pump_complete fuel r m buf ps co b :
  pumps r (CBlocked m) buf ps co b -> length buf + 1 < fuel -> pump fuel r m buf = (ps, co, b).
Proof.
  intros H Hf. pose proof (pump_pumps fuel r m buf Hf) as S.
  destruct (pump fuel r m buf) as [[ps' co'] b']. exact (pumps_det _ _ _ _ _ _ H _ _ _ S).
Qed.

Lemma pumps_fuel r c buf ps co b : pumps r c buf ps co b -> co <> COutOfFuel.
Proof. induction 1; try discriminate; assumption. Qed.

Lemma pump_enough fuel r m buf :
  length buf + 1 < fuel -> snd (fst (pump fuel r m buf)) <> COutOfFuel.
Proof.
  intros Hf. pose proof (pump_pumps fuel r m buf Hf) as H.
  destruct (pump fuel r m buf) as [[ps co] b]. exact (pumps_fuel _ _ _ _ _ _ H).
Qed.

(* where a loop whose coroutine cannot fail stops: run() waits at a readexactly that the buffered bytes do
   not complete, or it has returned *)
Definition co_inv (co : cstate) (b : bytes) : Prop :=
  match co with
  | CBlocked m => never_fails m /\ waiting m b
  | CFinished => True
  | _ => False
  end.

Lemma run_body_inv : co_inv (CBlocked run_body) [].
Proof. split; [apply run_body_never_fails|exact (run_one_blocked_waiting _ _ _ _ run_body_empty)]. Qed.

Lemma pumps_inv r c buf ps co b : pumps r c buf ps co b -> forall b0, co_inv c b0 -> co_inv co b.
Proof.
  induction 1 as [m buf m1 b E|m buf e E|m buf p rest Hr E|m buf p rest ps co b Hr E _ IH|buf]; intros b0 Hs.
  - pose proof (never_fails_run m (proj1 Hs) buf) as N. rewrite E in N.
    split; [exact N|eapply run_one_blocked_waiting; exact E].
  - pose proof (never_fails_run m (proj1 Hs) buf) as N. rewrite E in N. destruct N.
  - exact I.
  - apply (IH []), run_body_inv.
  - exact I.
Qed.

Lemma pumps_total r c b0 buf : co_inv c b0 -> exists ps co b, pumps r c buf ps co b.
Proof.
  destruct c as [m| | |]; try contradiction; intros _; [|exists [], CFinished, buf; apply P_idle].
  pose proof (pump_pumps (2 + length buf) r m buf ltac:(lia)) as H. destruct (pump _ r m buf) as [[ps co] b].
  exists ps, co, b. exact H.
Qed.

Lemma pumps_app r c buf ps1 co1 b1 x : pumps r c buf ps1 co1 b1 -> co_inv co1 b1 ->
  forall ps2 co2 b2, pumps r co1 (b1 ++ x) ps2 co2 b2 -> pumps r c (buf ++ x) (ps1 ++ ps2) co2 b2.
Proof.
  induction 1 as [m buf m1 b E|m buf e E|m buf p rest Hr E|m buf p rest ps co b Hr E _ IH|buf];
    intros Hs ps2 co2 b2 H2.
  - (* the resumed loop only looks at [run_one m1 (b ++ x)], which is [run_one m (buf ++ x)] *)
    pose proof (run_one_app m buf x) as A. rewrite E in A. inversion H2; subst.
    + apply P_blocked. congruence.
    + destruct (pumps_inv _ _ _ _ _ _ H2 _ Hs).
    + apply P_last; congruence.
    + eapply P_next; [reflexivity| |eassumption]. congruence.
  - destruct Hs.
  - inversion H2; subst. apply P_last; [reflexivity|rewrite run_one_app, E; reflexivity].
  - eapply P_next; [exact Hr|rewrite run_one_app, E; reflexivity|]. apply IH; assumption.
  - exact H2.
Qed.

(* what holds of a StreamFace between two events as long as only bytes have arrived (plus, possibly, a
   shutdown() by the application) *)
Definition face_inv (f : face) : Prop :=
  f_eof f = false /\
  match f_co f with
  | CBlocked m => never_fails m /\ waiting m (f_buf f)
  | CFinished => True
  | _ => False
  end.

Lemma face_init_inv : face_inv face_init.
Proof. exact (conj eq_refl run_body_inv). Qed.

Lemma step_feed cfg f c ps co b :
  f_eof f = false -> pumps (f_running f) (f_co f) (f_buf f ++ c) ps co b ->
  step cfg f (Feed c) = (Face (f_running f) co b false (f_closed f), ps).
Proof.
  intros He HP. cbn [step]. rewrite He. destruct (f_co f) as [m| | |]; [|inversion HP; reflexivity..].
  rewrite (pump_complete _ _ _ _ _ _ _ HP) by lia. reflexivity.
Qed.

Lemma step_feed_inv cfg f c f' out : face_inv f -> step cfg f (Feed c) = (f', out) -> face_inv f'.
Proof.
  intros [He Hco] H. destruct (pumps_total (f_running f) _ _ (f_buf f ++ c) Hco) as (ps & co & b & HP).
  rewrite (step_feed _ _ _ _ _ _ He HP) in H. injection H as <- <-.
  exact (conj eq_refl (pumps_inv _ _ _ _ _ _ HP _ Hco)).
Qed.

Lemma step_feed_nil cfg f : face_inv f -> step cfg f (Feed []) = (f, []).
Proof.
  intros [He Hco]. rewrite (step_feed cfg f [] [] (f_co f) (f_buf f) He).
  - destruct f. cbn in He. subst. reflexivity.
  - rewrite app_nil_r. destruct (f_co f); try contradiction.
    + apply P_blocked, waiting_blocked, Hco.
    + apply P_idle.
Qed.

Theorem step_feed_feed cfg f c1 c2 f1 o1 f2 o2 :
  face_inv f -> step cfg f (Feed c1) = (f1, o1) -> step cfg f1 (Feed c2) = (f2, o2) ->
  step cfg f (Feed (c1 ++ c2)) = (f2, o1 ++ o2).
Proof.
  intros [He Hco] H1 H2.
  destruct (pumps_total (f_running f) _ _ (f_buf f ++ c1) Hco) as (ps1 & co1 & b1 & HP1).
  rewrite (step_feed _ _ _ _ _ _ He HP1) in H1. injection H1 as <- <-.
  pose proof (pumps_inv _ _ _ _ _ _ HP1 _ Hco) as N1.
  destruct (pumps_total (f_running f) _ _ (b1 ++ c2) N1) as (ps2 & co2 & b2 & HP2).
  erewrite step_feed in H2 by first [reflexivity|exact HP2]. injection H2 as <- <-.
  apply (step_feed _ _ _ _ _ _ He). rewrite app_assoc. exact (pumps_app _ _ _ _ _ _ _ HP1 N1 _ _ _ HP2).
Qed.

Lemma run_events_app cfg evs1 evs2 : forall f,
  run_events cfg f (evs1 ++ evs2) =
  let '(f1, o1) := run_events cfg f evs1 in let '(f2, o2) := run_events cfg f1 evs2 in (f2, o1 ++ o2).
Proof.
  induction evs1 as [|e evs1 IH]; intros f; cbn [run_events app].
  - destruct (run_events cfg f evs2). reflexivity.
  - destruct (step cfg f e) as [fa oa]. rewrite IH. destruct (run_events cfg fa evs1) as [fb ob].
    destruct (run_events cfg fb evs2). reflexivity.
Qed.

Theorem feeds_concat cfg : forall chunks f f' outs,
  face_inv f -> run_events cfg f (map Feed chunks) = (f', outs) ->
  step cfg f (Feed (concat chunks)) = (f', concat outs).
Proof.
  induction chunks as [|c cs IH]; intros f f' outs Hinv H; cbn [map run_events concat] in *.
  - inversion H; subst. apply step_feed_nil. exact Hinv.
  - destruct (step cfg f (Feed c)) as [f1 o1] eqn:E1.
    destruct (run_events cfg f1 (map Feed cs)) as [f2 os] eqn:E2. inversion H; subst. cbn [concat].
    eapply step_feed_feed; [exact Hinv|exact E1|].
    apply IH; [eapply step_feed_inv; eassumption|exact E2].
Qed.

Theorem feeds_pumps cfg chunks ps co b f' outs :
  pumps true (CBlocked run_body) (concat chunks) ps co b ->
  run_events cfg face_init (map Feed chunks) = (f', outs) ->
  concat outs = ps /\ f' = Face true co b false false.
Proof.
  intros HP H. apply (feeds_concat cfg _ _ _ _ face_init_inv) in H.
  rewrite (step_feed cfg face_init _ ps co b eq_refl HP) in H.
  injection H as <- <-. split; reflexivity.
Qed.

(* one more event that hands nothing over (end of stream, reset) finds the face where the loop stopped *)
Theorem feeds_pumps_then cfg chunks e ps co b f2 f' outs :
  pumps true (CBlocked run_body) (concat chunks) ps co b ->
  step cfg (Face true co b false false) e = (f2, []) ->
  run_events cfg face_init (map Feed chunks ++ [e]) = (f', outs) ->
  concat outs = ps /\ f' = f2.
Proof.
  intros HP Hs. rewrite run_events_app.
  destruct (run_events cfg face_init (map Feed chunks)) as [f1 o1] eqn:E1.
  destruct (feeds_pumps _ _ _ _ _ _ _ HP E1) as [<- ->]. cbn [run_events]. rewrite Hs. intros H.
  injection H as <- <-. rewrite concat_app. cbn [concat]. rewrite !app_nil_r. split; reflexivity.
Qed.

(* feed_eof / a connection reset while run() waits, with the exception listed in the except clause *)
Lemma step_eof_blocked cfg r m b cl : catch_incomplete cfg = true ->
  step cfg (Face r (CBlocked m) b false cl) Eof = (Face false CFinished [] true true, []).
Proof. intros H. cbn. rewrite H. reflexivity. Qed.

Lemma step_reset_blocked cfg r m b cl : catch_reset cfg = true ->
  step cfg (Face r (CBlocked m) b false cl) Reset = (Face false CFinished b false true, []).
Proof. intros H. cbn. rewrite H. reflexivity. Qed.

Lemma pumps_stream : forall pkts tail co b,
  Forall framed pkts -> pumps true (CBlocked run_body) tail [] co b ->
  pumps true (CBlocked run_body) (stream_of pkts ++ tail) pkts co b.
Proof.
  induction pkts as [|p ps IH]; intros tail co b Hf Ht; cbn [stream_of flat_map app].
  - exact Ht.
  - inversion Hf; subst. rewrite <- app_assoc.
    eapply P_next; [reflexivity|apply run_body_framed; assumption|]. apply IH; assumption.
Qed.

Theorem framing cfg pkts chunks f' outs :
  Forall framed pkts -> concat chunks = stream_of pkts ->
  run_events cfg face_init (map Feed chunks) = (f', outs) ->
  concat outs = pkts /\ f' = face_init.
Proof.
  intros Hf Hc H. apply (feeds_pumps cfg chunks pkts (CBlocked run_body) [] f' outs); [|exact H].
  rewrite Hc, <- (app_nil_r (stream_of pkts)). apply pumps_stream; [exact Hf|]. apply P_blocked, run_body_empty.
Qed.

Theorem truncated cfg pkts pre chunks f' outs :
  catch_incomplete cfg = true ->
  Forall framed pkts -> partial_packet pre -> concat chunks = stream_of pkts ++ pre ->
  run_events cfg face_init (map Feed chunks ++ [Eof]) = (f', outs) ->
  concat outs = pkts /\ f' = Face false CFinished [] true true.
Proof.
  intros Hcfg Hf Hp Hc H. destruct (run_body_partial pre Hp) as (m & b & Eb).
  apply (feeds_pumps_then cfg chunks Eof pkts (CBlocked m) b _ f' outs); [|apply step_eof_blocked, Hcfg|exact H].
  rewrite Hc. apply pumps_stream; [exact Hf|]. apply P_blocked, Eb.
Qed.
