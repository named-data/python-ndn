(* Compiler._replicate_rules (Model/LvsCompiler.replicate_rules): what one step of the pass does to the current chains,
   the pass as a fold of [rstep], and what it means that the components and constraints of a chain are those of the
   numbered rules ([chain_from]). *)
From NDN Require Import Base.Prelude Model.LvsAst Model.LvsChecker Model.LvsCompiler Proofs.ListLemmas
  Proofs.LvsTraverse Proofs.LvsRename.
Local Open Scope N_scope.

Definition app_comp (ch : chain) (c : ncomp) : chain :=
  {| ch_id := ch_id ch; ch_name := ch_name ch ++ [c]; ch_cons := ch_cons ch; ch_sign := ch_sign ch |}.

Definition app_ref (rid : ident) (ch : chain) (rn : list ncomp) (rcs : list ncons) : chain :=
  {| ch_id := rid; ch_name := ch_name ch ++ rn; ch_cons := ch_cons ch ++ rcs; ch_sign := ch_sign ch |}.

(* the step of [inline_ref] *)
Definition inline1 (rid : ident) (rcx : chain) (k : N) (ch : chain) : N * chain :=
  let '(k', (rn, rcs)) := rename_temp_tags k rcx in (k', app_ref rid ch rn rcs).

Lemma inline1_inv rid rcx kc ch kd y : inline1 rid rcx kc ch = (kd, y) ->
  kc <= kd /\ exists rn rcs, rename_temp_tags kc rcx = (kd, (rn, rcs)) /\ y = app_ref rid ch rn rcs.
Proof.
  unfold inline1. destruct (rename_temp_tags kc rcx) as [k4 [rn rcs]] eqn:E. intros H. injection H as <- <-.
  pose proof (rename_temp_tags_le _ _ _ _ E). eauto.
Qed.

Lemma replicate_comp_own rep rid s c : (forall x, c <> NRef x) ->
  replicate_comp rep rid s c = Ok (map (fun ch => app_comp ch c) (fst s), snd s).
Proof. intros H. destruct c as [v|t|x]; [reflexivity | reflexivity | destruct (H x eq_refl)]. Qed.

Lemma replicate_comp_total rep rid s c : (forall x, c = NRef x -> In x (map fst rep)) -> exists s', replicate_comp rep rid s c = Ok s'.
Proof.
  intros H. destruct c as [v|t|x]; cbn [replicate_comp]; eauto.
  destruct (al_get ident_eqb rep x) as [refs|] eqn:E; [destruct (map_acc _ _ refs); eauto|].
  apply (al_get_none ident_eqb ident_eqb_eq) in E. destruct (E (H x eq_refl)).
Qed.

Lemma replicate_comp_ref rep rid cur k x refs : al_get ident_eqb rep x = Some refs ->
  exists cur' k', replicate_comp rep rid (cur, k) (NRef x) = Ok (cur', k') /\ k <= k' /\
    (forall y, In y cur' -> exists rcx ch kc kd, In rcx refs /\ In ch cur /\ k <= kc /\ kd <= k' /\ inline1 rid rcx kc ch = (kd, y)) /\
    (forall rcx ch, In rcx refs -> In ch cur -> exists y kc kd, In y cur' /\ k <= kc /\ kd <= k' /\ inline1 rid rcx kc ch = (kd, y)).
Proof.
  intros Er. cbn [replicate_comp fst snd]. rewrite Er.
  destruct (map_acc (inline_ref rid cur) k refs) as [k' groups] eqn:Em. exists (concat groups), k'. split; [reflexivity|].
  assert (Hin : forall rcx s s' g, inline_ref rid cur s rcx = (s', g) ->
            s <= s' /\ Forall2 (fun ch y => exists kc kd, s <= kc /\ kd <= s' /\ inline1 rid rcx kc ch = (kd, y)) cur g).
  { intros rcx s s' g. apply (map_acc_link_le (inline1 rid rcx)). intros a ch b y H. apply (inline1_inv _ _ _ _ _ _ H). }
  destruct (map_acc_link_le _ _ _ _ _ (fun s rcx s' g H => proj1 (Hin rcx s s' g H)) Em) as [Hle Hg].
  split; [exact Hle|]. split.
  - intros y Hy. apply in_concat in Hy. destruct Hy as (g & Hgin & Hyg).
    destruct (forall2_in_r _ _ _ _ Hg Hgin) as (rcx & Hrcx & s1 & s2 & Hs1 & Hs2 & Hi).
    destruct (forall2_in_r _ _ _ _ (proj2 (Hin _ _ _ _ Hi)) Hyg) as (ch & Hch & kc & kd & Hkc & Hkd & Hy).
    exists rcx, ch, kc, kd. repeat split; auto; lia.
  - intros rcx ch Hrcx Hch. destruct (forall2_in_l _ _ _ _ Hg Hrcx) as (g & Hgin & s1 & s2 & Hs1 & Hs2 & Hi).
    destruct (forall2_in_l _ _ _ _ (proj2 (Hin _ _ _ _ Hi)) Hch) as (y & Hyg & kc & kd & Hkc & Hkd & Hy).
    exists y, kc, kd. split; [apply in_concat; eauto|]. repeat split; auto; lia.
Qed.

Definition cons_choices (nr : nrule) : list (list ncons) := match nr_cons nr with [] => [[]] | l => l end.

Definition chain0 (nr : nrule) (cons0 : list ncons) : chain :=
  {| ch_id := nr_id nr; ch_name := []; ch_cons := cons0; ch_sign := isort str_leb (nr_sign nr) |}.

Lemma init_chains_map nr : init_chains nr = map (chain0 nr) (cons_choices nr).
Proof. unfold init_chains, cons_choices. destruct (nr_cons nr); reflexivity. Qed.

Definition rstep (s : list (ident * list chain) * N) (nr : nrule) : res (list (ident * list chain) * N) :=
  do cs <- rfold (replicate_comp (fst s) (nr_id nr)) (nr_name nr) (init_chains nr, snd s) ;;
  Ok (al_push ident_eqb (fst s) (nr_id nr) (fst cs), snd cs).

Lemma replicate_rules_rstep nrules k0 : replicate_rules nrules k0 = do r <- rfold rstep nrules ([], k0) ;; Ok (fst r).
Proof. reflexivity. Qed.

Section Replicate.
  Variable nrules : list nrule.

  Definition comp_from (c : ncomp) : Prop :=
    match c with
    | NLit v => exists nr, In nr nrules /\ In (NLit v) (nr_name nr)
    | NPat t => (t < 0)%Z \/ exists nr, In nr nrules /\ In (NPat t) (nr_name nr)
    | NRef _ => False
    end.
  Definition cons_from (nc : ncons) : Prop :=
    exists nr cs c0, In nr nrules /\ In cs (nr_cons nr) /\ In c0 cs /\ nc_opts nc = nc_opts c0.
  Definition chain_from (ch : chain) : Prop :=
    Forall comp_from (ch_name ch) /\ Forall cons_from (ch_cons ch) /\
    exists nr, In nr nrules /\ ch_id ch = nr_id nr /\ ch_sign ch = isort str_leb (nr_sign nr).

  Definition partial_for (nr : nrule) (ch : chain) : Prop :=
    Forall comp_from (ch_name ch) /\ Forall cons_from (ch_cons ch) /\ ch_id ch = nr_id nr /\ ch_sign ch = isort str_leb (nr_sign nr).

  Lemma partial_for_from nr ch : In nr nrules -> partial_for nr ch -> chain_from ch.
  Proof. intros Hnr (H1 & H2 & H3 & H4). split; [exact H1|]. split; [exact H2|]. exists nr. auto. Qed.

  Lemma rename_temp_tags_from k rc k' nm cs : 1 <= k -> Forall pat_wf (ch_cons rc) -> Forall comp_from (ch_name rc) -> Forall cons_from (ch_cons rc) ->
    rename_temp_tags k rc = (k', (nm, cs)) -> Forall comp_from nm /\ Forall cons_from cs.
  Proof.
    intros Hk Hwf Hn Hc H. destruct (rename_fresh k rc k' nm cs H Hk Hwf) as (_ & _ & _ & Ho & Hs). rewrite Forall_forall in Hn, Hc.
    split; apply Forall_forall.
    - intros c Hin. destruct (Hs c Hin) as [Hin0|(t & -> & Ht)]; [apply Hn, Hin0 | left; exact Ht].
    - intros c Hin. apply (in_map nc_opts) in Hin. rewrite Ho in Hin. apply in_map_iff in Hin. destruct Hin as (c0 & E0 & Hc0).
      destruct (Hc c0 Hc0) as (nr & cs0 & c1 & H1 & H2 & H3 & H4). exists nr, cs0, c1. repeat split; auto. congruence.
  Qed.

End Replicate.
