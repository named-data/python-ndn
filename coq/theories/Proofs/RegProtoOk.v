(* C17 — tie between the source and the model: the protocol records that tools/gen_regproto.py extracted from
   nfd_registerer.py / app.py / nfd_mgmt.py (Generated/RegProto.v, regenerated on every run) are the ones the
   theorems are about.  An edit of the source that drops the semaphore, changes the status comparison, stops
   catching decode errors, ... changes the generated record and breaks these lemmas. *)
From NDN Require Import Base.Prelude Model.NfdMgmt Model.Registerer Spec.Registration.
From NDN Require Generated.RegProto.
Local Open Scope N_scope.

Definition fe_v2 : kind -> proto := fe_of Generated.RegProto.v2_register Generated.RegProto.v2_unregister.
Definition fe_v1 : kind -> proto := fe_of Generated.RegProto.v1_register Generated.RegProto.v1_unregister.

Lemma shipped_v2_ok : frontend_ok fe_v2.
Proof. repeat split; vm_compute; reflexivity. Qed.
Lemma shipped_v1_ok : frontend_ok fe_v1.
Proof. repeat split; vm_compute; reflexivity. Qed.

(* appv2 passes validator=pass_all; the v1 front-end validates the reply's digest signature *)
Lemma shipped_v2_validates : p_validates (fe_v2 KReg) = false. Proof. reflexivity. Qed.
Lemma shipped_v1_validates : p_validates (fe_v1 KReg) = true. Proof. reflexivity. Qed.

Lemma shipped_response_type : Generated.RegProto.response_type = RESPONSE_TYPE.
Proof. reflexivity. Qed.

(* appv2 chooses its timestamps with the wait loop + bump *)
Lemma shipped_v2_loop : forall k, exists n, p_ts (fe_v2 k) = TsLoop n true.
Proof. intros [|]; eexists; reflexivity. Qed.
