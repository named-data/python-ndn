(* Compiler._gen_pattern_numbers (Model/LvsCompiler.gen_pattern_numbers):
   - pass 1 numbers the named patterns of all rule names 1..n (first occurrence order) and gives every
     occurrence of a temporary pattern a fresh negative number;
   - pass 2 fails exactly when a constraint mentions a pattern that cannot be resolved: a temporary one not in the
     rule's own name, a named one in no rule name, or a temporary one on the right hand side ([numbering_cases]). *)
From NDN Require Import Base.Prelude Model.Name Model.LvsAst Model.LvsCompiler Spec.LvsSem Proofs.LvsTraverse
  Proofs.ListLemmas Proofs.BytesLemmas.
Local Open Scope N_scope.

Lemma rmap_ok {A B} (f : A -> res B) l : (forall x, In x l -> exists y, f x = Ok y) -> exists ys, rmap f l = Ok ys.
Proof.
  intros H. destruct (forall2_ex (fun x y => f x = Ok y) l (proj2 (Forall_forall _ _) H)) as (ys & Hys).
  exists ys. apply rmap_ok_iff, Hys.
Qed.
Lemma map_acc_length {S A B} (f : S -> A -> S * B) s l : length (snd (map_acc f s l)) = length l.
Proof.
  revert s; induction l as [|x l IH]; intros s; cbn; [reflexivity|].
  destruct (f s x) as [s1 y]. specialize (IH s1). destruct (map_acc f s1 l) as [s2 ys]. cbn in *. lia.
Qed.

Definition named_has (named : list (ident * N)) (p : ident) : Prop := exists n, al_get ident_eqb named p = Some n.

Lemma resolve_named_spec named p :
  verdict ESemantic (resolve_named named p) (named_has named p) (fun n => al_get ident_eqb named p = Some n).
Proof.
  unfold resolve_named, named_has. destruct (al_get ident_eqb named p) as [n|]; [split; [eauto | reflexivity]|].
  split; [reflexivity|]. intros (n & H); discriminate.
Qed.

Definition rhs_ok (named : list (ident * N)) (p : ident) : Prop := is_temp_pat p = false /\ named_has named p.

Lemma resolve_pat_spec {B} named p (k : N -> B) :
  verdict ESemantic (if is_temp_pat p then Err ESemantic else do n <- resolve_named named p ;; Ok (k n)) (rhs_ok named p) any.
Proof.
  apply (verdict_unless ESemantic (is_temp_pat p) (is_temp_pat p = false)); [reflexivity|]. intros _.
  exact (verdict_then _ _ k _ _ any (resolve_named_spec named p) (fun _ _ => I)).
Qed.

Lemma resolve_arg_spec named a : verdict ESemantic (resolve_arg named a) (forall p, a = APat p -> rhs_ok named p) any.
Proof.
  destruct a as [c|p]; cbn [resolve_arg]; [split; [intros p H; discriminate | exact I]|].
  apply (verdict_imp _ _ (rhs_ok named p) _ any any); [|auto|apply resolve_pat_spec].
  split; [intros H q E; injection E as <-; exact H | intros H; exact (H p eq_refl)].
Qed.

Lemma resolve_opt_spec named o : verdict ESemantic (resolve_opt named o) (forall p, In p (rhs_pats o) -> rhs_ok named p) any.
Proof.
  destruct o as [c|p|f args]; cbn [resolve_opt rhs_pats].
  - split; [intros p [] | exact I].
  - apply (verdict_imp _ _ (rhs_ok named p) _ any any); [|auto|apply resolve_pat_spec].
    split; [intros H q [<-|[]]; exact H | intros H; apply H; left; reflexivity].
  - apply (verdict_imp _ _ (forall a, In a args -> forall p, a = APat p -> rhs_ok named p) _ any any); [|auto|].
    + split.
      * intros H p Hp. apply in_flat_map in Hp. destruct Hp as ([c|q] & Ha & Hp); [destruct Hp|]. destruct Hp as [<-|[]]. exact (H _ Ha q eq_refl).
      * intros H a Ha p ->. apply H, in_flat_map. exists (APat p). split; [exact Ha | left; reflexivity].
    + exact (verdict_then _ _ (NOFn f) _ _ any (verdict_rmap _ _ _ (fun _ _ => True) args (fun a _ => resolve_arg_spec named a)) (fun _ _ => I)).
Qed.

Definition tp_has (tp : temp_pats) (p : ident) : Prop := exists l, al_get ident_eqb tp p = Some l.

Definition lhs_ok (named : list (ident * N)) (tp : temp_pats) (p : ident) : Prop :=
  if is_temp_pat p then tp_has tp p else named_has named p.

Definition tagcons_ok (named : list (ident * N)) (tp : temp_pats) (tc : tagcons) : Prop :=
  lhs_ok named tp (tc_pat tc) /\ forall p, In p (flat_map rhs_pats (tc_opts tc)) -> rhs_ok named p.

(* the result: options resolved one by one; the tags of the temporary identifier, or the one number of the named pattern *)
Definition cons_resolved (named : list (ident * N)) (tp : temp_pats) (tc : tagcons) (nc : ncons) : Prop :=
  Forall2 (fun o no => resolve_opt named o = Ok no) (tc_opts tc) (nc_opts nc) /\
  (if is_temp_pat (tc_pat tc) then al_get ident_eqb tp (tc_pat tc) = Some (nc_pat nc)
   else exists n, al_get ident_eqb named (tc_pat tc) = Some n /\ nc_pat nc = [Z.of_N n]).

Lemma resolve_cons_spec named tp tc :
  verdict ESemantic (resolve_cons named tp tc) (tagcons_ok named tp tc) (cons_resolved named tp tc).
Proof.
  unfold resolve_cons, tagcons_ok.
  apply (verdict_imp _ _ (lhs_ok named tp (tc_pat tc) /\ forall o, In o (tc_opts tc) -> forall p, In p (rhs_pats o) -> rhs_ok named p) _
           (cons_resolved named tp tc) (cons_resolved named tp tc)); [|exact (fun _ H => H)|].
  { split; intros [H1 H2]; (split; [exact H1|]).
    - intros p Hp. apply in_flat_map in Hp. destruct Hp as (o & Ho & Hp). exact (H2 o Ho p Hp).
    - intros o Ho p Hp. apply H2, in_flat_map. eauto. }
  apply (verdict_bind _ _ _ _
           (fun pat => if is_temp_pat (tc_pat tc) then al_get ident_eqb tp (tc_pat tc) = Some pat
                       else exists n, al_get ident_eqb named (tc_pat tc) = Some n /\ pat = [Z.of_N n])).
  - unfold lhs_ok, tp_has. destruct (is_temp_pat (tc_pat tc)).
    + destruct (al_get ident_eqb tp (tc_pat tc)) as [l|]; [split; [exists l|]; reflexivity | split; [reflexivity | intros (l & H); discriminate]].
    + exact (verdict_then _ _ (fun n => [Z.of_N n]) _ _ _ (resolve_named_spec named (tc_pat tc)) (fun n Hn => ex_intro _ n (conj Hn eq_refl))).
  - intros pat Hpat.
    exact (verdict_then _ _ (fun opts => {| nc_pat := pat; nc_opts := opts |}) _ _ (cons_resolved named tp tc)
             (verdict_rmap _ _ _ (fun o no => resolve_opt named o = Ok no) _ (fun o _ => verdict_eq _ _ _ _ (resolve_opt_spec named o)))
             (fun opts F => conj F Hpat)).
Qed.

Lemma resolve_cons_ok named tp tc nc : resolve_cons named tp tc = Ok nc -> cons_resolved named tp tc nc.
Proof. intros H. exact (proj2 (verdict_ok _ _ _ _ _ (resolve_cons_spec named tp tc) H)). Qed.

Definition resolved (named : list (ident * N)) (tp : temp_pats) : list tagcons -> list ncons -> Prop :=
  Forall2 (fun tc nc => resolve_cons named tp tc = Ok nc).

(* pass 1, the table of named patterns: numbered by position, hence injective *)
Definition named_good (named : list (ident * N)) : Prop :=
  forall i p n, nth_error named i = Some (p, n) -> n = N.of_nat (Datatypes.S i) /\ is_temp_pat p = false.

Lemma named_good_inj named : named_good named ->
  forall p q t, al_get ident_eqb named p = Some t -> al_get ident_eqb named q = Some t -> p = q.
Proof.
  intros G p q t Hp Hq. destruct (al_get_nth _ ident_eqb_eq _ _ _ Hp) as (i & Hi). destruct (al_get_nth _ ident_eqb_eq _ _ _ Hq) as (j & Hj).
  destruct (G _ _ _ Hi) as [E1 _]. destruct (G _ _ _ Hj) as [E2 _]. assert (i = j) by lia. subst j. rewrite Hi in Hj. inversion Hj. reflexivity.
Qed.

Lemma named_good_nt named : named_good named -> forall p n, al_get ident_eqb named p = Some n -> is_temp_pat p = false /\ 1 <= n.
Proof. intros G p n Hp. destruct (al_get_nth _ ident_eqb_eq _ _ _ Hp) as (i & Hi). destruct (G _ _ _ Hi) as [E1 E2]. split; [exact E2 | lia]. Qed.

Lemma named_good_range named : named_good named -> forall p n, al_get ident_eqb named p = Some n -> 1 <= n /\ n <= N.of_nat (length named).
Proof.
  intros G p n Hp. destruct (al_get_nth _ ident_eqb_eq _ _ _ Hp) as (i & Hi). destruct (G _ _ _ Hi) as [-> _].
  assert (i < length named)%nat by (apply nth_error_Some; congruence). lia.
Qed.

Lemma named_good_nodup named : named_good named -> NoDup (map snd named).
Proof.
  intros G. apply NoDup_nth_error. intros i j Hi E. rewrite map_length in Hi.
  destruct (nth_error named i) as [[p n]|] eqn:Ei; [|apply nth_error_None in Ei; lia].
  rewrite !nth_error_map, Ei in E. cbn in E. destruct (nth_error named j) as [[q n']|] eqn:Ej; [|discriminate]. cbn in E. inversion E; subst n'.
  destruct (G _ _ _ Ei), (G _ _ _ Ej). lia.
Qed.

Definition named_mono (a b : list (ident * N)) : Prop :=
  forall p n, al_get ident_eqb a p = Some n -> al_get ident_eqb b p = Some n.

Definition comp_num (named : list (ident * N)) (c : comp) (nc : ncomp) : Prop :=
  match c, nc with
  | CLit v, NLit w => v = w
  | CRef r, NRef r' => r = r'
  | CPat p, NPat t => if is_temp_pat p then (t < 0)%Z else (0 < t)%Z /\ al_get ident_eqb named p = Some (Z.to_N t)
  | _, _ => False
  end.

Lemma comp_num_mono a b c nc : named_mono a b -> comp_num a c nc -> comp_num b c nc.
Proof.
  intros Hm. destruct c as [v|p|r], nc as [w|t|r']; cbn; auto. destruct (is_temp_pat p); [auto|]. intros [H1 H2]. split; [exact H1 | apply Hm, H2].
Qed.

Lemma comp_num_ref named r nr x : Forall2 (comp_num named) (r_name r) (nr_name nr) -> In (NRef x) (nr_name nr) -> In (CRef x) (r_name r).
Proof.
  intros F Hx. destruct (forall2_in_r _ _ _ _ F Hx) as (c & Hc & Hn). destruct c; cbn in Hn; try contradiction. subst. exact Hc.
Qed.

(* what is known of the table after the components [comps] of a rule name, when it was [named0] before them *)
Record named_inv (named0 : list (ident * N)) (comps : list comp) (named : list (ident * N)) (next : N) (ncs : list ncomp) : Prop := {
  na_next : next = 1 + N.of_nat (length named);
  na_good : named_good named;
  na_mono : named_mono named0 named;
  na_has : forall p, named_has named p <-> named_has named0 p \/ (In (CPat p) comps /\ is_temp_pat p = false);
  na_comps : Forall2 (comp_num named) comps ncs
}.

Lemma named_inv_snoc named0 comps named next ncs c nc : named_inv named0 comps named next ncs -> comp_num named c nc ->
  (forall p, c = CPat p -> is_temp_pat p = false -> named_has named p) ->
  named_inv named0 (comps ++ [c]) named next (ncs ++ [nc]).
Proof.
  intros [Hx Hg Hm Hh Hc] Hnc Hp. constructor; auto; [|apply forall2_snoc; assumption].
  intros p. rewrite Hh, in_app_iff. cbn [In]. split; [tauto|]. intros [H|[[H|[H|[]]] Ht]]; [tauto | tauto|]. apply Hh, Hp; auto.
Qed.

Lemma named_inv_new named0 comps named next ncs p : named_inv named0 comps named next ncs ->
  is_temp_pat p = false -> al_get ident_eqb named p = None ->
  named_inv named0 (comps ++ [CPat p]) (named ++ [(p, next)]) (next + 1) (ncs ++ [NPat (Z.of_N next)]).
Proof.
  intros [Hx Hg Hm Hh Hc] Ht En.
  assert (Hget : forall q, al_get ident_eqb (named ++ [(p, next)]) q = if ident_eqb q p then Some next else al_get ident_eqb named q).
  { intros q. rewrite (al_get_app ident_eqb). cbn [al_get]. destruct (ident_eqb q p) eqn:E.
    - apply ident_eqb_eq in E. subst q. rewrite En. reflexivity.
    - destruct (al_get ident_eqb named q); reflexivity. }
  assert (Hm' : named_mono named (named ++ [(p, next)])) by (intros q n; apply (al_get_app_some ident_eqb)).
  constructor.
  - rewrite app_length. cbn [length]. lia.
  - intros i q n Hn. apply nth_error_snoc in Hn. destruct Hn as [[Hn _]|[-> E]]; [exact (Hg _ _ _ Hn)|].
    injection E as -> ->. split; [lia | exact Ht].
  - intros q n Hq. apply Hm', Hm, Hq.
  - intros q. unfold named_has at 1. rewrite Hget, in_app_iff. cbn [In]. destruct (ident_eqb q p) eqn:E.
    + apply ident_eqb_eq in E. subst q. split; [auto | eauto].
    + fold (named_has named q). rewrite Hh. split; [tauto|]. intros [H|[[H|[H|[]]] Hq]]; [tauto | tauto|].
      injection H as ->. rewrite (eqb_refl' ident_eqb ident_eqb_eq) in E. discriminate.
  - apply forall2_snoc; [exact (forall2_impl_in _ _ _ _ (fun c nc _ _ => comp_num_mono _ _ c nc Hm') Hc)|].
    cbn. rewrite Ht, N2Z.id, Hget, (eqb_refl' ident_eqb ident_eqb_eq). split; [lia | reflexivity].
Qed.

(* all tags handed out so far are -1 .. -(next_temp - 1); [tp] lists, per temporary identifier, the tags of its occurrences *)
Definition temp_range (k : N) (t : Z) : Prop := (t < 0)%Z /\ (- t < Z.of_N k)%Z.

Record tp_inv (k0 k : N) (comps : list comp) (ncs : list ncomp) (tp : temp_pats) : Prop := {
  ti_fwd : forall i p t, nth_error comps i = Some (CPat p) -> is_temp_pat p = true -> nth_error ncs i = Some (NPat t) ->
           exists l, al_get ident_eqb tp p = Some l /\ In t l;
  ti_bwd : forall p l t, al_get ident_eqb tp p = Some l -> In t l ->
           exists i, nth_error comps i = Some (CPat p) /\ nth_error ncs i = Some (NPat t) /\ is_temp_pat p = true;
  ti_fresh : forall i t, nth_error ncs i = Some (NPat t) -> (t < 0)%Z -> (Z.of_N k0 <= - t)%Z /\ (- t < Z.of_N k)%Z;
  ti_nodup : forall i j t, nth_error ncs i = Some (NPat t) -> nth_error ncs j = Some (NPat t) -> (t < 0)%Z -> i = j
}.

Lemma tp_inv_weaken k0 k k' comps ncs tp : tp_inv k0 k comps ncs tp -> k <= k' -> tp_inv k0 k' comps ncs tp.
Proof.
  intros [F B Fr Nd] Hle. constructor; auto. intros i t Hn Ht. destruct (Fr i t Hn Ht). lia.
Qed.

(* the temporaries of a rule name after its components [comps], when the counter stood at [k0] before them *)
Record temp_inv (k0 : N) (comps : list comp) (k : N) (tp : temp_pats) (ncs : list ncomp) : Prop := {
  te_has : forall p, tp_has tp p <-> In (CPat p) comps /\ is_temp_pat p = true;
  te_tags : tp_inv k0 k comps ncs tp;
  te_len : length comps = length ncs;
  te_k : 1 <= k0 <= k
}.

Lemma temp_inv_nil k : 1 <= k -> temp_inv k [] k [] [].
Proof.
  intros Hk. constructor; [| |reflexivity|lia].
  - intros p. split; [intros (l & H); discriminate | intros [[] _]].
  - constructor.
    + intros i p t H. destruct i; discriminate.
    + intros p l t H. discriminate.
    + intros i t H. destruct i; discriminate.
    + intros i j t H. destruct i; discriminate.
Qed.

Lemma temp_inv_snoc k0 comps k tp ncs c nc : temp_inv k0 comps k tp ncs ->
  (forall p, c = CPat p -> is_temp_pat p = false) -> (forall t, nc = NPat t -> (0 <= t)%Z) ->
  temp_inv k0 (comps ++ [c]) k tp (ncs ++ [nc]).
Proof.
  intros [Hh [F B Fr Nd] Hl Hk] Hc Hnc. constructor; [| |rewrite !app_length, Hl; reflexivity|exact Hk].
  - intros p. rewrite Hh, in_app_iff. cbn [In]. split; [tauto|]. intros [[H|[H|[]]] Ht]; [tauto|]. rewrite (Hc p H) in Ht. discriminate.
  - constructor.
    + intros i p t Hi Ht Hn. apply nth_error_snoc in Hi. destruct Hi as [[Hi Hlt]|[_ E]]; [|rewrite (Hc p (eq_sym E)) in Ht; discriminate].
      rewrite nth_error_app1 in Hn by lia. eauto.
    + intros p l t Hp Ht. destruct (B p l t Hp Ht) as (i & H1 & H2 & H3). exists i. auto using nth_error_app_some.
    + intros i t Hi Ht. apply nth_error_snoc in Hi. destruct Hi as [[Hi _]|[_ E]]; [eauto | specialize (Hnc t (eq_sym E)); lia].
    + intros i j t Hi Hj Ht. apply nth_error_snoc in Hi, Hj.
      destruct Hi as [[Hi _]|[_ E]]; [|specialize (Hnc t (eq_sym E)); lia]. destruct Hj as [[Hj _]|[_ E]]; [eauto | specialize (Hnc t (eq_sym E)); lia].
Qed.

Lemma temp_inv_new k0 comps k tp ncs p : temp_inv k0 comps k tp ncs -> is_temp_pat p = true ->
  temp_inv k0 (comps ++ [CPat p]) (k + 1) (al_push ident_eqb tp p [(- Z.of_N k)%Z]) (ncs ++ [NPat (- Z.of_N k)]).
Proof.
  intros [Hh [F B Fr Nd] Hl Hk] Hp. set (t0 := (- Z.of_N k)%Z).
  assert (Hold : forall i, nth_error ncs i <> Some (NPat t0)).
  { intros i Hi. destruct (Fr i t0 Hi); unfold t0 in *; lia. }
  assert (Hin : forall q t, (exists l, al_get ident_eqb (al_push ident_eqb tp p [t0]) q = Some l /\ In t l) <->
                            (exists l, al_get ident_eqb tp q = Some l /\ In t l) \/ (q = p /\ t = t0)).
  { intros q t. rewrite (al_get_push ident_eqb ident_eqb_eq). unfold bucket. destruct (ident_eqb q p) eqn:E.
    - apply ident_eqb_eq in E. subst q. split.
      + intros (l & El & Ht). injection El as <-. apply in_app_iff in Ht. destruct Ht as [Ht|[Ht|[]]]; [|auto].
        destruct (al_get ident_eqb tp p) as [b|]; [eauto | destruct Ht].
      + intros [(l & El & Ht)|[_ ->]]; eexists; (split; [reflexivity|]); apply in_app_iff; [|right; left; reflexivity].
        rewrite El. auto.
    - split; [auto|]. intros [H|[-> _]]; [exact H|]. rewrite (eqb_refl' ident_eqb ident_eqb_eq) in E. discriminate. }
  constructor; [| |rewrite !app_length, Hl; reflexivity|lia].
  - intros q. unfold tp_has. rewrite <- (al_get_in ident_eqb ident_eqb_eq), (al_push_keys ident_eqb ident_eqb_eq), (al_get_in ident_eqb ident_eqb_eq).
    fold (tp_has tp q). rewrite Hh, in_app_iff. cbn [In]. split; [intros [H| ->]; tauto|]. intros [[H|[H|[]]] Ht]; [tauto|]. injection H as ->. auto.
  - constructor.
    + intros i q t Hi Ht Hn. apply Hin. apply nth_error_snoc in Hi. destruct Hi as [[Hi Hlt]|[-> E]].
      * rewrite nth_error_app1 in Hn by lia. left. eauto.
      * injection E as ->. rewrite Hl, nth_error_snoc_last in Hn. injection Hn as ->. auto.
    + intros q l t Hq Ht. destruct (proj1 (Hin q t) (ex_intro _ l (conj Hq Ht))) as [(l' & Hq' & Ht')|[-> ->]].
      * destruct (B q l' t Hq' Ht') as (i & H1 & H2 & H3). exists i. auto using nth_error_app_some.
      * exists (length comps). split; [apply nth_error_snoc_last|]. split; [rewrite Hl; apply nth_error_snoc_last | exact Hp].
    + intros i t Hi Ht. apply nth_error_snoc in Hi. destruct Hi as [[Hi _]|[_ E]].
      * destruct (Fr i t Hi Ht). lia.
      * injection E as ->. unfold t0. lia.
    + intros i j t Hi Hj Ht. apply nth_error_snoc in Hi, Hj. destruct Hi as [[Hi _]|[-> Ei]], Hj as [[Hj _]|[-> Ej]].
      * eauto.
      * injection Ej as ->. destruct (Hold _ Hi).
      * injection Ei as ->. destruct (Hold _ Hj).
      * reflexivity.
Qed.

Lemma number_comp_step named0 k0 comps st tp ncs c st' tp' nc :
  number_comp (st, tp) c = ((st', tp'), nc) ->
  named_inv named0 comps (ns_named st) (ns_next_named st) ncs -> temp_inv k0 comps (ns_next_temp st) tp ncs ->
  named_inv named0 (comps ++ [c]) (ns_named st') (ns_next_named st') (ncs ++ [nc]) /\
  temp_inv k0 (comps ++ [c]) (ns_next_temp st') tp' (ncs ++ [nc]).
Proof.
  intros H Hn Ht. unfold number_comp in H. destruct c as [v|pid|r].
  - injection H as <- <- <-. split; [apply named_inv_snoc | apply temp_inv_snoc]; auto; try discriminate. reflexivity.
  - destruct (is_temp_pat pid) eqn:Et; [|destruct (al_get ident_eqb (ns_named st) pid) as [n|] eqn:En]; injection H as <- <- <-; cbn [ns_named ns_next_named ns_next_temp].
    + split; [|apply temp_inv_new; assumption]. apply named_inv_snoc; [exact Hn | | intros p E; injection E as <-; congruence].
      cbn. rewrite Et. pose proof (te_k _ _ _ _ _ Ht). lia.
    + destruct (named_good_nt _ (na_good _ _ _ _ _ Hn) _ _ En) as [_ Hn1]. split.
      * apply named_inv_snoc; [exact Hn | | intros p E _; injection E as <-; exists n; exact En].
        cbn. rewrite Et, N2Z.id. split; [lia | exact En].
      * apply temp_inv_snoc; [exact Ht | intros p E; injection E as <-; exact Et | intros t E; injection E as <-; lia].
    + split; [apply named_inv_new; assumption|].
      apply temp_inv_snoc; [exact Ht | intros p E; injection E as <-; exact Et | intros t E; injection E as <-; lia].
  - injection H as <- <- <-. split; [apply named_inv_snoc | apply temp_inv_snoc]; auto; try discriminate. reflexivity.
Qed.

Record table_ok (st : numst) : Prop := {
  to_next : ns_next_named st = 1 + N.of_nat (length (ns_named st));
  to_good : named_good (ns_named st);
  to_temp : 1 <= ns_next_temp st
}.

Lemma number_name_inv st r st' nm tp : number_rule_name st r = (st', (nm, tp)) -> table_ok st ->
  named_inv (ns_named st) (r_name r) (ns_named st') (ns_next_named st') nm /\
  temp_inv (ns_next_temp st) (r_name r) (ns_next_temp st') tp nm.
Proof.
  unfold number_rule_name. destruct (map_acc number_comp (st, []) (r_name r)) as [[st1 tp1] nm1] eqn:E.
  intros H [Hx Hg Hk]. injection H as <- <- <-.
  refine (map_acc_ind number_comp
            (fun comps s ncs => named_inv (ns_named st) comps (ns_named (fst s)) (ns_next_named (fst s)) ncs /\
                                temp_inv (ns_next_temp st) comps (ns_next_temp (fst s)) (snd s) ncs)
            (r_name r) (st, []) _ _ (st1, tp1) nm1 E).
  - split; [|apply temp_inv_nil, Hk]. constructor; [exact Hx | exact Hg | intros p n H; exact H | | constructor].
    intros p. split; [auto | intros [H|[[] _]]; exact H].
  - intros done c todo [s t] ncs [s1 t1] nc _ [Hn Ht] Hc. exact (number_comp_step _ _ _ _ _ _ _ _ _ _ Hc Hn Ht).
Qed.

Definition src_named (rules : list rule) (p : ident) : Prop :=
  exists r, In r rules /\ In (CPat p) (r_name r) /\ is_temp_pat p = false.

(* the numbered name [fst x] and the temporaries [snd x] of rule [r], seen from a later table and counter *)
Definition name_numbered (named : list (ident * N)) (kfinal : N) (r : rule) (x : list ncomp * temp_pats) : Prop :=
  Forall2 (comp_num named) (r_name r) (fst x) /\
  (forall p, tp_has (snd x) p <-> In (CPat p) (r_name r) /\ is_temp_pat p = true) /\
  exists k0 k1, 1 <= k0 /\ k1 <= kfinal /\ tp_inv k0 k1 (r_name r) (fst x) (snd x).

Lemma name_numbered_mono named named' k k' r x : named_mono named named' -> k <= k' -> name_numbered named k r x -> name_numbered named' k' r x.
Proof.
  intros Hm Hk (Hc & Hh & k0 & k1 & H0 & H1 & Ht). split; [|split; [exact Hh|]].
  - exact (forall2_impl_in _ _ _ _ (fun c nc _ _ => comp_num_mono _ _ c nc Hm) Hc).
  - exists k0, k1. split; [exact H0|]. split; [lia | exact Ht].
Qed.

Record rules_inv (rules : list rule) (st : numst) (names : list (list ncomp * temp_pats)) : Prop := {
  ru_table : table_ok st;
  ru_has : forall p, named_has (ns_named st) p <-> src_named rules p;
  ru_names : Forall2 (name_numbered (ns_named st) (ns_next_temp st)) rules names
}.

Definition numst0 : numst := {| ns_named := []; ns_next_named := 1; ns_next_temp := 1 |}.

Lemma number_rules_inv rules st names : map_acc number_rule_name numst0 rules = (st, names) -> rules_inv rules st names.
Proof.
  apply (map_acc_ind number_rule_name rules_inv rules numst0).
  - constructor; [| |constructor].
    + constructor; cbn; [reflexivity | intros [|i] p n H; discriminate | lia].
    + intros p. split; [intros (n & H); discriminate | intros (r & [] & _)].
  - intros done r todo s names0 s1 [nm tp] _ [Hs Hh Hall] Hf.
    destruct (number_name_inv _ _ _ _ _ Hf Hs) as [[Hx1 Hg1 Hm1 Hh1 Hc1] [Hth Htg _ Hk1]]. destruct Hs as [_ _ Hk].
    constructor.
    + constructor; [exact Hx1 | exact Hg1 | lia].
    + intros p. rewrite Hh1, Hh. unfold src_named. split.
      * intros [(r' & Hr' & H)|H]; [exists r' | exists r]; (split; [apply in_or_app; cbn; auto | exact H]).
      * intros (r' & Hr' & H). apply in_app_or in Hr'. destruct Hr' as [Hr'|[<-|[]]]; [left; exists r'; auto | right; exact H].
    + apply forall2_snoc.
      * refine (forall2_impl_in _ _ _ _ _ Hall). intros r' x _ _. apply name_numbered_mono; [exact Hm1 | lia].
      * split; [exact Hc1|]. split; [exact Hth|]. exists (ns_next_temp s), (ns_next_temp s1). split; [exact Hk|]. split; [lia | exact Htg].
Qed.

Definition resolve_rule (named : list (ident * N)) (rn : rule * (list ncomp * temp_pats)) : res nrule :=
  let '(r, (nm, tp)) := rn in
  do rcons <- rmap (rmap (resolve_cons named tp)) (r_cons r) ;;
  Ok {| nr_id := r_id r; nr_name := nm; nr_cons := rcons; nr_sign := r_sign r |}.

Lemma gen_pattern_numbers_unfold rules :
  gen_pattern_numbers rules =
  let '(st, names) := map_acc number_rule_name numst0 rules in
  do nrules <- rmap (resolve_rule (ns_named st)) (combine rules names) ;; Ok (nrules, st).
Proof. reflexivity. Qed.

Lemma resolve_rule_ok named r nm tp nr : resolve_rule named (r, (nm, tp)) = Ok nr ->
  nr_id nr = r_id r /\ nr_sign nr = r_sign r /\ nr_name nr = nm /\
  Forall2 (resolved named tp) (r_cons r) (nr_cons nr).
Proof.
  cbn [resolve_rule]. destruct (rmap (rmap (resolve_cons named tp)) (r_cons r)) as [rc|] eqn:E; cbn [bind]; [|discriminate].
  intros H. injection H as <-. cbn. repeat split. apply rmap_ok_iff in E. refine (forall2_impl_in _ _ _ _ _ E). intros cs ncs _ _. apply rmap_ok_iff.
Qed.

Definition src_cons_ok (rules : list rule) (r : rule) (tc : tagcons) : Prop :=
  (if is_temp_pat (tc_pat tc) then In (CPat (tc_pat tc)) (r_name r) else src_named rules (tc_pat tc)) /\
  forall p, In p (flat_map rhs_pats (tc_opts tc)) -> is_temp_pat p = false /\ src_named rules p.

Lemma tagcons_ok_src rules named r tp tc : (forall p, named_has named p <-> src_named rules p) ->
  (forall p, tp_has tp p <-> In (CPat p) (r_name r) /\ is_temp_pat p = true) ->
  tagcons_ok named tp tc <-> src_cons_ok rules r tc.
Proof.
  intros Hn Ht. unfold tagcons_ok, src_cons_ok, lhs_ok, rhs_ok.
  assert (Hl : (if is_temp_pat (tc_pat tc) then tp_has tp (tc_pat tc) else named_has named (tc_pat tc)) <->
               (if is_temp_pat (tc_pat tc) then In (CPat (tc_pat tc)) (r_name r) else src_named rules (tc_pat tc))).
  { destruct (is_temp_pat (tc_pat tc)) eqn:E; [|apply Hn]. rewrite Ht. tauto. }
  rewrite Hl. split; intros [H1 H2]; (split; [exact H1|]); intros p Hp; destruct (H2 p Hp) as [Ha Hb]; (split; [exact Ha | apply Hn, Hb]).
Qed.

Lemma resolve_rule_src rules named k rn : (forall p, named_has named p <-> src_named rules p) -> name_numbered named k (fst rn) (snd rn) ->
  verdict ESemantic (resolve_rule named rn) (forall cs tc, In cs (r_cons (fst rn)) -> In tc cs -> src_cons_ok rules (fst rn) tc) any.
Proof.
  destruct rn as [r [nm tp]]. intros Hn (_ & Ht & _). cbn [resolve_rule fst snd] in *.
  pose proof (fun tc => tagcons_ok_src rules named r tp tc Hn Ht) as Hiff.
  apply (verdict_imp _ _ (forall cs, In cs (r_cons r) -> forall tc, In tc cs -> tagcons_ok named tp tc) _ any any); [|auto|].
  { split; [intros H cs tc Hcs Htc; apply Hiff, (H cs Hcs tc Htc) | intros H cs Hcs tc Htc; apply Hiff, (H cs tc Hcs Htc)]. }
  refine (verdict_then _ _ _ _ _ any (verdict_rmap _ _ _ (fun _ _ => True) _ (fun cs _ => _)) (fun _ _ => I)).
  exact (verdict_imp _ _ _ _ _ (fun _ => True) (iff_refl _) (fun _ _ => I)
           (verdict_rmap _ _ _ _ cs (fun tc _ => resolve_cons_spec named tp tc))).
Qed.

Definition nrule_num (named : list (ident * N)) (kfinal : N) (r : rule) (nr : nrule) : Prop :=
  nr_id nr = r_id r /\ nr_sign nr = r_sign r /\
  exists tp, name_numbered named kfinal r (nr_name nr, tp) /\
             Forall2 (resolved named tp) (r_cons r) (nr_cons nr).

Record numbered (rules : list rule) (nrules : list nrule) (st : numst) : Prop := {
  nu_table : table_ok st;
  nu_has : forall p, named_has (ns_named st) p <-> src_named rules p;
  nu_rules : Forall2 (nrule_num (ns_named st) (ns_next_temp st)) rules nrules
}.

Definition all_cons_ok (rules : list rule) : Prop :=
  forall r cs tc, In r rules -> In cs (r_cons r) -> In tc cs -> src_cons_ok rules r tc.

Lemma src_cons_ok_incl l l' r tc : (forall x, In x l -> In x l') -> src_cons_ok l r tc -> src_cons_ok l' r tc.
Proof.
  intros Hi. assert (Hn : forall p, src_named l p -> src_named l' p) by (intros p (x & Hx & H); exists x; auto).
  unfold src_cons_ok. intros [H1 H2]. split; [destruct (is_temp_pat (tc_pat tc)); auto|].
  intros p Hp. destruct (H2 p Hp). auto.
Qed.

Lemma all_cons_ok_ext l l' : (forall x, In x l <-> In x l') -> all_cons_ok l <-> all_cons_ok l'.
Proof.
  intros H. split; intros Ha r cs tc Hr Hcs Htc.
  - apply (src_cons_ok_incl l); [intros x; apply H|]. apply (Ha r cs tc); auto. apply H, Hr.
  - apply (src_cons_ok_incl l'); [intros x; apply H|]. apply (Ha r cs tc); auto. apply H, Hr.
Qed.

Theorem numbering_cases rules :
  verdict ESemantic (gen_pattern_numbers rules) (all_cons_ok rules) (fun ns => numbered rules (fst ns) (snd ns)).
Proof.
  rewrite gen_pattern_numbers_unfold. destruct (map_acc number_rule_name numst0 rules) as [st names] eqn:Em.
  destruct (number_rules_inv _ _ _ Em) as [Hs Hh Hall].
  assert (Hok : forall rn, In rn (combine rules names) -> name_numbered (ns_named st) (ns_next_temp st) (fst rn) (snd rn))
    by (intros [r x]; apply (forall2_in_combine _ _ _ _ _ Hall)).
  pose proof (verdict_rmap ESemantic (resolve_rule (ns_named st)) _ (fun rn nr => resolve_rule (ns_named st) rn = Ok nr) (combine rules names)
                (fun rn Hrn => verdict_eq _ _ _ _ (resolve_rule_src rules _ _ rn Hh (Hok rn Hrn)))) as H'.
  refine (verdict_imp _ _ _ (all_cons_ok rules) _ _ _ (fun _ H => H)
            (verdict_then _ _ (fun nrules => (nrules, st)) _ _ (fun ns => numbered rules (fst ns) (snd ns)) H' _)).
  - split.
    + intros H r cs tc Hr. destruct (forall2_combine_l _ _ _ _ Hall Hr) as (x & Hx). apply (H (r, x) Hx).
    + intros H [r x] Hx cs tc. apply (H r). exact (in_combine_l _ _ _ _ Hx).
  - intros nrules Er. cbn [fst snd]. constructor; [exact Hs | exact Hh|].
    refine (forall2_impl_in _ _ _ _ _ (forall2_combine3 _ _ _ _ _ Hall Er)).
    intros r nr _ _ ([nm tp] & Hnn & Hr). apply resolve_rule_ok in Hr. destruct Hr as (E1 & E2 & <- & Hcons).
    split; [exact E1|]. split; [exact E2|]. exists tp. auto.
Qed.

Lemma numbering_ok rules nrules st : gen_pattern_numbers rules = Ok (nrules, st) -> numbered rules nrules st.
Proof. intros H. exact (proj2 (verdict_ok _ _ _ _ _ (numbering_cases rules) H)). Qed.

Theorem gen_pattern_numbers_good rules nrules st : gen_pattern_numbers rules = Ok (nrules, st) -> named_good (ns_named st).
Proof. intros H. apply to_good, (nu_table _ _ _ (numbering_ok _ _ _ H)). Qed.

Lemma rmap_forall2_ex {A B} (f : A -> res B) l ys : rmap f l = Ok ys -> Forall2 (fun x y => f x = Ok y) l ys.
Proof. apply rmap_ok_iff. Qed.

