(* The string RuleChain.pattern_movement uses as merging key determines the edge it stands for:
   equal keys mean equal encoded constraints and, for named patterns, equal tag numbers
   ([keys_faithful] of Proofs/LvsGenTree.v), provided literal components are byte strings and user
   function identifiers look like "$name" (no '(' ',' '}' inside) - which is all the lexer produces. *)
From NDN Require Import Base.Prelude Base.Text Model.LvsAst Model.LvsCompiler Spec.LvsChains Proofs.BytesLemmas
  Proofs.TextProofs Proofs.LvsGenTree.
Local Open Scope N_scope.

Lemma split_first (sep : N) : forall x x' r r',
  ~ In sep x -> ~ In sep x' -> x ++ sep :: r = x' ++ sep :: r' -> x = x' /\ r = r'.
Proof.
  induction x as [|a x IH]; intros [|a' x'] r r' H1 H2 E; cbn in *.
  - injection E as <-. auto.
  - injection E as -> _. destruct H2. left; reflexivity.
  - injection E as <- _. destruct H1. left; reflexivity.
  - injection E as <- E. destruct (IH x' r r') as [-> ->]; auto.
Qed.

Definition starts_outside (C : N -> bool) (r : str) : Prop :=
  match r with [] => True | h :: _ => C h = false end.

Lemma split_class (C : N -> bool) : forall x x' r r',
  forallb C x = true -> forallb C x' = true -> starts_outside C r -> starts_outside C r' ->
  x ++ r = x' ++ r' -> x = x' /\ r = r'.
Proof.
  induction x as [|a x IH]; intros [|a' x'] r r' H1 H2 S1 S2 E; cbn in *.
  - auto.
  - subst r. cbn in S1. apply andb_true_iff in H2. destruct H2 as [H2 _]. congruence.
  - subst r'. cbn in S2. apply andb_true_iff in H1. destruct H1 as [H1 _]. congruence.
  - injection E as <- E. apply andb_true_iff in H1, H2. destruct H1 as [_ H1], H2 as [_ H2].
    destruct (IH x' r r') as [-> ->]; auto.
Qed.

Lemma concat_sep_inj {A B} (tok : A -> str) (val : A -> B) (ok : A -> bool) (sep : N) :
  (forall a, ok a = true -> ~ In sep (tok a)) ->
  (forall a b, ok a = true -> ok b = true -> tok a = tok b -> val a = val b) ->
  forall l1 l2, forallb ok l1 = true -> forallb ok l2 = true ->
    concat (map (fun a => tok a ++ [sep]) l1) = concat (map (fun a => tok a ++ [sep]) l2) -> map val l1 = map val l2.
Proof.
  intros Hsep Hinj. induction l1 as [|a l1 IH]; intros [|b l2] H1 H2 E; cbn in *.
  - reflexivity.
  - destruct (tok b); discriminate.
  - destruct (tok a); discriminate.
  - apply andb_true_iff in H1, H2. destruct H1 as [Ha Hl1], H2 as [Hb Hl2]. rewrite <- !app_assoc in E. cbn [app] in E.
    destruct (split_first sep _ _ _ _ (Hsep a Ha) (Hsep b Hb) E) as [Et Er]. rewrite (Hinj a b Ha Hb Et). f_equal. apply IH; auto.
Qed.

Lemma concat_notin {A} (tok : A -> str) (ok : A -> bool) (k : N) :
  (forall a, ok a = true -> ~ In k (tok a)) -> forall l, forallb ok l = true -> ~ In k (concat (map tok l)).
Proof.
  intros H. induction l as [|a l IH]; cbn; [auto|]. rewrite andb_true_iff. intros [Ha Hl] Hin.
  apply in_app_or in Hin. destruct Hin as [Hin|Hin]; [exact (H a Ha Hin) | exact (IH Hl Hin)].
Qed.

Definition hexc (c : N) : bool := is_digit c || ((97 <=? c) && (c <=? 102)).

Lemma dec_print_digits n : forallb is_digit (dec_print n) = true.
Proof. apply dec_print_spec. Qed.
Lemma dec_print_inj a b : dec_print a = dec_print b -> a = b.
Proof.
  intros E. destruct (dec_print_spec a) as (_ & _ & Ha), (dec_print_spec b) as (_ & _ & Hb). congruence.
Qed.

Lemma dec_print_hexc n : forallb hexc (dec_print n) = true.
Proof. eapply forallb_impl; [|apply dec_print_digits]. intros x H. unfold hexc. rewrite H. reflexivity. Qed.

Lemma hexdigit_lower_hexc v : v < 16 -> hexc (hexdigit_lower v) = true.
Proof. intros H. unfold hexdigit_lower, hexc, is_digit. destruct (N.ltb_spec v 10); lia. Qed.

Lemma hex_print_hexc b : wf_bytes b -> forallb hexc (hex_print b) = true.
Proof.
  induction 1 as [|x b Hx _ IH]; [reflexivity|]. cbn [hex_print forallb].
  rewrite !hexdigit_lower_hexc, IH; [reflexivity | | ].
  - apply N.mod_lt. lia.
  - apply N.div_lt_upper_bound; lia.
Qed.

Lemma hex_print_inj a b : wf_bytes a -> wf_bytes b -> hex_print a = hex_print b -> a = b.
Proof.
  intros Ha Hb E. pose proof (hex_parse_print a Ha) as Pa. pose proof (hex_parse_print b Hb) as Pb. congruence.
Qed.

Lemma fid_ok_spec f : fid_ok f = true -> exists r, f = 36 :: r /\ ~ In 40 f /\ ~ In 44 f /\ ~ In 125 f.
Proof.
  unfold fid_ok. destruct f as [|c r]; [discriminate|].
  destruct (N.eq_dec c 36) as [->|Hne].
  - intros H. exists r. split; [reflexivity|]. rewrite forallb_forall in H.
    repeat split; intros Hin; apply H in Hin; cbn in Hin; discriminate.
  - destruct c as [|p]; [discriminate|]. repeat (destruct p as [p|p|]; try discriminate). congruence.
Qed.

(* arguments: "v=" hex | "t=" dec, concatenated without separator *)
Definition arg_str (a : narg) : str := snd (enc_arg a).

Definition arg_head (a : narg) : N := match a with NALit _ => 118 | NAPat _ => 116 end.
Definition arg_body (a : narg) : str := match a with NALit c => hex_print c | NAPat t => dec_print t end.

Lemma arg_str_eq a : arg_str a = arg_head a :: 61 :: arg_body a.
Proof. destruct a; reflexivity. Qed.

Lemma arg_body_hexc a : arg_ok a = true -> forallb hexc (arg_body a) = true.
Proof. destruct a; cbn; intros H; [apply hex_print_hexc, wf_bytesb_spec, H | apply dec_print_hexc]. Qed.

Lemma arg_inj a1 a2 : arg_ok a1 = true -> arg_ok a2 = true -> arg_head a1 = arg_head a2 -> arg_body a1 = arg_body a2 ->
  fst (enc_arg a1) = fst (enc_arg a2).
Proof.
  destruct a1, a2; cbn; intros H1 H2 Eh Eb; try discriminate.
  - apply hex_print_inj in Eb; [subst; reflexivity | apply wf_bytesb_spec, H1 | apply wf_bytesb_spec, H2].
  - apply dec_print_inj in Eb. subst. reflexivity.
Qed.

Lemma args_starts l : starts_outside hexc (concat (map arg_str l)).
Proof. destruct l as [|a l]; cbn; [auto|]. rewrite arg_str_eq. destruct a; reflexivity. Qed.

(* the body of an argument is made of hex digits and the next argument starts with 'v' or 't' *)
Lemma args_inj : forall l1 l2, forallb arg_ok l1 = true -> forallb arg_ok l2 = true ->
  concat (map arg_str l1) = concat (map arg_str l2) -> map (fun a => fst (enc_arg a)) l1 = map (fun a => fst (enc_arg a)) l2.
Proof.
  induction l1 as [|a1 l1 IH]; intros [|a2 l2] H1 H2 E; cbn in *; rewrite ?arg_str_eq in E; try discriminate; [reflexivity|].
  apply andb_true_iff in H1, H2. destruct H1 as [Ha1 Hl1], H2 as [Ha2 Hl2]. cbn [app] in E. injection E as Eh E.
  destruct (split_class hexc _ _ _ _ (arg_body_hexc a1 Ha1) (arg_body_hexc a2 Ha2) (args_starts l1) (args_starts l2) E) as [Eb Er].
  rewrite (arg_inj a1 a2 Ha1 Ha2 Eh Eb). f_equal. apply IH; auto.
Qed.

(* one option: token followed by ',' *)
Definition opt_tok (o : nopt) : str :=
  match o with
  | NOLit c => [118; 61] ++ hex_print c
  | NOPat t => [116; 61] ++ dec_print t
  | NOFn f args => f ++ [40] ++ concat (map arg_str args) ++ [41]
  end.

Lemma enc_opt_str o : snd (enc_opt o) = opt_tok o ++ [44].
Proof.
  destruct o as [c|t|f args]; cbn; try reflexivity.
  unfold arg_str. rewrite map_map. rewrite <- !app_assoc. cbn. rewrite <- !app_assoc. reflexivity.
Qed.

Lemma args_no k l : hexc k = false -> k <> 118 -> k <> 116 -> k <> 61 -> forallb arg_ok l = true -> ~ In k (concat (map arg_str l)).
Proof.
  intros Hk H1 H2 H3. apply concat_notin. intros a Ha Hin.
  rewrite arg_str_eq in Hin.
  destruct Hin as [<-|[<-|Hin]]; [destruct a; cbn in *; congruence | congruence | exact (not_in_class hexc k _ Hk (arg_body_hexc a Ha) Hin)].
Qed.

Lemma opt_tok_no k o : opt_ok o = true -> (k = 44 \/ k = 125) -> ~ In k (opt_tok o).
Proof.
  intros Ho Hk.
  assert (Hh : hexc k = false) by (destruct Hk as [-> | ->]; reflexivity).
  assert (N1 : k <> 118 /\ k <> 116 /\ k <> 61 /\ k <> 40 /\ k <> 41) by (destruct Hk as [-> | ->]; repeat split; discriminate).
  destruct N1 as (N1 & N2 & N3 & N4 & N5).
  destruct o as [c|t|f args]; cbn in *.
  - intros [E|[E|Hin]]; [congruence | congruence |]. exact (not_in_class hexc k _ Hh (hex_print_hexc _ (proj1 (wf_bytesb_spec _) Ho)) Hin).
  - intros [E|[E|Hin]]; [congruence | congruence |]. exact (not_in_class hexc k _ Hh (dec_print_hexc _) Hin).
  - apply andb_true_iff in Ho. destruct Ho as [Hf Ha]. destruct (fid_ok_spec f Hf) as (r & _ & F40 & F44 & F125).
    intros Hin. apply in_app_or in Hin. destruct Hin as [Hin|Hin]; [destruct Hk as [-> | ->]; contradiction|].
    destruct Hin as [E|Hin]; [congruence|]. apply in_app_or in Hin. destruct Hin as [Hin|[E|[]]]; [|congruence].
    eapply args_no; eauto.
Qed.

Lemma opt_tok_head o : opt_ok o = true ->
  hd 0 (opt_tok o) = match o with NOLit _ => 118 | NOPat _ => 116 | NOFn _ _ => 36 end.
Proof.
  destruct o as [c|t|f args]; cbn; try reflexivity. rewrite andb_true_iff. intros [Hf _].
  destruct (fid_ok_spec f Hf) as (r & -> & _). reflexivity.
Qed.

Lemma opt_tok_inj o1 o2 : opt_ok o1 = true -> opt_ok o2 = true -> opt_tok o1 = opt_tok o2 -> fst (enc_opt o1) = fst (enc_opt o2).
Proof.
  intros H1 H2 E. pose proof (f_equal (hd 0) E) as Eh. rewrite !opt_tok_head in Eh by assumption.
  destruct o1 as [c1|t1|f1 a1], o2 as [c2|t2|f2 a2]; try discriminate Eh; cbn in *.
  - inversion E as [Ec]. apply hex_print_inj in Ec; [subst; reflexivity | apply wf_bytesb_spec, H1 | apply wf_bytesb_spec, H2].
  - inversion E as [Et]. apply dec_print_inj in Et. subst. reflexivity.
  - apply andb_true_iff in H1, H2. destruct H1 as [Hf1 Ha1], H2 as [Hf2 Ha2].
    destruct (fid_ok_spec f1 Hf1) as (_ & _ & F1 & _), (fid_ok_spec f2 Hf2) as (_ & _ & F2 & _).
    destruct (split_first 40 f1 f2 _ _ F1 F2 E) as [-> Er].
    apply app_inv_tail in Er. apply args_inj in Er; auto. unfold arg_str in *. rewrite !map_map. cbn. congruence.
Qed.

Lemma opts_inj l1 l2 : forallb opt_ok l1 = true -> forallb opt_ok l2 = true ->
  concat (map (fun o => snd (enc_opt o)) l1) = concat (map (fun o => snd (enc_opt o)) l2) ->
  map (fun o => fst (enc_opt o)) l1 = map (fun o => fst (enc_opt o)) l2.
Proof.
  rewrite !(map_ext _ _ enc_opt_str). apply (concat_sep_inj opt_tok (fun o => fst (enc_opt o)) opt_ok 44); [|apply opt_tok_inj].
  intros o Ho. apply (opt_tok_no 44 o Ho). auto.
Qed.

Lemma opts_no_close l : forallb opt_ok l = true -> ~ In 125 (concat (map (fun o => snd (enc_opt o)) l)).
Proof.
  apply concat_notin. intros o Ho Hin. rewrite enc_opt_str in Hin. apply in_app_or in Hin.
  destruct Hin as [Hin|[E|[]]]; [exact (opt_tok_no 125 o Ho (or_intror eq_refl) Hin) | discriminate].
Qed.

(* a list of constraints: "{" options "}" ... *)
Lemma enc_cons_str c : snd (enc_cons c) = 123 :: concat (map (fun o => snd (enc_opt o)) (nc_opts c)) ++ [125].
Proof. unfold enc_cons. cbn. rewrite map_map. reflexivity. Qed.
Lemma enc_cons_fst c : fst (enc_cons c) = map (fun o => fst (enc_opt o)) (nc_opts c).
Proof. unfold enc_cons. cbn. rewrite map_map. reflexivity. Qed.

Lemma cons_inj l1 l2 : forallb cons_ok l1 = true -> forallb cons_ok l2 = true ->
  concat (map (fun c => snd (enc_cons c)) l1) = concat (map (fun c => snd (enc_cons c)) l2) ->
  map (fun c => fst (enc_cons c)) l1 = map (fun c => fst (enc_cons c)) l2.
Proof.
  rewrite !(map_ext _ _ enc_cons_str).
  apply (concat_sep_inj (fun c => 123 :: concat (map (fun o => snd (enc_opt o)) (nc_opts c))) (fun c => fst (enc_cons c)) cons_ok 125).
  - intros c Hc [E|Hin]; [discriminate | exact (opts_no_close _ Hc Hin)].
  - intros c1 c2 H1 H2 E. injection E as E. rewrite !enc_cons_fst. apply opts_inj; auto.
Qed.

Lemma dec_z_no_colon z : ~ In 58 (dec_z z).
Proof.
  unfold dec_z. destruct (z <? 0)%Z.
  - intros [E|Hin]; [discriminate|]. revert Hin. apply (not_in_class is_digit); [reflexivity | apply dec_print_digits].
  - apply (not_in_class is_digit); [reflexivity | apply dec_print_digits].
Qed.

Lemma dec_z_inj_nonneg a b : (0 <= a)%Z -> (0 <= b)%Z -> dec_z a = dec_z b -> a = b.
Proof.
  unfold dec_z. intros Ha Hb. destruct (Z.ltb_spec a 0), (Z.ltb_spec b 0); try lia.
  intros E. apply dec_print_inj in E. lia.
Qed.

Lemma dec_z_not_minus a : (0 <= a)%Z -> dec_z a <> [ch_minus].
Proof.
  unfold dec_z. intros Ha E. destruct (Z.ltb_spec a 0); [lia|].
  pose proof (dec_print_digits (Z.to_N a)) as Hd. rewrite E in Hd. discriminate.
Qed.

(* the part of the key before ':' tells named tags apart, from one another and from temporary ones *)
Definition tag_prefix (t : Z) : str := if (0 <=? t)%Z then dec_z t else [ch_minus].

Lemma tag_prefix_no_colon t : ~ In 58 (tag_prefix t).
Proof. unfold tag_prefix. destruct (0 <=? t)%Z; [apply dec_z_no_colon | intros [X|[]]; discriminate]. Qed.

Lemma tag_prefix_inj t t' : (0 <= t)%Z \/ (0 <= t')%Z -> tag_prefix t = tag_prefix t' -> t = t'.
Proof.
  unfold tag_prefix. destruct (Z.leb_spec 0 t), (Z.leb_spec 0 t'); intros Hpos E.
  - apply dec_z_inj_nonneg; auto.
  - destruct (dec_z_not_minus t); auto.
  - destruct (dec_z_not_minus t'); auto.
  - lia.
Qed.

Lemma pm_key rc t prev :
  snd (pattern_movement rc t prev) =
  tag_prefix t ++ 58 :: (if (0 <=? t)%Z && zmem t prev then []
                         else concat (map (fun c => snd (enc_cons c)) (filter (fun c => zmem t (nc_pat c)) (ch_cons rc)))).
Proof.
  unfold pattern_movement, tag_prefix. destruct (0 <=? t)%Z, (zmem t prev); cbn [andb snd]; rewrite ?map_map; reflexivity.
Qed.

Lemma filter_cons_ok rc t : chain_keys_ok rc = true -> forallb cons_ok (filter (fun c => zmem t (nc_pat c)) (ch_cons rc)) = true.
Proof.
  unfold chain_keys_ok. intros H. apply forallb_forall. intros c Hc. apply filter_In in Hc. destruct Hc as [Hc _].
  rewrite forallb_forall in H. auto.
Qed.

Theorem keys_faithful_of chains : (forall rc, In rc chains -> chain_keys_ok rc = true) -> keys_faithful chains.
Proof.
  intros Hok rc rc' t t' prev Hin Hin' E. rewrite !pm_key in E. rewrite !pm_cons.
  destruct (split_first 58 _ _ _ _ (tag_prefix_no_colon t) (tag_prefix_no_colon t') E) as [Ep Er].
  pose proof (fun H => tag_prefix_inj t t' H Ep) as Ht. split; [|exact Ht].
  (* a tag seen before is a named one, so the other tag is the same and was seen as well *)
  destruct ((0 <=? t)%Z && zmem t prev) eqn:Z1.
  - pose proof Z1 as P1. apply andb_true_iff in P1. destruct P1 as [P1 _]. apply Z.leb_le in P1.
    rewrite <- (Ht (or_introl P1)), Z1. reflexivity.
  - destruct ((0 <=? t')%Z && zmem t' prev) eqn:Z2.
    + pose proof Z2 as P2. apply andb_true_iff in P2. destruct P2 as [P2 _]. apply Z.leb_le in P2.
      rewrite (Ht (or_intror P2)) in Z1. congruence.
    + unfold cons_for. apply cons_inj; [apply filter_cons_ok, Hok, Hin | apply filter_cons_ok, Hok, Hin' | exact Er].
Qed.
