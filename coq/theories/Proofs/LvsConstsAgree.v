(* T1 tie for C11-C13: the constants and the record layouts reflected from
   ndn.app_support.light_versec.binary are the ones the hand-written models use
   (Model/LvsAst.v records mirror the classes field by field; Model/LvsChecker.v and Spec/LvsSem.v
   use the version bounds; the digest rule uses TYPE_IMPLICIT_SHA256). *)
From Coq Require Import String Ascii.
From NDN Require Import Base.Prelude Model.Name Model.LvsChecker Spec.LvsSem.
From NDN Require Generated.ConstsLvs.
Module GL := Generated.ConstsLvs.
Local Open Scope N_scope.

Definition s (x : string) : list N := map (fun a => N.of_nat (nat_of_ascii a)) (list_ascii_of_string x).

Theorem lvs_version_agree :
  GL.VERSION = LVS_VERSION /\ GL.MIN_SUPPORTED_VERSION = LVS_MIN_VERSION /\
  GL.VERSION = SUPPORTED_VERSION /\ GL.MIN_SUPPORTED_VERSION = MIN_SUPPORTED_VERSION /\
  GL.TYPE_IMPLICIT_SHA256 = TYPE_IMPLICIT_SHA256.
Proof. repeat split; reflexivity. Qed.

Theorem lvs_default_fns_agree : GL.default_user_fns = [s "$eq"; s "$eq_type"].
Proof. vm_compute. reflexivity. Qed.

(* class by class: field name, TLV type number, kind -- in declaration order *)
Definition expected_layout : list (list N * list (list N * N * list N)) := [
  (s "UserFnArg", [(s "value", 33, s "bytes"); (s "tag", 35, s "uint")]);
  (s "UserFnCall", [(s "fn_id", 39, s "string"); (s "args", 51, s "repeated model UserFnArg")]);
  (s "ConstraintOption", [(s "value", 33, s "bytes"); (s "tag", 35, s "uint"); (s "fn", 49, s "model UserFnCall")]);
  (s "PatternConstraint", [(s "options", 65, s "repeated model ConstraintOption")]);
  (s "PatternEdge", [(s "dest", 37, s "uint"); (s "tag", 35, s "uint"); (s "cons_sets", 67, s "repeated model PatternConstraint")]);
  (s "ValueEdge", [(s "dest", 37, s "uint"); (s "value", 33, s "bytes")]);
  (s "Node", [(s "id", 37, s "uint"); (s "parent", 87, s "uint"); (s "rule_name", 41, s "repeated string");
              (s "v_edges", 81, s "repeated model ValueEdge"); (s "p_edges", 83, s "repeated model PatternEdge");
              (s "sign_cons", 85, s "repeated uint")]);
  (s "TagSymbol", [(s "tag", 35, s "uint"); (s "ident", 41, s "string")]);
  (s "LvsModel", [(s "version", 97, s "uint"); (s "start_id", 37, s "uint"); (s "named_pattern_cnt", 105, s "uint");
                  (s "nodes", 99, s "repeated model Node"); (s "symbols", 103, s "repeated model TagSymbol")])].

Theorem lvs_layout_agree : GL.layout = expected_layout.
Proof. vm_compute. reflexivity. Qed.
