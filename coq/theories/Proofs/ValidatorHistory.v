(* C14 — histories: several validator instances, any order of constructions and validations.
   With the fixed default argument (every instance gets its own key storage unless one is given explicitly, and an
   explicitly given storage is not shared between validators) every verdict in every reachable state is characterised
   by Chain — which mentions schema, anchor, packet and the retrievable certificates only. *)
From NDN Require Import Proofs.ListLemmas Base.Prelude Model.Validator Spec.ChainSpec Proofs.ValidatorProofs.
Local Open Scope nat_scope.

(* [heap_set] is [set_nth] of Model/ValidatorConc.v at the type of caches *)
Lemma nth_error_heap_set (h : list cache) sid c j :
  sid < length h -> nth_error (heap_set h sid c) j = if Nat.eqb j sid then Some c else nth_error h j.
Proof. exact (nth_error_set_nth h sid c j). Qed.

Definition sid_unused (st : state) (sid : nat) : Prop :=
  forall ins, In ins (s_insts st) -> i_sid ins <> sid.

Definition op_allowed (st : state) (o : op) : Prop :=
  match o with
  | ONewLvs _ _ (SGiven sid) => sid_unused st sid
  | ONewCascade _ (SGiven sid) => sid_unused st sid
  | _ => True
  end.

(* [inv_unused]: a new validator may be given a storage that exists already, and must find its own [cache_ok] there;
   it does because a storage that no validator uses is empty.  [inv_excl]: no two validators share a storage. *)
Record state_inv (w : world) (st : state) : Prop := {
  inv_cache : forall i ins, nth_error (s_insts st) i = Some ins ->
              exists ch, nth_error (s_heap st) (i_sid ins) = Some ch /\ cache_ok w (trust_of (i_cfg ins)) ch;
  inv_unused : forall sid ch, nth_error (s_heap st) sid = Some ch -> sid_unused st sid -> ch = [];
  inv_excl : forall i j a b, nth_error (s_insts st) i = Some a -> nth_error (s_insts st) j = Some b ->
             i_sid a = i_sid b -> i = j
}.

Lemma inv_init w : state_inv w init_state.
Proof.
  split; cbn.
  - intros i ins H. destruct i; discriminate.
  - intros sid ch H _. destruct sid as [|[|sid]]; cbn in H; try (inversion H; reflexivity). destruct sid; discriminate.
  - intros i j a b H. destruct i; discriminate.
Qed.

Lemma inv_new_storage w st :
  state_inv w st -> state_inv w {| s_heap := s_heap st ++ [[]]; s_insts := s_insts st |}.
Proof.
  intros [IC IU IE]. split; cbn.
  - intros i ins H. destruct (IC _ _ H) as (ch & Hh & Hc). exists ch. split; auto. apply nth_error_app_some; auto.
  - intros sid ch H U. apply nth_error_snoc in H as [[H _]|[_ ->]]; [exact (IU _ _ H U) | reflexivity].
  - exact IE.
Qed.

Lemma inv_new_inst w st c sid :
  state_inv w st -> sid < length (s_heap st) -> sid_unused st sid ->
  state_inv w {| s_heap := s_heap st; s_insts := s_insts st ++ [{| i_cfg := c; i_sid := sid |}] |}.
Proof.
  intros [IC IU IE] L U. split; cbn [s_heap s_insts].
  - intros i ins H. apply nth_error_snoc in H as [[H _]|[_ ->]]; [exact (IC _ _ H)|]. cbn.
    destruct (nth_error (s_heap st) sid) as [ch|] eqn:Hh; [|apply nth_error_None in Hh; lia].
    exists ch. split; [reflexivity|]. rewrite (IU _ _ Hh U). apply cache_ok_nil.
  - intros sid' ch H U'. apply (IU _ _ H). intros ins Hin. apply U'. apply in_or_app. left. exact Hin.
  - intros i j a b Ha Hb E. apply nth_error_snoc in Ha as [[Ha _]|[-> ->]]; apply nth_error_snoc in Hb as [[Hb _]|[-> ->]].
    + exact (IE _ _ _ _ Ha Hb E).
    + destruct (U a (nth_error_In _ _ Ha) E).
    + destruct (U b (nth_error_In _ _ Hb) (eq_sym E)).
    + reflexivity.
Qed.

(* the default argument: a fresh storage, then as if that storage had been given *)
Lemma inv_add_inst w st s r dflt :
  state_inv w st ->
  match s with SGiven sid => sid_unused st sid | SDefault => True end ->
  state_inv w (fst (add_inst false dflt st s r)).
Proof.
  intros Inv Al. unfold add_inst. destruct r as [c|e]; [|exact Inv].
  destruct s as [|sid]; cbn [resolve fst].
  - apply (inv_new_inst w {| s_heap := s_heap st ++ [[]]; s_insts := s_insts st |}); cbn [s_heap s_insts].
    + apply inv_new_storage, Inv.
    + rewrite app_length. cbn. lia.
    + intros ins Hin E. apply In_nth_error in Hin as [i Hi]. destruct (inv_cache w st Inv _ _ Hi) as (ch & Hh & _).
      rewrite E in Hh. apply (Nat.lt_irrefl (length (s_heap st))), nth_error_Some. congruence.
  - destruct (Nat.ltb_spec sid (length (s_heap st))) as [L|G]; [|exact Inv]. apply inv_new_inst; assumption.
Qed.

Lemma inv_validate w st fuel i p :
  state_inv w st -> state_inv w (fst (step false w fuel st (OValidate i p))).
Proof.
  intros Inv. pose proof Inv as [IC IU IE]. cbn [step].
  destruct (nth_error (s_insts st) i) as [ins|] eqn:Hi; [|exact Inv].
  destruct (IC _ _ Hi) as (ch & Hh & Hc). rewrite Hh.
  destruct (validate w (i_cfg ins) fuel ch p) as [[r ch'] tr] eqn:V. cbn [fst].
  assert (L : i_sid ins < length (s_heap st)) by (apply nth_error_Some; congruence).
  pose proof (proj1 (validate_sound _ _ _ _ _ _ _ _ Hc V)) as Hc'.
  split; cbn [s_heap s_insts]; [| |exact IE].
  - intros j b Hj. rewrite (nth_error_heap_set _ _ _ _ L).
    destruct (Nat.eqb_spec (i_sid b) (i_sid ins)) as [E|N]; [|exact (IC _ _ Hj)].
    assert (j = i) by (eapply IE; eauto). subst j. assert (b = ins) by congruence. subst b. exists ch'. auto.
  - intros sid c. rewrite (nth_error_heap_set _ _ _ _ L).
    destruct (Nat.eqb_spec sid (i_sid ins)) as [->|N]; intros H U; [|exact (IU _ _ H U)].
    destruct (U ins (nth_error_In _ _ Hi) eq_refl).
Qed.

Lemma inv_step w st fuel o :
  state_inv w st -> op_allowed st o -> state_inv w (fst (step false w fuel st o)).
Proof.
  intros Inv Al. destruct o as [|sc a s|a s|i p].
  - cbn. apply inv_new_storage; auto.
  - cbn [step]. apply inv_add_inst; auto; destruct s; auto.
  - cbn [step]. apply inv_add_inst; auto; destruct s; auto.
  - apply inv_validate; auto.
Qed.

Theorem inv_verdict lg w st fuel i ins p st' r tr :
  state_inv w st ->
  nth_error (s_insts st) i = Some ins ->
  step lg w fuel st (OValidate i p) = (st', BVal r tr) ->
  r <> Err EFuel ->
  (r = Ok true <-> Chain w (trust_of (i_cfg ins)) p).
Proof.
  intros [IC _ _] Hi S. cbn [step] in S. rewrite Hi in S. destruct (IC _ _ Hi) as (ch & Hh & Hc). rewrite Hh in S.
  destruct (validate w (i_cfg ins) fuel ch p) as [[r0 ch'] tr0] eqn:V. injection S as _ <- _.
  exact (answer_ok_iff _ _ _ _ (proj2 (validate_sound _ _ _ _ _ _ _ _ Hc V))).
Qed.

(* two validators with the same anchor and schema, at any two such states, give the same accept/reject
   verdict on the same packet (whenever both answer) *)
Corollary same_verdict lg w st1 st2 f1 f2 i1 i2 a b p s1 s2 r1 r2 t1 t2 :
  state_inv w st1 -> state_inv w st2 ->
  nth_error (s_insts st1) i1 = Some a -> nth_error (s_insts st2) i2 = Some b ->
  trust_of (i_cfg a) = trust_of (i_cfg b) ->
  step lg w f1 st1 (OValidate i1 p) = (s1, BVal r1 t1) ->
  step lg w f2 st2 (OValidate i2 p) = (s2, BVal r2 t2) ->
  r1 <> Err EFuel -> r2 <> Err EFuel ->
  (r1 = Ok true <-> r2 = Ok true).
Proof.
  intros I1 I2 H1 H2 E S1 S2 N1 N2.
  rewrite (inv_verdict _ _ _ _ _ _ _ _ _ _ I1 H1 S1 N1), (inv_verdict _ _ _ _ _ _ _ _ _ _ I2 H2 S2 N2), E. tauto.
Qed.

Inductive reachable (w : world) : state -> Prop :=
| R0 : reachable w init_state
| RS st o fuel : reachable w st -> op_allowed st o -> reachable w (fst (step false w fuel st o)).

Lemma reachable_inv w st : reachable w st -> state_inv w st.
Proof. induction 1; [apply inv_init | apply inv_step; auto]. Qed.

Lemma run_history_keeps lg w fuel (I : state -> Prop) : forall ops st,
  (forall s o, In o ops -> I s -> I (fst (step lg w fuel s o))) -> I st -> I (fst (run_history lg w fuel st ops)).
Proof.
  induction ops as [|o ops IH]; intros st K H; cbn [run_history]; [exact H|].
  pose proof (K st o (or_introl eq_refl) H) as H1. destruct (step lg w fuel st o) as [st1 b].
  specialize (IH st1 (fun s o' Ho => K s o' (or_intror Ho)) H1). destruct (run_history lg w fuel st1 ops). exact IH.
Qed.

Lemma run_history_reachable w fuel ops st :
  reachable w st -> (forall o, In o ops -> match o with
                                           | ONewLvs _ _ (SGiven _) | ONewCascade _ (SGiven _) => False
                                           | _ => True end) ->
  reachable w (fst (run_history false w fuel st ops)).
Proof.
  intros R H. revert R. apply run_history_keeps. intros s o Ho R. apply RS; [exact R|].
  specialize (H o Ho). destruct o as [|? ? []|? []|]; cbn; auto; contradiction.
Qed.

Lemma add_inst_keeps lg dflt st s r i ins :
  nth_error (s_insts st) i = Some ins -> nth_error (s_insts (fst (add_inst lg dflt st s r))) i = Some ins.
Proof.
  intros H. unfold add_inst. destruct r; [|exact H].
  destruct (resolve lg dflt (s_heap st) s) as [[sid h]|]; [|exact H]. apply nth_error_app_some, H.
Qed.

Lemma step_keeps_insts lg w fuel st o i ins :
  nth_error (s_insts st) i = Some ins -> nth_error (s_insts (fst (step lg w fuel st o))) i = Some ins.
Proof.
  intros H. destruct o as [|sc a s|a s|j p]; cbn [step]; [exact H | apply add_inst_keeps, H..|].
  destruct (nth_error (s_insts st) j) as [x|]; [|exact H].
  destruct (nth_error (s_heap st) (i_sid x)) as [ch|]; [|exact H].
  destruct (validate w (i_cfg x) fuel ch p) as [[r ch'] tr]. exact H.
Qed.

(* An instance is configured by its constructor arguments only: the cfg stored for a new lvs_validator
   is exactly what lvs_init computed from (schema, anchor) — nothing from the state. *)
Lemma new_lvs_cfg w fuel st sc a s st' n :
  step false w fuel st (ONewLvs sc a s) = (st', BNew (Ok n)) ->
  exists c sid, lvs_init w sc a = Ok c /\ nth_error (s_insts st') n = Some {| i_cfg := c; i_sid := sid |}.
Proof.
  cbn [step]. unfold add_inst. destruct (lvs_init w sc a) as [c|e]; [|discriminate].
  destruct (resolve false 0 (s_heap st) s) as [[sid h]|]; [|discriminate].
  intros H. injection H as <- <-. exists c, sid. split; [reflexivity | apply nth_error_snoc_last].
Qed.
