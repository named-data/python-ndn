(* C02: the bytes handed to the signer / hashed into the parameters digest are exactly the portions
   that the specification (Spec/SignedPortion.v) reads off the produced packet.
   A packet value as the library makes it is its declared fields in order, each of which wrote nothing or one
   element of its Type ([slot]); the scans of the specification are read over such a sequence ([scan_slots]).
   What a slot holds inside plays no part. *)
From NDN Require Import Base.Prelude Model.TlvVar Model.Name Model.Tlv Model.Packet Model.PacketEnc
  Spec.TlvWf Spec.SignedPortion Generated.Schemas
  Proofs.BytesLemmas Proofs.TlvVarProofs Proofs.NameWire Proofs.TlvSplit Proofs.TlvRoundtrip2
  Proofs.TlvAssign Proofs.PacketRoundtrip Proofs.PtrsSpecView.
Local Open Scope N_scope.

Lemma enc_by_slot fs t v w :
  wf_fields fs -> forallb (fun f => single (snd f)) fs = true -> enc_by fs t v = Ok w -> slot t w.
Proof.
  intros [fs0 _ Hall] Hs He. unfold enc_by in He. destruct (kind_of fs0 t) as [k|] eqn:Ek; [|discriminate].
  apply kind_of_in in Ek. exact (enc_val_slot _ t k v w (Hall _ _ Ek) (proj1 (forallb_forall _ _) Hs _ Ek) He).
Qed.

Lemma enc_bytes_tlv fs t sv w :
  kind_of fs t = Some (KBytes false) -> enc_by fs t (VBytes sv) = Ok w -> w = tlv t sv.
Proof.
  intros Hk. unfold enc_by. rewrite Hk. unfold depth_of. cbn [enc_val]. intros H. apply bind_ok in H as (th & Et & H).
  apply tl_enc_r_inv in Et as [-> _]. injection H as <-. reflexivity.
Qed.

Lemma scan_slots t p rest : forall ts segs fuel,
  Forall2 slot ts segs -> Forall (fun t' => t' < two64 /\ t' <> t) ts -> t < two64 ->
  let w := concat segs ++ tlv t p ++ rest in
  N.of_nat (length (concat segs ++ tlv t p)) < two64 -> (length w < fuel)%nat ->
  before_type fuel t w = Some (concat segs) /\ from_type fuel t w = Some (tlv t p ++ rest) /\
  value_of_type fuel t w = Some p.
Proof.
  intros ts segs fuel H. revert fuel. induction H as [|t' s ts segs Hs _ IH]; intros fuel Hts Ht w Hl Hf; subst w.
  - destruct fuel; [inversion Hf|]. cbn [concat app before_type from_type value_of_type] in *.
    apply tlv_len_bound in Hl. rewrite next_element_tlv, N.eqb_refl by assumption.
    exact (conj eq_refl (conj eq_refl (el_value_tlv t p Ht Hl))).
  - inversion Hts as [|? ? [Ht' Hne] Hts']; subst. cbn [concat] in *. rewrite <- app_assoc in *.
    destruct Hs as [->|[p' ->]]; [exact (IH fuel Hts' Ht Hl Hf)|].
    destruct fuel; [inversion Hf|]. cbn [before_type from_type value_of_type].
    rewrite app_length in Hl, Hf. pose proof (tlv_length t' p') as L. pose proof (tl_size_pos t').
    rewrite next_element_tlv; [|exact Ht'|lia].
    replace (t' =? t) with false by (symmetry; apply N.eqb_neq; exact Hne).
    destruct (IH fuel Hts' Ht ltac:(lia) ltac:(lia)) as (-> & -> & ->). repeat split.
Qed.

Theorem data_covered name segs sv :
  Forall2 slot [T_META_INFO; T_CONTENT; T_SIG_INFO] segs ->
  N.of_nat (length (name_encode name ++ concat segs ++ tlv T_SIG_VALUE sv)) < two64 ->
  signed_portion_data (name_encode name ++ concat segs ++ tlv T_SIG_VALUE sv) = Some (name_encode name ++ concat segs).
Proof.
  intros F Hl. unfold signed_portion_data, T_SIG_VALUE, T_NAME in *.
  pose proof (scan_slots 23 sv [] _ _ (S (length (name_encode name ++ concat segs ++ tlv 23 sv)))
                (Forall2_cons _ _ (slot_name name) F)) as G.
  cbn [concat] in G. rewrite app_nil_r, <- app_assoc in G.
  destruct G as (-> & _); [repeat constructor; discriminate|reflexivity|exact Hl|apply Nat.lt_succ_diag_r|].
  (* Name .. SignatureInfo begins with the Name *)
  rewrite name_encode_tlv in *. rewrite !app_length in Hl. unfold TYPE_NAME in Hl.
  apply (scan_slots 7 (concat name) (concat segs) [] [] _ (Forall2_nil _) (Forall_nil _) eq_refl);
    [cbn [concat app]; lia|apply Nat.lt_succ_diag_r].
Qed.

Section DataPortion.
Variable sign : bytes -> bytes.

(* what make_data sends with a signer, for every MetaInfo, Content and SignatureInfo that it encodes at all *)
Lemma make_data_slots d m s : make_data sign d = Ok m -> d_sig d = Some s ->
  exists segs, Forall2 slot [T_META_INFO; T_CONTENT; T_SIG_INFO] segs /\
    m_sig_covered m = name_encode (d_name d) ++ concat segs /\
    m_wire m = tlv TYPE_DATA (name_encode (d_name d) ++ concat segs ++ tlv T_SIG_VALUE (sign (m_sig_covered m))).
Proof.
  unfold make_data. intros H Es. rewrite Es in H. set (nm := name_encode (d_name d)) in *. clearbody nm.
  apply bind_ok in H as (s_meta & E1 & H). apply bind_ok in H as (s_content & E2 & H).
  apply bind_ok in H as (s_info & E3 & H). apply bind_ok in H as (s_sig & E4 & H).
  apply bind_ok in E4 as (_ & _ & E4). injection H as <-. cbn [m_wire m_sig_covered].
  apply enc_bytes_tlv in E4; [subst s_sig|reflexivity].
  pose proof (fun t v w => enc_by_slot _ t v w (wf_fieldsb_spec _ wf_ndn_format_0_3_DataPacketValue) eq_refl) as Sl.
  exists [s_meta; s_content; s_info]. cbn [concat]. rewrite app_nil_r, <- !app_assoc.
  exact (conj (Forall2_cons _ _ (Sl _ _ _ E1) (Forall2_cons _ _ (Sl _ _ _ E2) (Forall2_cons _ _ (Sl _ _ _ E3) (Forall2_nil _))))
              (conj eq_refl eq_refl)).
Qed.

Theorem data_sign_covers d m s :
  make_data sign d = Ok m -> d_sig d = Some s -> N.of_nat (length (m_wire m)) < two64 ->
  exists body, m_wire m = tlv TYPE_DATA body /\ signed_portion_data body = Some (m_sig_covered m).
Proof.
  intros H Es Hl. destruct (make_data_slots d m s H Es) as (segs & F & Ec & Ew).
  rewrite Ew in Hl. apply tlv_len_bound in Hl. eexists. split; [exact Ew|]. rewrite Ec at 2. exact (data_covered _ _ _ F Hl).
Qed.

End DataPortion.
