(* Lemmas about the string primitives of Model/ConfBase.v (strip, partition, break, lines, join, expandvars),
   and how facts about its character classes are settled. *)
From NDN Require Import Base.Prelude Base.Text Model.ConfBase Proofs.ListLemmas Proofs.TextProofs.
Local Open Scope N_scope.

(* The classes and named characters are comparisons of a code point with constants: once they are
   unfolded ([charc]) a relation between them is linear arithmetic.  [by_chars H] proves
   [forallb Q s = true] from [H : forallb P s = true] when P x -> Q x is such a relation.
   ([existsb] is computed for the classes Proofs/ConfFace.v adds to the database: membership in a short list.) *)
Create HintDb chars.
#[export] Hint Unfold is_space is_delim is_alpha is_upper is_lower is_digit is_scheme_char is_netloc_end
  is_unsafe is_c0_or_space ch_nl ch_slash ch_colon ch_eq ch_hash ch_semi ch_lbr ch_rbr ch_at ch_q ch_pct : chars.
Ltac charc := autounfold with chars; cbn [existsb negb orb andb].
Ltac by_chars H := refine (forallb_impl _ _ _ _ H); charc; lia.

Lemma str_eqb_neq a b : str_eqb a b = false <-> a <> b.
Proof. rewrite <- str_eqb_spec. symmetry. apply not_true_iff_false. Qed.

Lemma skey_eqb_eq a b : skey_eqb a b = true <-> a = b.
Proof.
  destruct a as [a1 a2], b as [b1 b2]. unfold skey_eqb. cbn [fst snd]. rewrite andb_true_iff, !str_eqb_spec.
  split; [intros [-> ->]; reflexivity|intros [= -> ->]; auto].
Qed.

Lemma nonempty_app_l a b : nonempty a = true -> nonempty (a ++ b) = true.
Proof. destruct a; [discriminate|reflexivity]. Qed.

Lemma lstrip_by_app_all p ws s : forallb p ws = true -> lstrip_by p (ws ++ s) = lstrip_by p s.
Proof.
  induction ws as [|c r IH]; [reflexivity|]. cbn. intros H. apply andb_true_iff in H as [Hc Hr].
  rewrite Hc. auto.
Qed.

Lemma lstrip_by_all p ws : forallb p ws = true -> lstrip_by p ws = [].
Proof. intros H. rewrite <- (app_nil_r ws). apply lstrip_by_app_all. exact H. Qed.

Lemma lstrip_by_head p c s : p c = false -> lstrip_by p (c :: s) = c :: s.
Proof. intros H. cbn. rewrite H. reflexivity. Qed.

Lemma lstrip_by_id p s : match s with [] => true | c :: _ => negb (p c) end = true -> lstrip_by p s = s.
Proof. destruct s as [|c r]; [reflexivity|]. intros H. apply lstrip_by_head, negb_true_iff, H. Qed.

Lemma lstrip_by_stop p u x w : p x = false -> lstrip_by p (u ++ x :: w) = lstrip_by p u ++ x :: w.
Proof.
  intros Hx. induction u as [|c r IH]; cbn.
  - rewrite Hx. reflexivity.
  - destruct (p c); [exact IH|reflexivity].
Qed.

Lemma rstrip_by_nil p : rstrip_by p [] = [].
Proof. reflexivity. Qed.

Lemma rstrip_by_app_all p a ws : forallb p ws = true -> rstrip_by p (a ++ ws) = rstrip_by p a.
Proof.
  intros H. unfold rstrip_by. rewrite rev_app_distr, lstrip_by_app_all; [reflexivity|].
  rewrite forallb_rev. exact H.
Qed.

Lemma rstrip_by_all p ws : forallb p ws = true -> rstrip_by p ws = [].
Proof. apply (rstrip_by_app_all p []). Qed.

Lemma rstrip_by_id p s : match rev s with [] => true | c :: _ => negb (p c) end = true -> rstrip_by p s = s.
Proof. intros H. unfold rstrip_by. rewrite lstrip_by_id by exact H. apply rev_involutive. Qed.

Lemma rstrip_by_none p s : forallb (fun c => negb (p c)) s = true -> rstrip_by p s = s.
Proof.
  intros H. apply rstrip_by_id. rewrite <- forallb_rev in H. destruct (rev s); [reflexivity|].
  apply andb_prop in H. apply H.
Qed.

Lemma rstrip_by_stop p a x y : p x = false -> rstrip_by p (a ++ x :: y) = a ++ x :: rstrip_by p y.
Proof.
  intros Hx. unfold rstrip_by. rewrite rev_app_distr. cbn [rev]. rewrite <- app_assoc. cbn [app].
  rewrite lstrip_by_stop by exact Hx. rewrite rev_app_distr. cbn [rev]. rewrite rev_involutive, <- app_assoc.
  reflexivity.
Qed.

Lemma rstrip_by_head p x y : p x = false -> rstrip_by p (x :: y) = x :: rstrip_by p y.
Proof. apply (rstrip_by_stop p []). Qed.

Lemma break_on_tail p a t :
  forallb (fun y => negb (p y)) a = true -> match t with [] => true | x :: _ => p x end = true ->
  break_on p (a ++ t) = (a, match t with [] => None | x :: r => Some (x, r) end).
Proof.
  intros Ha Ht. induction a as [|y a IH]; cbn [app].
  - destruct t as [|x r]; [reflexivity|]. cbn. rewrite Ht. reflexivity.
  - cbn in *. apply andb_true_iff in Ha as [Hy Ha]. apply negb_true_iff in Hy.
    rewrite Hy, IH by exact Ha. reflexivity.
Qed.

Lemma break_on_app p a x r :
  forallb (fun y => negb (p y)) a = true -> p x = true -> break_on p (a ++ x :: r) = (a, Some (x, r)).
Proof. apply (break_on_tail p a (x :: r)). Qed.

Lemma break_on_none p a :
  forallb (fun y => negb (p y)) a = true -> break_on p a = (a, None).
Proof. intros H. rewrite <- (app_nil_r a) at 1. apply break_on_tail; [exact H | reflexivity]. Qed.

Lemma partition_on_break c s :
  partition_on c s = let (a, b) := break_on (fun x => x =? c) s in (a, option_map snd b).
Proof.
  induction s as [|x s IH]; cbn; [reflexivity|]. destruct (x =? c); [reflexivity|].
  rewrite IH. destruct (break_on _ s). reflexivity.
Qed.

Lemma partition_on_app c a r :
  forallb (fun x => negb (x =? c)) a = true -> partition_on c (a ++ c :: r) = (a, Some r).
Proof. intros H. rewrite partition_on_break, break_on_app; [reflexivity | exact H | apply N.eqb_refl]. Qed.

Lemma partition_on_head c r : partition_on c (c :: r) = ([], Some r).
Proof. apply (partition_on_app c []). reflexivity. Qed.

Lemma partition_on_none c a :
  forallb (fun x => negb (x =? c)) a = true -> partition_on c a = (a, None).
Proof. intros H. rewrite partition_on_break, break_on_none by exact H. reflexivity. Qed.

Lemma partition_on_fst_app c a x r :
  forallb (fun y => negb (y =? c)) a = true -> x = c -> fst (partition_on c (a ++ x :: r)) = a.
Proof. intros H ->. rewrite partition_on_app by exact H. reflexivity. Qed.

Lemma rpartition_on_none c s :
  forallb (fun x => negb (x =? c)) s = true -> rpartition_on c s = (None, s).
Proof.
  intros H. unfold rpartition_on. rewrite partition_on_none; [reflexivity|]. rewrite forallb_rev. exact H.
Qed.

Lemma contains_false c s : forallb (fun x => negb (x =? c)) s = true -> contains c s = false.
Proof.
  unfold contains. induction s as [|x s IH]; cbn; intros H; [reflexivity|].
  apply andb_true_iff in H as [Hx Hs]. rewrite N.eqb_sym. destruct (x =? c); [discriminate|]. cbn. auto.
Qed.

Lemma contains_app c a b : contains c (a ++ b) = contains c a || contains c b.
Proof. unfold contains. apply existsb_app. Qed.

Lemma contains_mid c a r : contains c (a ++ c :: r) = true.
Proof. rewrite contains_app. unfold contains at 2. cbn. rewrite N.eqb_refl. apply orb_true_r. Qed.

Lemma py_lines_nil : py_lines [] = [].
Proof. reflexivity. Qed.

Lemma py_lines_cons a r :
  forallb (fun c => negb (c =? ch_nl)) a = true -> py_lines (a ++ ch_nl :: r) = a :: py_lines r.
Proof.
  intros H. unfold py_lines. rewrite split_on_app by exact H.
  pose proof (split_on_nonempty ch_nl r) as Hne.
  destruct (rev (split_on ch_nl r)) as [|x y] eqn:E.
  - apply (f_equal (@rev str)) in E. rewrite rev_involutive in E. contradiction.
  - cbn [rev]. rewrite E. cbn [app]. destruct x.
    + rewrite rev_app_distr. reflexivity.
    + reflexivity.
Qed.

Lemma path_join_nil b : path_join [] b = b.
Proof. unfold path_join. destruct (starts_with [ch_slash] b); reflexivity. Qed.

Lemma path_dirname_nil : path_dirname [] = [].
Proof. reflexivity. Qed.

Lemma expandvars_plain e s : contains ch_dollar s = false -> expandvars e s = s.
Proof. unfold expandvars. intros ->. reflexivity. Qed.

Lemma map_expandvars_plain e l :
  forallb (fun p => negb (contains ch_dollar p)) l = true -> map (expandvars e) l = l.
Proof.
  induction l as [|p l IH]; cbn [forallb map]; [reflexivity|]. intros [Hp Hl]%andb_prop.
  rewrite expandvars_plain, IH by (assumption || apply negb_true_iff, Hp). reflexivity.
Qed.
