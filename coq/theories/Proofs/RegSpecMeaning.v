(* C17 — what four clauses of Spec/Registration.v (outcomes, one at a time, timestamps, one command per call) say, in
   plain terms; the auto-registration automaton has no such reading here. *)
From NDN Require Import Base.Prelude Model.Name Model.Tlv Model.Registerer
  Spec.Registration Proofs.ListLemmas Proofs.BytesLemmas Proofs.TlvAssign Proofs.RegistererBase.
From Coq Require Import Sorting.Sorted.
Local Open Scope N_scope.

Definition sends (l : list obs) : list cmd :=
  flat_map (fun o => match o with OSend c => [c] | _ => [] end) l.

Lemma ts_fold_sorted l : forall a m,
  fold_left ts_step l (Some a) = Some m ->
  StronglySorted N.lt (match a with Some t => [t] | None => [] end ++ map m_ts (sends l)).
Proof.
  induction l as [|o r IH]; intros a m H.
  - destruct a; repeat constructor.
  - cbn [fold_left] in H. destruct o as [id k nm au|c|id rp oc|nm| |cl|]; try (destruct a; exact (IH _ _ H)).
    cbn [sends flat_map app map]. change (flat_map _ r) with (sends r).
    destruct a as [t|]; cbn [ts_step] in H; [|exact (IH _ _ H)].
    destruct (t <? m_ts c) eqn:Et; [|destruct (fold_failed H (fun _ => eq_refl))].
    apply N.ltb_lt in Et. specialize (IH _ _ H). constructor; [exact IH|]. constructor; [exact Et|].
    apply StronglySorted_inv in IH. eapply Forall_impl; [|exact (proj2 IH)]. intros x Hx. cbn beta in Hx. lia.
Qed.

Theorem timestamps_ok_sorted l : timestamps_ok l = true -> StronglySorted N.lt (map m_ts (sends l)).
Proof.
  unfold timestamps_ok, check. destruct (fold_left ts_step l (Some None)) as [m|] eqn:E; [|discriminate].
  intros _. exact (ts_fold_sorted l None m E).
Qed.

Lemma serial_busy l2 : forall j c2 l3 b',
  fold_left serial_step (l2 ++ OSend c2 :: l3) (Some (Some j)) = Some b' ->
  exists r o, In (ODone j r o) l2.
Proof.
  induction l2 as [|o l2 IH]; intros j c2 l3 b' H.
  - cbn in H. destruct (fold_failed H (fun _ => eq_refl)).
  - cbn [app fold_left] in H. destruct o as [id k nm au|c|id rp oc|nm| |cl|]; cbn [serial_step] in H;
      try (destruct (IH _ _ _ _ H) as (r & o & Hin); exists r, o; right; exact Hin).
    + destruct (fold_failed H (fun _ => eq_refl)).
    + destruct (Nat.eqb id j) eqn:E; [|destruct (fold_failed H (fun _ => eq_refl))].
      apply Nat.eqb_eq in E. subst id. exists rp, oc. left. reflexivity.
Qed.

Theorem serial_ok_meaning l l1 c1 l2 c2 l3 :
  serial_ok l = true -> l = l1 ++ OSend c1 :: l2 ++ OSend c2 :: l3 ->
  exists r o, In (ODone (m_call c1) r o) l2.
Proof.
  unfold serial_ok. intros H ->. destruct (check serial_step None _) as [b|] eqn:E; [|discriminate].
  destruct (check_prefix _ _ _ _ _ (fun _ => eq_refl) E) as ([j|] & _ & H1); cbn [fold_left serial_step] in H1.
  - destruct (fold_failed H1 (fun _ => eq_refl)).
  - exact (serial_busy _ _ _ _ _ H1).
Qed.

Theorem outcomes_ok_meaning va l id r o :
  outcomes_ok va l = true -> In (ODone id r o) l -> o = Ret (answers_200 va r).
Proof.
  unfold outcomes_ok. intros H Hin. rewrite forallb_forall in H. specialize (H _ Hin). cbn [outcome_ok] in H.
  destruct o as [b|e]; [|discriminate]. apply Bool.eqb_prop in H. now subst b.
Qed.

Lemma kind_eqb_eq a b : kind_eqb a b = true -> a = b.
Proof. destruct a, b; cbn; congruence. Qed.

Definition percall_table := list (kind * name * bool).

Lemma percall_step_inv (t t1 : percall_table) o : percall_step (Some t) o = Some t1 ->
  match o with
  | OCall id k nm _ => id = length t /\ t1 = t ++ [(k, nm, false)]
  | OSend c => nth_error t (m_call c) = Some (m_kind c, m_prefix c, false) /\
               t1 = upd t (m_call c) (fun _ => (m_kind c, m_prefix c, true))
  | ODone id _ _ => (exists k nm, nth_error t id = Some (k, nm, true)) /\ t1 = t
  | _ => t1 = t
  end.
Proof.
  destruct o as [id k nm au|c|id rp oc|nm| |cl|]; cbn [percall_step]; try (intros H; now injection H as <-).
  - destruct (Nat.eqb id (length t)) eqn:E; [|discriminate]. apply Nat.eqb_eq in E. intros H. injection H as <-.
    now split.
  - destruct (nth_error t (m_call c)) as [[[k nm] [|]]|] eqn:En; try discriminate.
    destruct (kind_eqb k (m_kind c) && name_eqb nm (m_prefix c)) eqn:E; [|discriminate].
    apply andb_true_iff in E as [E1 E2]. apply kind_eqb_eq in E1. apply name_eqb_spec in E2. subst k nm.
    intros H. injection H as <-. now split.
  - destruct (nth_error t id) as [[[k nm] [|]]|] eqn:En; try discriminate. intros H. injection H as <-.
    split; [now exists k, nm|reflexivity].
Qed.

Lemma sends_snoc l o : sends (l ++ [o]) = sends l ++ match o with OSend c => [c] | _ => [] end.
Proof. unfold sends. rewrite flat_map_app. cbn [flat_map]. now rewrite app_nil_r. Qed.

(* the table of the automaton after a log [l] whose commands are [ss]: an entry per call entered, flagged once its
   command went out *)
Record PerInv (l : list obs) (ss : list cmd) (t : percall_table) : Prop := {
  P_call : forall id k nm b, nth_error t id = Some (k, nm, b) -> exists a, In (OCall id k nm a) l;
  P_sent : forall c, In c ss -> nth_error t (m_call c) = Some (m_kind c, m_prefix c, true);
  P_flag : forall id k nm, nth_error t id = Some (k, nm, true) -> In id (map m_call ss);
  P_nodup : NoDup (map m_call ss)
}.

Lemma PerInv_step l ss t o t1 :
  PerInv l ss t -> percall_step (Some t) o = Some t1 ->
  PerInv (l ++ [o]) (ss ++ match o with OSend c => [c] | _ => [] end) t1.
Proof.
  intros [A B C D] H. apply percall_step_inv in H.
  assert (A' : forall id k nm b, nth_error t id = Some (k, nm, b) -> exists a, In (OCall id k nm a) (l ++ [o])).
  { intros id k nm b En. destruct (A id k nm b En) as (a & Ha). exists a. apply in_or_app. now left. }
  destruct o as [id k nm au|c|id rp oc|nm| |cl|]; rewrite ?app_nil_r; [| | |subst t1; now constructor..].
  - destruct H as [-> ->]. constructor; [| |intros id k0 nm0 En|exact D].
    + intros id k0 nm0 b En. apply nth_error_snoc in En as [[En _]|[-> En]]; [exact (A' _ _ _ _ En)|].
      injection En as -> -> ->. exists au. apply in_or_app. right. now left.
    + intros c Hc. specialize (B c Hc). rewrite nth_error_app1; [exact B|]. apply nth_error_Some. congruence.
    + apply nth_error_snoc in En as [[En _]|[_ En]]; [exact (C _ _ _ En)|discriminate En].
  - destruct H as [E0 ->].
    assert (Hne : ~ In (m_call c) (map m_call ss)).
    { intros Hin. apply in_map_iff in Hin as (c' & Heq & Hc'). specialize (B c' Hc').
      rewrite Heq, E0 in B. discriminate. }
    constructor.
    + intros id k nm b En. rewrite nth_error_upd in En.
      destruct (Nat.eqb_spec (m_call c) id) as [<-|_]; [|exact (A' _ _ _ _ En)].
      rewrite E0 in En. injection En as <- <- <-. exact (A' _ _ _ _ E0).
    + intros c' Hc'. apply in_app_or in Hc' as [Hc'|[<-|[]]]; [|exact (nth_error_upd_eq _ _ _ _ E0)].
      rewrite nth_error_upd_neq; [exact (B c' Hc')|]. intros Heq. apply Hne. rewrite Heq. now apply in_map.
    + intros id k nm En. rewrite map_app. apply in_or_app. rewrite nth_error_upd in En.
      destruct (Nat.eqb_spec (m_call c) id) as [<-|_]; [right; now left|left; exact (C id k nm En)].
    + rewrite map_app. now apply NoDup_snoc.
  - destruct H as [_ ->]. now constructor.
Qed.

Lemma percall_inv l : forall t, check percall_step [] l = Some t -> PerInv l (sends l) t.
Proof.
  induction l as [|o l IH] using rev_ind; intros t1 H.
  - injection H as <-.
    constructor; [intros [|id] k nm b E; discriminate E|intros c []|intros [|id] k nm E; discriminate E|constructor].
  - rewrite check_snoc in H. destruct (check percall_step [] l) as [t|]; [|discriminate H].
    rewrite sends_snoc. exact (PerInv_step _ _ _ _ _ (IH t eq_refl) H).
Qed.

Theorem percall_ok_meaning l :
  percall_ok l = true ->
  NoDup (map m_call (sends l)) /\
  (forall c, In c (sends l) -> exists a, In (OCall (m_call c) (m_kind c) (m_prefix c) a) l) /\
  (forall l1 id r o l2, l = l1 ++ ODone id r o :: l2 -> exists c, In c (sends l1) /\ m_call c = id).
Proof.
  unfold percall_ok. destruct (check percall_step [] l) as [t|] eqn:E; [|discriminate]. intros _.
  destruct (percall_inv l t E) as [A B _ D]. split; [exact D|split; [intros c Hc; exact (A _ _ _ _ (B c Hc))|]].
  (* the log up to a return is accepted too, and the return finds its call flagged *)
  intros l1 id r o l2 ->. destruct (check_prefix _ _ _ _ _ (fun _ => eq_refl) E) as (t1 & E1 & H). cbn [fold_left] in H.
  destruct (percall_step (Some t1) (ODone id r o)) as [t2|] eqn:E2; [|destruct (fold_failed H (fun _ => eq_refl))].
  apply percall_step_inv in E2 as [(k & nm & En) _].
  apply (P_flag _ _ _ (percall_inv l1 t1 E1)) in En. apply in_map_iff in En as (c & Hid & Hc). now exists c.
Qed.
