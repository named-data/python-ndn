(* From the source schema to its numbered chains: [chains_of S] holds, for every labelled definition of S, exactly
   (up to [represents]) the chains [expand] gives it. *)
From NDN Require Import Base.Prelude Base.Text Model.LvsAst Model.LvsChecker Model.LvsCompiler Spec.LvsSem
  Proofs.LvsSortRules Proofs.LvsNumbering Proofs.LvsRepresents Proofs.LvsExpand Proofs.LvsSimC
  Proofs.ListLemmas Proofs.LvsTraverse Proofs.LvsReplicate.
Local Open Scope N_scope.

Lemma defs_of_rename x : is_temp_rule x = false -> forall S k, defs_of (rename_temp_rules k S) x = defs_of S x.
Proof.
  intros Hx. unfold defs_of. induction S as [|a S IH]; intros k; cbn [rename_temp_rules filter]; [reflexivity|].
  destruct (is_temp_rule (r_id a)) eqn:Et; cbn [filter set_rule_id r_id].
  - rewrite (eqb_neq' ident_eqb ident_eqb_eq (r_id a ++ ch_hash :: dec_print k) x), (eqb_neq' ident_eqb ident_eqb_eq (r_id a) x), IH; [reflexivity | |].
    + intros E. rewrite E in Et. congruence.
    + intros E. pose proof (is_temp_rule_app (r_id a) (ch_hash :: dec_print k) Et) as H. rewrite E in H. congruence.
  - rewrite IH. reflexivity.
Qed.

Definition refs_plain (S : lvsfile) : Prop := forall d x, In d S -> In (CRef x) (r_name d) -> is_temp_rule x = false.

Lemma expand_rename S : refs_plain S -> forall k d lbl, In d S ->
  expand k (rename_temp_rules 1 S) (set_rule_id d lbl) = expand k S d.
Proof.
  intros Hpl. induction k as [|k IH]; intros d lbl Hd; [reflexivity|]. rewrite !expand_unfold.
  change (choices (set_rule_id d lbl)) with (choices d). change (r_name (set_rule_id d lbl)) with (r_name d).
  apply flat_map_ext_in. intros cs _. f_equal. f_equal. apply map_ext_in. intros c Hc.
  destruct c as [v|p|x]; try reflexivity. cbn [alts]. rewrite (defs_of_rename x (Hpl d x Hd Hc)).
  apply flat_map_ext_in. intros d' Hd'. rewrite <- (set_rule_id_same d') at 1. apply IH. eapply defs_of_in; eauto.
Qed.

Lemma closed_plain S : refs_closed S -> refs_plain S.
Proof.
  intros Hclosed d x Hd Hx. destruct (labelled_cover S 1 d Hd) as (lbl & Hl).
  destruct (Hclosed (set_rule_id d lbl) x (labelled_in_renamed S lbl d Hl) (cref_refs _ _ Hx)) as [_ Ht]. exact Ht.
Qed.

Lemma closed_defs_nonempty S : refs_closed S -> forall d x, In d (rename_temp_rules 1 S) -> In (CRef x) (r_name d) -> defs_of (rename_temp_rules 1 S) x <> [].
Proof.
  intros Hclosed d x Hd Hx Hnil. destruct (Hclosed d x Hd (cref_refs _ _ Hx)) as [Hids _]. apply (rule_ids_in S x) in Hids. destruct Hids as (d1 & Hd1 & Hid1).
  assert (H1 : In d1 (defs_of (rename_temp_rules 1 S) x)) by (apply filter_In; split; [exact Hd1 | apply ident_eqb_eq, Hid1]).
  rewrite Hnil in H1. destruct H1.
Qed.

Lemma in_chains {V} (rep : list (ident * list V)) rc : In rc (concat (map snd (sort_by_key rep))) <-> exists x chs, In (x, chs) rep /\ In rc chs.
Proof.
  rewrite in_concat. split.
  - intros (chs & Hchs & Hrc). apply in_map_iff in Hchs. destruct Hchs as ([x chs'] & <- & Hp). apply (proj1 (in_sort_by_key rep _)) in Hp. eauto.
  - intros (x & chs & Hp & Hrc). exists chs. split; [|exact Hrc]. apply in_map_iff. exists (x, chs). split; [reflexivity | apply (proj2 (in_sort_by_key rep _)); exact Hp].
Qed.

Theorem chains_of_total S sorted order nrules st fuel : (2 + length S <= fuel)%nat ->
  sort_rule_references S = Ok (sorted, order) -> gen_pattern_numbers sorted = Ok (nrules, st) ->
  exists chains, chains_of S = Ok (chains, st) /\
  (forall rc, In rc chains -> chain_from nrules rc /\ exists lbl d f, In (lbl, d) (labelled 1 S) /\ In f (expand fuel S d) /\ ch_id rc = lbl /\
        represents (ns_named st) rc f /\ ch_sign rc = isort str_leb (r_sign d)) /\
  (forall lbl d f, In (lbl, d) (labelled 1 S) -> In f (expand fuel S d) ->
        exists rc, In rc chains /\ ch_id rc = lbl /\ represents (ns_named st) rc f /\ ch_sign rc = isort str_leb (r_sign d)).
Proof.
  intros Hfuel Es En. unfold chains_of. pose proof (sort_ok S _ _ Es) as Hso. rewrite Es. cbn [bind fst]. rewrite En. cbn [bind].
  destruct (sorted_rank S sorted order Hso) as (h & Hh & Hb). pose proof (so_closed _ _ _ Hso) as Hclosed. pose proof (so_rules _ _ _ Hso) as Hin.
  destruct (numbering_ok _ _ _ En) as [HI _ Hfull]. pose proof (to_good _ HI) as Hgood.
  set (S' := rename_temp_rules 1 S) in *. set (K' := (2 + length S)%nat).
  destruct (replicate_sim S' (ns_named st) (ns_next_temp st) K' (named_good_inj _ Hgood) (named_good_nt _ Hgood) (to_temp _ HI)
              (fun d Hd => expand_stable S' h Hh K' d Hd (Hb d)) sorted nrules (fun d Hd => proj1 (Hin d) Hd)
              (closed_defs_nonempty S Hclosed) (sorted_defs_earlier S sorted order Hso) (ns_next_temp st)
              Hfull (N.le_refl _)) as (rep & k & -> & [_ _ Hsound Hcomplete]).
  cbn [bind]. eexists. split; [reflexivity|].
  assert (Efuel : forall lbl d, In (lbl, d) (labelled 1 S) -> expand fuel S d = expand K' S' (set_rule_id d lbl)).
  { intros lbl d Hl. pose proof (labelled_snd _ _ _ Hl) as HdS. cbn in HdS.
    rewrite <- (expand_stable_le S' h Hh K' fuel _ (labelled_in_renamed S lbl d Hl) (Hb _) Hfuel).
    symmetry. apply (expand_rename S (closed_plain S Hclosed) fuel d lbl HdS). }
  split.
  - intros rc Hrc. apply in_chains in Hrc. destruct Hrc as (x & chs & Hp & Hrc).
    destruct (Hsound x chs rc Hp Hrc) as (d' & f & Hd' & Hidx & Hf & Hrep & _ & Hfrom & Hid & Hsg). split; [exact Hfrom|].
    apply Hin, in_renamed in Hd'. destruct Hd' as (lbl & d & Hl & ->).
    exists lbl, d, f. split; [exact Hl|]. rewrite (Efuel lbl d Hl). cbn [set_rule_id r_id r_sign] in *.
    split; [exact Hf | split; [congruence | split; [exact Hrep | exact Hsg]]].
  - intros lbl d f Hl Hf. rewrite (Efuel lbl d Hl) in Hf.
    destruct (Hcomplete (set_rule_id d lbl) f (proj2 (Hin _) (labelled_in_renamed S lbl d Hl)) Hf) as (chs & rc & Hg & Hrc & Hrep & Hsg).
    apply (al_get_some_in ident_eqb ident_eqb_eq) in Hg. cbn [set_rule_id r_id r_sign] in *.
    pose proof (Hsound _ chs rc Hg Hrc) as Hid. apply stands_id in Hid.
    exists rc. split; [apply in_chains; eauto | auto].
Qed.

Lemma chains_of_inv S chains st : chains_of S = Ok (chains, st) -> exists sorted order nrules rep,
  sort_rule_references S = Ok (sorted, order) /\ gen_pattern_numbers sorted = Ok (nrules, st) /\
  replicate_rules nrules (ns_next_temp st) = Ok rep /\ chains = concat (map snd (sort_by_key rep)).
Proof.
  unfold chains_of. intros H. destruct (sort_rule_references S) as [[sorted order]|] eqn:Es; cbn [bind fst] in H; [|discriminate].
  destruct (gen_pattern_numbers sorted) as [[nrules st']|] eqn:En; cbn [bind] in H; [|discriminate].
  destruct (replicate_rules nrules (ns_next_temp st')) as [rep|] eqn:Er; cbn [bind] in H; [|discriminate]. injection H as <- <-.
  exists sorted, order, nrules, rep. auto.
Qed.

Lemma chains_of_good S chains st : chains_of S = Ok (chains, st) -> named_good (ns_named st).
Proof. intros Hc. destruct (chains_of_inv _ _ _ Hc) as (sorted & _ & nrules & _ & _ & En & _). exact (gen_pattern_numbers_good _ _ _ En). Qed.

Theorem chains_of_expand S chains st : chains_of S = Ok (chains, st) ->
  (forall rc, In rc chains -> exists lbl d f, In (lbl, d) (labelled 1 S) /\ In f (expand (ref_fuel S) S d) /\ ch_id rc = lbl /\
        represents (ns_named st) rc f /\ ch_sign rc = isort str_leb (r_sign d)) /\
  (forall lbl d f, In (lbl, d) (labelled 1 S) -> In f (expand (ref_fuel S) S d) ->
        exists rc, In rc chains /\ ch_id rc = lbl /\ represents (ns_named st) rc f /\ ch_sign rc = isort str_leb (r_sign d)).
Proof.
  intros Hc. destruct (chains_of_inv _ _ _ Hc) as (sorted & order & nrules & _ & Es & En & _).
  destruct (chains_of_total S sorted order nrules st (ref_fuel S) (le_S _ _ (le_n _)) Es En) as (chains' & Hc' & Hs & Hcm).
  rewrite Hc in Hc'. injection Hc' as <-. split; [intros rc Hrc; apply (Hs rc Hrc) | exact Hcm].
Qed.

(* the rule has an expansion ([expand_nonempty]), and the front end is complete *)
Lemma every_rule_has_chain S chains st : chains_of S = Ok (chains, st) ->
  forall r, In r (rename_temp_rules 1 S) -> exists rc, In rc chains /\ ch_id rc = r_id r /\ ch_sign rc = isort str_leb (r_sign r).
Proof.
  intros Hc r Hr. destruct (chains_of_inv _ _ _ Hc) as (sorted & order & _ & _ & Es & _).
  pose proof (sort_ok S _ _ Es) as Hso. destruct (sorted_rank S sorted order Hso) as (h & Hh & Hb). pose proof (so_closed _ _ _ Hso) as Hclosed.
  apply in_renamed in Hr. destruct Hr as (lbl & d & Hl & ->). pose proof (labelled_snd _ _ _ Hl) as HdS. cbn in HdS.
  destruct (expand (ref_fuel S) S d) as [|f fs] eqn:Ef.
  - exfalso. rewrite <- (expand_rename S (closed_plain S Hclosed) _ d lbl HdS) in Ef. revert Ef.
    apply (expand_nonempty (rename_temp_rules 1 S) h Hh (closed_defs_nonempty S Hclosed)); [exact (labelled_in_renamed S lbl d Hl) | apply le_S, Hb].
  - destruct (proj2 (chains_of_expand S chains st Hc) lbl d f Hl) as (rc & Hrc & Hid & _ & Hsg); [rewrite Ef; left; reflexivity|]. exists rc. auto.
Qed.
