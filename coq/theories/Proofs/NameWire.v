(* Name wire codec: the decoding loop returns any run of self-delimiting components as it stands ([comp_form],
   headers in any form); decode (encode n) = n for every list of well-formed components; prefix test. *)
From NDN Require Import Base.Prelude Model.TlvVar Model.Name Model.Tlv Proofs.BytesLemmas Proofs.TlvVarProofs
  Proofs.TlvSplit.
Local Open Scope N_scope.

Definition wf_comp (c : bytes) : Prop :=
  exists t v, c = comp_enc t v /\ t < two64 /\ N.of_nat (length v) < two64.

(* a component is a TLV element: [comp_enc] and [Model.Tlv.tlv] have the same body *)
Lemma comp_enc_length t v :
  length (comp_enc t v) = (tl_size t + tl_size (N.of_nat (length v)) + length v)%nat.
Proof. exact (tlv_length t v). Qed.

Lemma comp_enc_pos t v : (0 < length (comp_enc t v))%nat.
Proof. rewrite comp_enc_length. pose proof (tl_size_pos t). lia. Qed.

Lemma comp_header t v r :
  t < two64 -> N.of_nat (length v) < two64 ->
  tl_dec (comp_enc t v ++ r) = Ok (t, tl_size t) /\
  tl_dec (skipn (tl_size t) (comp_enc t v ++ r)) = Ok (N.of_nat (length v), tl_size (N.of_nat (length v))) /\
  skipn (tl_size t + tl_size (N.of_nat (length v))) (comp_enc t v ++ r) = v ++ r.
Proof. exact (tl_header t v r). Qed.

Lemma comp_get_type_enc t v : t < two64 -> comp_get_type (comp_enc t v) = Ok t.
Proof. intros H. unfold comp_get_type, comp_enc. now rewrite tl_dec_enc. Qed.

Lemma comp_get_value_enc t v :
  t < two64 -> N.of_nat (length v) < two64 -> comp_get_value (comp_enc t v) = Ok v.
Proof.
  intros Ht Hv. destruct (comp_header t v [] Ht Hv) as (H1 & H2 & H3). rewrite !app_nil_r in *.
  unfold comp_get_value. rewrite H1. cbn [bind snd]. rewrite H2. cbn [bind snd]. now rewrite H3.
Qed.

Lemma comp_to_number_enc t v :
  t < two64 -> N.of_nat (length v) < two64 -> comp_to_number (comp_enc t v) = Ok (be_to_N v).
Proof. intros Ht Hv. unfold comp_to_number. now rewrite comp_get_value_enc. Qed.

Lemma comp_split_enc t v :
  t < two64 -> N.of_nat (length v) < two64 -> comp_split (comp_enc t v) = Ok (t, v).
Proof.
  intros Ht Hv. destruct (comp_header t v [] Ht Hv) as (H1 & H2 & H3). rewrite !app_nil_r in *.
  unfold comp_split. rewrite H1. cbn [bind]. rewrite H2. cbn [bind]. rewrite H3, comp_enc_length.
  now replace (_ =? _) with true by lia.
Qed.

Lemma comp_enc_inj t v t' v' :
  t < two64 -> N.of_nat (length v) < two64 -> t' < two64 -> N.of_nat (length v') < two64 ->
  comp_enc t v = comp_enc t' v' -> t = t' /\ v = v'.
Proof.
  intros Ht Hv Ht' Hv' E. pose proof (comp_split_enc t v Ht Hv) as S.
  rewrite E, comp_split_enc in S by assumption. now injection S.
Qed.

Lemma name_value_length_acc (n : name) a : fold_left (fun a c => (a + length c)%nat) n a = (a + length (concat n))%nat.
Proof.
  revert a; induction n as [|c n IH]; intros a; cbn [fold_left concat]; [cbn; lia|].
  rewrite IH, app_length. lia.
Qed.

Lemma name_value_length_concat (n : name) : name_value_length n = length (concat n).
Proof. unfold name_value_length. rewrite name_value_length_acc. lia. Qed.

Lemma name_encode_tlv n : name_encode n = tlv TYPE_NAME (concat n).
Proof. unfold name_encode, tlv. rewrite name_value_length_concat. reflexivity. Qed.

(* a self-delimiting component; the headers need not be in shortest form *)
Definition comp_form (c : bytes) : Prop :=
  exists t st l sl, (forall r, tl_dec (c ++ r) = Ok (t, st) /\ tl_dec (skipn st (c ++ r)) = Ok (l, sl)) /\
                    length c = (st + sl + N.to_nat l)%nat.

Lemma wf_comp_form c : wf_comp c -> comp_form c.
Proof.
  intros (t & v & -> & Ht & Hv). exists t, (tl_size t), (N.of_nat (length v)), (tl_size (N.of_nat (length v))). split.
  - intros r. destruct (comp_header t v r Ht Hv) as (H1 & H2 & _). split; assumption.
  - rewrite comp_enc_length, Nat2N.id. reflexivity.
Qed.

Lemma decode_loop_step f c tail rem acc used :
  comp_form c -> (Z.of_nat (length c) <= rem)%Z ->
  name_decode_loop (S f) (c ++ tail) rem acc used =
  name_decode_loop f tail (rem - Z.of_nat (length c)) (c :: acc) (used + N.of_nat (length c)).
Proof.
  intros (t & st & l & sl & E & Hl) Hr. destruct (E tail) as (H1 & H2). pose proof (proj1 (tl_dec_ok _ _ _ H1)) as Hp.
  cbn [name_decode_loop]. rewrite (proj2 (Z.leb_gt rem 0)) by lia.
  rewrite H1. cbn [bind snd]. rewrite H2. cbn [bind].
  replace (N.of_nat (st + sl) + l) with (N.of_nat (length c)) by lia.
  rewrite nat_N_Z, (proj2 (Z.ltb_ge _ _) Hr).
  rewrite app_length, Nat2N.inj_add, N.min_l, Nat2N.id by apply N.le_add_r.
  now rewrite firstn_app_exact, skipn_app_exact.
Qed.

Lemma decode_loop_ok n : forall fuel rest acc used,
  Forall comp_form n -> (length n < fuel)%nat ->
  name_decode_loop fuel (concat n ++ rest) (Z.of_nat (length (concat n))) acc used
  = Ok (rev acc ++ n, used + N.of_nat (length (concat n))).
Proof.
  induction n as [|c n IH]; intros fuel rest acc used Hwf Hfuel.
  - cbn [concat length app]. change (Z.of_nat 0) with 0%Z.
    destruct fuel; cbn [name_decode_loop Z.leb Z.compare]; now rewrite app_nil_r, N.add_0_r.
  - apply Forall_cons_iff in Hwf as [Hc Hn].
    destruct fuel as [|fuel]; [inversion Hfuel|]. apply Nat.succ_lt_mono in Hfuel.
    cbn [concat]. rewrite <- app_assoc, app_length, Nat2Z.inj_add.
    rewrite decode_loop_step by (assumption || lia).
    rewrite Z.add_simpl_l, IH by assumption. cbn [rev]. now rewrite <- app_assoc, Nat2N.inj_add, N.add_assoc.
Qed.

Lemma length_concat_ge n : Forall wf_comp n -> (length n <= length (concat n))%nat.
Proof.
  intros H. rewrite <- (Nat.mul_1_l (length n)). apply concat_length_ge. revert H. apply Forall_impl.
  intros c (t & v & -> & _). exact (comp_enc_pos t v).
Qed.

(* C09: decoding the encoding of a name returns the same components and consumes exactly it *)
Theorem name_decode_encode (n : name) (rest : bytes) :
  Forall wf_comp n -> N.of_nat (name_value_length n) < two64 ->
  name_decode (name_encode n ++ rest) = Ok (n, N.of_nat (length (name_encode n))).
Proof.
  intros Hwf Hlen. unfold name_decode. rewrite name_value_length_concat in Hlen. rewrite name_encode_tlv.
  destruct (tl_header TYPE_NAME (concat n) rest eq_refl Hlen) as (H1 & H2 & H3).
  rewrite H1. cbn [bind]. change (TYPE_NAME =? TYPE_NAME) with true. cbn [negb]. rewrite H2. cbn [bind]. rewrite H3.
  pose proof (tlv_length TYPE_NAME (concat n)) as Hl. pose proof (length_concat_ge n Hwf) as Hge.
  replace (_ <? _) with false by (rewrite app_length; lia).
  rewrite nat_N_Z, decode_loop_ok by (exact (Forall_impl _ wf_comp_form Hwf) || rewrite app_length; lia).
  cbn [rev app]. do 2 f_equal. lia.
Qed.

Theorem name_is_prefix_spec (a b : name) :
  name_is_prefix a b = true <-> exists r, b = a ++ r.
Proof.
  unfold name_is_prefix. rewrite andb_true_iff, Nat.leb_le, name_eqb_spec. split.
  - intros [Hl He]. exists (skipn (length a) b). rewrite He at 1. symmetry. apply firstn_skipn.
  - intros [r ->]. rewrite app_length, firstn_app_exact. split; [lia|reflexivity].
Qed.
