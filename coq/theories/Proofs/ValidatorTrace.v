(* C14 — the certificate Interests a validation sends: exactly the key-locator path, from the packet
   upwards, cut where the validator stops; never the trust anchor's name. *)
From NDN Require Import Base.Prelude Model.Validator Model.ValidatorConc Proofs.ValidatorProofs Proofs.ValidatorExamples.
Local Open Scope nat_scope.

Fixpoint kl_path (w : world) (n : nat) (p : pkt) : list vname :=
  match n with
  | O => []
  | S n' =>
      match key_locator p with
      | None => []
      | Some cn => cn :: match w_fetch w cn with FData d => kl_path w n' d | _ => [] end
      end
  end.

Lemma kl_path_length w : forall n q, length (kl_path w n q) <= n.
Proof.
  induction n as [|n IHn]; intros q; cbn; [lia|].
  destruct (key_locator q) as [cn|]; cbn; [|lia]. destruct (w_fetch w cn) as [d| | |]; cbn; try lia.
  specialize (IHn d). lia.
Qed.

Theorem interests_sent w c : forall fuel st p r st' tr,
  validate w c fuel st p = (r, st', tr) ->
  (exists m, tr = firstn m (kl_path w fuel p)) /\ ~ In (c_anchor_name c) tr /\ length tr <= fuel.
Proof.
  enough (forall fuel st p r st' tr, validate w c fuel st p = (r, st', tr) ->
                                     (exists m, tr = firstn m (kl_path w fuel p)) /\ ~ In (c_anchor_name c) tr) as Main.
  { intros fuel st p r st' tr H. destruct (Main _ _ _ _ _ _ H) as [(m & ->) A]. repeat split; [eauto | exact A|].
    rewrite firstn_length. pose proof (kl_path_length w fuel p). lia. }
  induction fuel as [fuel IH] using lt_wf_ind. intros st p r st' tr H. rewrite validate_local in H.
  destruct (local_verdict w c st p) as [r0|cn] eqn:LV.
  { injection H as _ _ <-. split; [exists 0; reflexivity | apply in_nil]. }
  apply local_verdict_inr in LV as (KL & _ & NE & _).
  destruct fuel as [|f]; [injection H as _ _ <-; split; [exists 0; reflexivity | apply in_nil]|].
  cbn [kl_path]. rewrite KL.
  assert (Cons : forall tri, ~ In (c_anchor_name c) tri -> ~ In (c_anchor_name c) (cn :: tri)).
  { intros tri Hn [E|E]; [congruence | contradiction]. }
  destruct (w_fetch w cn) as [d| | |e]; try (injection H as _ _ <-; split; [exists 1; reflexivity | apply Cons, in_nil]).
  destruct (validate w c f st d) as [[ri st1] tri] eqn:V. destruct (unwind w d ri [(p, cn)] st1).
  injection H as _ _ <-. destruct (IH f (Nat.lt_succ_diag_r f) _ _ _ _ _ V) as [(m & ->) A].
  split; [exists (S m); reflexivity | exact (Cons _ A)].
Qed.

Lemma no_interest_for_anchor w c fuel st p cn r st' tr :
  key_locator p = Some cn -> cn = c_anchor_name c -> validate w c fuel st p = (r, st', tr) -> tr = [] /\ st' = st.
Proof.
  intros KL -> H. destruct (local_verdict w c st p) as [r0|cn] eqn:LV.
  - rewrite (validate_no_fetch _ _ _ _ _ _ LV) in H. injection H as _ <- <-. auto.
  - apply local_verdict_inr in LV as (KL' & _ & NE & _). congruence.
Qed.

Example ex_trace : kl_path ex_world 3 P = [nC; nA] /\ snd (validate ex_world cfg1 3 [] P) = [nC].
Proof. vm_compute. split; reflexivity. Qed.
