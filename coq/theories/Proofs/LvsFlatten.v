(* [flatten] lays an inductive pattern tree out as a node pool: every subtree is realised at its index and every
   pool node holds a subtree ([flatten_layout]); matching on a model that mirrors the pool (Spec/LvsTree.path)
   is matching on the inductive tree ([tpath]; [realizes_path_fwd], [realizes_path_bwd]).  Of the rule chains
   that end at a node only the identifiers and signer lists are read ([realizes]). *)
From NDN Require Import Base.Prelude Model.LvsAst Model.LvsCompiler Spec.LvsTree Proofs.ListLemmas Proofs.LvsSanity.
Local Open Scope N_scope.

Scheme ptree_mind := Induction for ptree Sort Prop
  with vlist_mind := Induction for vlist Sort Prop
  with plist_mind := Induction for plist Sort Prop.
Combined Scheme ptree_mutind from ptree_mind, vlist_mind, plist_mind.

Definition t_ended (t : ptree) : list chain := match t with PNode e _ _ => e end.

Fixpoint vfind (v : bytes) (l : vlist) : option ptree :=
  match l with
  | VNil => None
  | VCons x t r => if bytes_eqb v x then Some t else vfind v r
  end.

Inductive pin (tag : Z) (cs : list pcons) (t : ptree) : plist -> Prop :=
| pin_here r : pin tag cs t (PCons tag cs t r)
| pin_later tag' cs' t' r : pin tag cs t r -> pin tag cs t (PCons tag' cs' t' r).

Inductive vin (v : bytes) (t : ptree) : vlist -> Prop :=
| vin_here r : vin v t (VCons v t r)
| vin_later v' t' r : vin v t r -> vin v t (VCons v' t' r).

Lemma vin_of v t vs : vin v t (vlist_of vs) <-> In (v, t) vs.
Proof.
  induction vs as [|[x y] r IH]; cbn; (split; [intros H; inversion H; subst|]); try tauto.
  intros [H|H]; [inversion H; subst; constructor | constructor; apply IH, H].
Qed.

Lemma pin_of tag cs child ps : pin tag cs child (plist_of ps) <-> In (tag, cs, child) ps.
Proof.
  induction ps as [|[[tg c0] t] r IH]; cbn.
  - split; [intros H; inversion H | intros []].
  - split.
    + intros H. inversion H; subst; [left; reflexivity | right; apply IH; assumption].
    + intros [H|H]; [inversion H; subst; constructor | constructor; apply IH; exact H].
Qed.

Inductive subtree (t' : ptree) : ptree -> Prop :=
| st_refl : subtree t' t'
| st_v ended vs ps v child : vin v child vs -> subtree t' child -> subtree t' (PNode ended vs ps)
| st_p ended vs ps tag cs child : pin tag cs child ps -> subtree t' child -> subtree t' (PNode ended vs ps).

Section TPath.
  Variable ufn : ident -> option (bytes -> list (option bytes) -> res bool).

  (* a tag >= 0 is a named pattern, a negative one temporary *)
  Definition tstep (tag : Z) (cs : list pcons) (v : bytes) (c c' : tctx) : Prop :=
    cnf_true ufn v c cs /\
    if (0 <=? tag)%Z then
      match tget c (Z.to_N tag) with
      | Some w => v = w /\ c' = c
      | None => c' = c ++ [(Z.to_N tag, v)]
      end
    else c' = c.

  Inductive tpath : ptree -> list bytes -> tctx -> ptree -> tctx -> Prop :=
  | tp_end t c : tpath t [] c t c
  | tp_value ended vs ps v rest c child t' c' :
      vfind v vs = Some child -> tpath child rest c t' c' -> tpath (PNode ended vs ps) (v :: rest) c t' c'
  | tp_pattern ended vs ps v rest c tag cs child c1 t' c' :
      pin tag cs child ps -> tstep tag cs v c c1 -> tpath child rest c1 t' c' ->
      tpath (PNode ended vs ps) (v :: rest) c t' c'.
End TPath.

Section Realizes.
  Variable npc : N.
  Variable pool : list gnode.

  Definition etag_ok (tag : Z) (etag : N) : Prop :=
    ((0 <= tag)%Z /\ etag = Z.to_N tag) \/ ((tag < 0)%Z /\ npc < etag).

  Inductive realizes : ptree -> nat -> option N -> Prop :=
  | R_node ended vs ps id parent g :
      nth_error pool id = Some g -> g_parent g = parent -> g_rule g = map ch_id ended -> g_sign g = flat_map ch_sign ended ->
      realizes_vs vs id (g_vedges g) -> realizes_ps ps id (g_pedges g) ->
      realizes (PNode ended vs ps) id parent
  with realizes_vs : vlist -> nat -> list vedge -> Prop :=
  | RV_nil src : realizes_vs VNil src []
  | RV_cons v t r src cid es :
      realizes t cid (Some (N.of_nat src)) -> realizes_vs r src es ->
      realizes_vs (VCons v t r) src ({| ve_dest := Some (N.of_nat cid); ve_value := Some v |} :: es)
  with realizes_ps : plist -> nat -> list pedge -> Prop :=
  | RP_nil src : realizes_ps PNil src []
  | RP_cons tag cs t r src cid etag es :
      realizes t cid (Some (N.of_nat src)) -> etag_ok tag etag -> realizes_ps r src es ->
      realizes_ps (PCons tag cs t r) src ({| pe_dest := Some (N.of_nat cid); pe_tag := Some etag; pe_cons := cs |} :: es).
End Realizes.

Lemma realizes_weaken npc pool pool' :
  (forall i g, nth_error pool i = Some g -> nth_error pool' i = Some g) ->
  (forall t id p, realizes npc pool t id p -> realizes npc pool' t id p).
Proof.
  intros Hsub.
  fix IH 4. intros t id p H. destruct H as [ended vs ps id parent g Hn Hp Hr Hs Hv Hps].
  econstructor; eauto.
  - clear - IH Hv. induction Hv; constructor; auto.
  - clear - IH Hps. induction Hps; econstructor; eauto.
Qed.

Fixpoint tsize (t : ptree) : nat :=
  match t with PNode _ vs ps => S (vsize vs + psize ps) end
with vsize (l : vlist) : nat :=
  match l with VNil => O | VCons _ t r => (tsize t + vsize r)%nat end
with psize (l : plist) : nat :=
  match l with PNil => O | PCons _ _ t r => (tsize t + psize r)%nat end.

Definition node_of (g : gnode) (ended : list chain) : Prop :=
  g_rule g = map ch_id ended /\ g_sign g = flat_map ch_sign ended.

Definition holds (t : ptree) (g : gnode) : Prop := exists t', subtree t' t /\ node_of g (t_ended t').

Lemma holds_v {ended vs ps v c g} : vin v c vs -> holds c g -> holds (PNode ended vs ps) g.
Proof. intros Hv (t' & Hs & Hn). exists t'. split; [eapply st_v; eauto | exact Hn]. Qed.
Lemma holds_p {ended vs ps tag cs c g} : pin tag cs c ps -> holds c g -> holds (PNode ended vs ps) g.
Proof. intros Hp (t' & Hs & Hn). exists t'. split; [eapply st_p; eauto | exact Hn]. Qed.

Lemma flatten_layout npc :
  (forall t pre post parent tti sub tti',
      flatten t parent (length pre) tti = (sub, tti') -> npc <= tti ->
      realizes npc (pre ++ sub ++ post) t (length pre) parent /\ length sub = tsize t /\ tti <= tti' /\ Forall (holds t) sub) /\
  (forall vs pre post src tti es subs nid' tti',
      flatten_vs vs src (length pre) tti = (es, subs, nid', tti') -> npc <= tti ->
      realizes_vs npc (pre ++ subs ++ post) vs src es /\ length subs = vsize vs /\
      nid' = (length pre + length subs)%nat /\ tti <= tti' /\
      Forall (fun g => exists v c, vin v c vs /\ holds c g) subs) /\
  (forall ps pre post src tti es subs nid' tti',
      flatten_ps ps src (length pre) tti = (es, subs, nid', tti') -> npc <= tti ->
      realizes_ps npc (pre ++ subs ++ post) ps src es /\ length subs = psize ps /\
      nid' = (length pre + length subs)%nat /\ tti <= tti' /\
      Forall (fun g => exists tag cs c, pin tag cs c ps /\ holds c g) subs).
Proof.
  apply ptree_mutind.
  - intros ended vs IHv ps IHp pre post parent tti sub tti' H Hle. cbn [flatten] in H.
    destruct (flatten_vs vs (length pre) (S (length pre)) tti) as [[[ves sub1] nid1] tti1] eqn:Ev.
    destruct (flatten_ps ps (length pre) nid1 tti1) as [[[pes sub2] nid2] tti2] eqn:Ep.
    injection H as <- <-.
    set (g := {| g_parent := parent; g_rule := map ch_id ended; g_vedges := ves; g_pedges := pes; g_sign := flat_map ch_sign ended |}).
    replace (S (length pre)) with (length (pre ++ [g])) in Ev by (rewrite app_length; cbn; lia).
    destruct (IHv (pre ++ [g]) (sub2 ++ post) _ _ _ _ _ _ Ev Hle) as (Rv & Lv & -> & Tv & Fv).
    rewrite <- app_length in Ep.
    destruct (IHp ((pre ++ [g]) ++ sub1) post _ _ _ _ _ _ Ep) as (Rp & Lp & _ & Tp & Fp); [lia|].
    rewrite <- app_assoc in Rv. rewrite <- !app_assoc in Rp. cbn [app] in Rv, Rp |- *. rewrite <- app_assoc.
    split; [|split; [cbn [length tsize]; rewrite app_length; lia | split; [lia|]]].
    + apply (R_node npc _ ended vs ps (length pre) parent g); try reflexivity; [|exact Rv | exact Rp].
      rewrite nth_error_app2, Nat.sub_diag by lia. reflexivity.
    + constructor; [exists (PNode ended vs ps); split; [apply st_refl | split; reflexivity]|]. apply Forall_app. split.
      * eapply Forall_impl; [|exact Fv]. intros g0 (v & c & Hv & Hh). exact (holds_v Hv Hh).
      * eapply Forall_impl; [|exact Fp]. intros g0 (tag & cs & c & Hp & Hh). exact (holds_p Hp Hh).
  - intros pre post src tti es subs nid' tti' H Hle. injection H as <- <- <- <-.
    split; [constructor | cbn; repeat split; try lia; constructor].
  - intros v t IHt r IHr pre post src tti es subs nid' tti' H Hle. cbn [flatten_vs] in H.
    destruct (flatten t (Some (N.of_nat src)) (length pre) tti) as [sub tti1] eqn:Et.
    destruct (flatten_vs r src (length pre + length sub) tti1) as [[[es0 subs0] nid0] tti0] eqn:Er.
    injection H as <- <- <- <-.
    destruct (IHt pre (subs0 ++ post) _ _ _ _ Et Hle) as (Rt & Lt & Tt & Ft).
    rewrite <- app_length in Er.
    destruct (IHr (pre ++ sub) post _ _ _ _ _ _ Er) as (Rr & Lr & -> & Tr & Fr); [lia|].
    rewrite <- app_assoc in Rr |- *.
    split; [constructor; assumption|]. rewrite !app_length. cbn [vsize]. repeat split; try lia. apply Forall_app. split.
    + eapply Forall_impl; [|exact Ft]. intros g0 Hh. exists v, t. split; [constructor | exact Hh].
    + eapply Forall_impl; [|exact Fr]. intros g0 (v' & c & Hv & Hh). exists v', c. split; [constructor; exact Hv | exact Hh].
  - intros pre post src tti es subs nid' tti' H Hle. injection H as <- <- <- <-.
    split; [constructor | cbn; repeat split; try lia; constructor].
  - intros tag cs t IHt r IHr pre post src tti es subs nid' tti' H Hle. cbn [flatten_ps] in H.
    assert (Hok : exists etag tti0, (if (0 <=? tag)%Z then (Z.to_N tag, tti) else (tti + 1, tti + 1)) = (etag, tti0) /\
                    npc <= tti0 /\ tti <= tti0 /\ etag_ok npc tag etag).
    { unfold etag_ok. destruct (Z.leb_spec 0 tag); eexists _, _; (split; [reflexivity|]); lia. }
    destruct Hok as (etag & tti0 & Ee & Hle0 & Hle1 & Hok). rewrite Ee in H.
    destruct (flatten t (Some (N.of_nat src)) (length pre) tti0) as [sub tti1] eqn:Et.
    destruct (flatten_ps r src (length pre + length sub) tti1) as [[[es0 subs0] nid0] tti2] eqn:Er.
    injection H as <- <- <- <-.
    destruct (IHt pre (subs0 ++ post) _ _ _ _ Et Hle0) as (Rt & Lt & Tt & Ft).
    rewrite <- app_length in Er.
    destruct (IHr (pre ++ sub) post _ _ _ _ _ _ Er) as (Rr & Lr & -> & Tr & Fr); [lia|].
    rewrite <- app_assoc in Rr |- *.
    split; [constructor; assumption|]. rewrite !app_length. cbn [psize]. repeat split; try lia. apply Forall_app. split.
    + eapply Forall_impl; [|exact Ft]. intros g0 Hh. exists tag, cs, t. split; [constructor | exact Hh].
    + eapply Forall_impl; [|exact Fr]. intros g0 (tag' & cs' & c & Hp & Hh). exists tag', cs', c. split; [constructor; exact Hp | exact Hh].
Qed.

Lemma flatten_root npc t : realizes npc (fst (flatten t None O npc)) t O None.
Proof.
  destruct (flatten t None O npc) as [sub tti'] eqn:Ef. cbn [fst].
  destruct (proj1 (flatten_layout npc) t [] [] None npc sub tti' Ef (N.le_refl _)) as (Hr & _).
  cbn [app length] in Hr. rewrite app_nil_r in Hr. exact Hr.
Qed.

Lemma pool_node_holds npc t g : In g (fst (flatten t None O npc)) -> holds t g.
Proof.
  destruct (flatten t None O npc) as [sub tti'] eqn:Ef. cbn [fst].
  destruct (proj1 (flatten_layout npc) t [] [] None npc sub tti' Ef (N.le_refl _)) as (_ & _ & _ & F).
  rewrite Forall_forall in F. apply F.
Qed.

(* a model whose nodes are those of the pool (everything but the signer lists) *)
Definition mirrors (m : lvsmodel) (pool : list gnode) : Prop :=
  length (m_nodes m) = length pool /\
  forall i g, nth_error pool i = Some g ->
    exists nd, nth_error (m_nodes m) i = Some nd /\ n_id nd = Some (N.of_nat i) /\ n_parent nd = g_parent g /\
               n_rule nd = g_rule g /\ n_vedges nd = g_vedges g /\ n_pedges nd = g_pedges g.

Lemma mirrors_get m pool i g : mirrors m pool -> nth_error pool i = Some g ->
  exists nd, get_node m (N.of_nat i) = Some nd /\ n_id nd = Some (N.of_nat i) /\ n_parent nd = g_parent g /\
             n_rule nd = g_rule g /\ n_vedges nd = g_vedges g /\ n_pedges nd = g_pedges g.
Proof.
  intros [Hl Hm] Hn. destruct (Hm i g Hn) as (nd & Hnd & Hrest). exists nd. split; [|exact Hrest].
  rewrite get_node_nth, Nat2N.id. exact Hnd.
Qed.

Lemma mirrors_get_inv m pool j nd : mirrors m pool -> get_node m j = Some nd ->
  exists g, nth_error pool (N.to_nat j) = Some g /\ n_id nd = Some j /\ n_rule nd = g_rule g.
Proof.
  intros [Hl Hall] Hg. rewrite get_node_nth in Hg.
  assert (Hlt : (N.to_nat j < length pool)%nat) by (rewrite <- Hl; apply nth_error_Some; congruence).
  destruct (nth_error pool (N.to_nat j)) as [g|] eqn:Eg; [|apply nth_error_None in Eg; lia].
  destruct (Hall _ _ Eg) as (nd' & Hnd' & Hid & _ & Hru & _). rewrite Hg in Hnd'. injection Hnd' as <-.
  exists g. rewrite Hid, N2Nat.id. auto.
Qed.

Lemma realizes_node {m pool npc ended vs ps id parent} : mirrors m pool -> realizes npc pool (PNode ended vs ps) id parent ->
  exists nd, get_node m (N.of_nat id) = Some nd /\ n_id nd = Some (N.of_nat id) /\ n_parent nd = parent /\
    n_rule nd = map ch_id ended /\ realizes_vs npc pool vs id (n_vedges nd) /\ realizes_ps npc pool ps id (n_pedges nd).
Proof.
  intros Hmir H. inversion H as [? ? ? ? ? g Hn Hpar Hru _ Hvs Hps]; subst.
  destruct (mirrors_get _ _ _ _ Hmir Hn) as (nd & Hg & Hid & Hp & Hr & Ev & Ep).
  exists nd. rewrite Ev, Ep, Hr, Hp. auto 7.
Qed.

Section PathEquiv.
  Variable ufn : ident -> option (bytes -> list (option bytes) -> res bool).
  Variable m : lvsmodel.
  Variable pool : list gnode.
  Variable npc : N.
  Hypothesis Hnpc : m_npc m = Some npc.
  Hypothesis Hmir : mirrors m pool.

  Definition ctx_named (c : tctx) : Prop := forall t, npc < t -> tget c t = None.

  Fixpoint ttags_ok (t : ptree) : Prop :=
    match t with PNode _ vs ps => vtags_ok vs /\ ptags_ok ps end
  with vtags_ok (l : vlist) : Prop :=
    match l with VNil => True | VCons _ t r => ttags_ok t /\ vtags_ok r end
  with ptags_ok (l : plist) : Prop :=
    match l with PNil => True | PCons tag _ t r => ((0 <= tag)%Z -> Z.to_N tag <= npc) /\ ttags_ok t /\ ptags_ok r end.

  Lemma vfind_tags {v vs child} : vtags_ok vs -> vfind v vs = Some child -> ttags_ok child.
  Proof.
    induction vs as [|x t r IH]; cbn; [discriminate|]. intros [Ht Hr]. destruct (bytes_eqb v x).
    - intros E; inversion E; subst; exact Ht.
    - apply IH, Hr.
  Qed.

  Lemma pin_tags {tag cs child ps} : ptags_ok ps -> pin tag cs child ps ->
    ((0 <= tag)%Z -> Z.to_N tag <= npc) /\ ttags_ok child.
  Proof. intros H Hp. induction Hp; cbn in H; destruct H as (H1 & H2 & H3); auto. Qed.

  Lemma is_named_iff t : is_named m t <-> t <= npc.
  Proof.
    unfold is_named. rewrite Hnpc. split.
    - intros (k & E & L). inversion E; subst; exact L.
    - intros L. exists npc. auto.
  Qed.

  Lemma pass_tstep {tag etag cs} d {v c c'} :
    etag_ok npc tag etag -> ((0 <= tag)%Z -> Z.to_N tag <= npc) -> ctx_named c ->
    (pedge_pass ufn m {| pe_dest := d; pe_tag := Some etag; pe_cons := cs |} v c c' <-> tstep ufn tag cs v c c').
  Proof.
    intros Hok Htag Hc. unfold tstep.
    transitivity (cnf_true ufn v c cs /\
                  match tget c etag with
                  | Some w => v = w /\ c' = c
                  | None => (is_named m etag /\ c' = c ++ [(etag, v)]) \/ (~ is_named m etag /\ c' = c)
                  end).
    { unfold pedge_pass. cbn [pe_tag pe_cons]. split; [intros (t & Et & H); inversion Et; subst; exact H | eauto]. }
    apply and_iff_compat_l. destruct Hok as [[Hpos ->]|[Hneg Hgt]].
    - (* a named pattern: bound on first sight *)
      destruct (Z.leb_spec 0 tag); [|lia]. specialize (Htag Hpos).
      destruct (tget c (Z.to_N tag)); [reflexivity|]. rewrite is_named_iff. intuition lia.
    - (* a temporary pattern: its tag is above every named one and never bound *)
      destruct (Z.leb_spec 0 tag); [lia|]. rewrite (Hc etag Hgt), is_named_iff. intuition lia.
  Qed.

  Lemma tstep_named {tag cs v c c'} :
    ((0 <= tag)%Z -> Z.to_N tag <= npc) -> ctx_named c -> tstep ufn tag cs v c c' -> ctx_named c'.
  Proof.
    intros Htag Hc (_ & Hb). destruct (Z.leb_spec 0 tag) as [Hpos|Hneg]; [|subst; exact Hc].
    destruct (tget c (Z.to_N tag)); [destruct Hb as [_ ->]; exact Hc|]. subst c'.
    intros t Ht. unfold tget. rewrite (al_get_app N.eqb). fold (tget c t). rewrite (Hc t Ht). specialize (Htag Hpos).
    cbn. destruct (N.eqb_spec t (Z.to_N tag)); [lia | reflexivity].
  Qed.

  Lemma vfind_realizes v {vs src ves} : realizes_vs npc pool vs src ves ->
    match find (fun e => match ve_value e with Some x => bytes_eqb v x | None => false end) ves with
    | Some ve => exists child cid, vfind v vs = Some child /\ ve_dest ve = Some (N.of_nat cid) /\
                                   realizes npc pool child cid (Some (N.of_nat src))
    | None => vfind v vs = None
    end.
  Proof.
    induction 1 as [|x t r src cid es Ht Hr IH]; cbn; [reflexivity|].
    destruct (bytes_eqb v x); [|exact IH]. exists t, cid. auto.
  Qed.

  Lemma vin_realizes vs src es : realizes_vs npc pool vs src es ->
    (forall ve, In ve es -> exists v child cid,
        vin v child vs /\ ve = {| ve_dest := Some (N.of_nat cid); ve_value := Some v |} /\ realizes npc pool child cid (Some (N.of_nat src))) /\
    (forall v child, vin v child vs -> exists cid,
        In {| ve_dest := Some (N.of_nat cid); ve_value := Some v |} es /\ realizes npc pool child cid (Some (N.of_nat src))).
  Proof.
    induction 1 as [|x t r src cid es Ht Hr [IH1 IH2]]; split.
    - intros ve [].
    - intros v child Hv. inversion Hv.
    - intros ve [<-|Hin]; [exists x, t, cid; repeat split; auto; constructor|].
      destruct (IH1 ve Hin) as (v & child & c & Hv & E & Hc). exists v, child, c. repeat split; auto. constructor. exact Hv.
    - intros v child Hv. inversion Hv; subst; [exists cid; split; [left; reflexivity | exact Ht]|].
      destruct (IH2 v child H0) as (c & Hin & Hc). exists c. split; [right; exact Hin | exact Hc].
  Qed.

  Lemma pin_realizes ps src pes : realizes_ps npc pool ps src pes ->
    (forall pe, In pe pes -> exists tag cs child cid etag,
        pin tag cs child ps /\ pe = {| pe_dest := Some (N.of_nat cid); pe_tag := Some etag; pe_cons := cs |} /\
        etag_ok npc tag etag /\ realizes npc pool child cid (Some (N.of_nat src))) /\
    (forall tag cs child, pin tag cs child ps -> exists cid etag,
        In {| pe_dest := Some (N.of_nat cid); pe_tag := Some etag; pe_cons := cs |} pes /\
        etag_ok npc tag etag /\ realizes npc pool child cid (Some (N.of_nat src))).
  Proof.
    induction 1 as [|tag0 cs0 t r src cid etag es Ht Hok Hr [IH1 IH2]]; split.
    - intros pe [].
    - intros tag cs child Hp. inversion Hp.
    - intros pe [<-|Hin].
      + exists tag0, cs0, t, cid, etag. repeat split; auto. constructor.
      + destruct (IH1 pe Hin) as (tag & cs & child & cid' & etag' & Hp & E & Hk & Hrz).
        exists tag, cs, child, cid', etag'. repeat split; auto. constructor; exact Hp.
    - intros tag cs child Hp. inversion Hp; subst.
      + exists cid, etag. repeat split; auto. left; reflexivity.
      + destruct (IH2 _ _ _ H0) as (cid' & etag' & Hin & Hk & Hrz). exists cid', etag'. repeat split; auto. right; exact Hin.
  Qed.

  Lemma realizes_path_fwd : forall name t id parent c n c',
    realizes npc pool t id parent -> ttags_ok t -> ctx_named c ->
    path ufn m (N.of_nat id) name c n c' ->
    exists t' k p', n = N.of_nat k /\ tpath ufn t name c t' c' /\ realizes npc pool t' k p' /\ ctx_named c'.
  Proof.
    induction name as [|v rest IH]; intros t id parent c n c' Hrz Htg Hc Hp.
    - inversion Hp; subst. exists t, id, parent. repeat split; auto. constructor.
    - destruct t as [ended vs ps]. destruct (realizes_node Hmir Hrz) as (nd & Hg & _ & _ & _ & Hvs & Hps).
      destruct Htg as [Hvt Hpt].
      inversion Hp as [ | ? nd0 ? ? ? ve d ? ? Hg0 Ht Hd Hrest | ? nd0 ? ? ? pe d c1 ? ? Hg0 Hin Hpass Hd Hrest ]; subst;
        rewrite Hg in Hg0; inversion Hg0; subst nd0.
      + pose proof (vfind_realizes v Hvs) as Hf. unfold vedge_taken in Ht. rewrite Ht in Hf.
        destruct Hf as (child & cid & Hvf & Hd' & Hrc). rewrite Hd in Hd'. inversion Hd'; subst d.
        destruct (IH child cid _ c n c' Hrc (vfind_tags Hvt Hvf) Hc Hrest) as (t' & k & p' & En & Htp & Hrz' & Hc').
        exists t', k, p'. repeat split; auto. eapply tp_value; eauto.
      + destruct (proj1 (pin_realizes _ _ _ Hps) pe Hin) as (tag & cs & child & cid & etag & Hpin & -> & Hok & Hrc).
        cbn in Hd. inversion Hd; subst d.
        destruct (pin_tags Hpt Hpin) as [Htag Hct].
        apply (pass_tstep _ Hok Htag Hc) in Hpass.
        pose proof (tstep_named Htag Hc Hpass) as Hc1.
        destruct (IH child cid _ c1 n c' Hrc Hct Hc1 Hrest) as (t' & k & p' & En & Htp & Hrz' & Hc').
        exists t', k, p'. repeat split; auto. eapply tp_pattern; eauto.
  Qed.

  Lemma realizes_path_bwd : forall name t id parent c t' c',
    realizes npc pool t id parent -> ttags_ok t -> ctx_named c ->
    tpath ufn t name c t' c' ->
    exists k p', path ufn m (N.of_nat id) name c (N.of_nat k) c' /\ realizes npc pool t' k p'.
  Proof.
    induction name as [|v rest IH]; intros [ended vs ps] id parent c t' c' Hrz Htg Hc Hp;
      destruct (realizes_node Hmir Hrz) as (nd & Hg & _ & _ & _ & Hvs & Hps).
    - inversion Hp; subst. exists id, parent. split; [eapply path_end; eauto | exact Hrz].
    - destruct Htg as [Hvt Hpt].
      inversion Hp as [ | ? ? ? ? ? ? child ? ? Hvf Hrest | ? ? ? ? ? ? tag cs child c1 ? ? Hpin Hstep Hrest ]; subst.
      + pose proof (vfind_realizes v Hvs) as Hf.
        destruct (find _ (n_vedges nd)) as [ve|] eqn:Efind; [|rewrite Hf in Hvf; discriminate].
        destruct Hf as (child' & cid & Hvf' & Hd & Hrc). rewrite Hvf in Hvf'. inversion Hvf'; subst child'.
        destruct (IH child cid _ c t' c' Hrc (vfind_tags Hvt Hvf) Hc Hrest) as (k & p' & Hpath & Hrz').
        exists k, p'. split; [|exact Hrz']. eapply path_value; eauto.
      + destruct (proj2 (pin_realizes _ _ _ Hps) _ _ _ Hpin) as (cid & etag & Hin & Hok & Hrc).
        destruct (pin_tags Hpt Hpin) as [Htag Hct].
        pose proof (tstep_named Htag Hc Hstep) as Hc1.
        destruct (IH child cid _ c1 t' c' Hrc Hct Hc1 Hrest) as (k & p' & Hpath & Hrz').
        exists k, p'. split; [|exact Hrz'].
        eapply path_pattern; eauto.
        * apply (pass_tstep (Some (N.of_nat cid)) Hok Htag Hc). exact Hstep.
        * reflexivity.
  Qed.
End PathEquiv.

(* R: any relation that follows the edges of the pool; reachability in the model, for one *)
Lemma realizes_subtree_rel npc pool (R : nat -> nat -> Prop) :
  (forall i, R i i) ->
  (forall i g c k, nth_error pool i = Some g -> In (Some (N.of_nat c)) (map ve_dest (g_vedges g) ++ map pe_dest (g_pedges g)) ->
                   R c k -> R i k) ->
  forall t t', subtree t' t -> forall id p, realizes npc pool t id p -> exists k p', realizes npc pool t' k p' /\ R id k.
Proof.
  intros Hrefl Hstep. induction 1 as [|ended vs ps v child Hv Hst IH|ended vs ps tag cs child Hp Hst IH]; intros id p Hrz.
  - exists id, p. auto.
  - inversion Hrz as [? ? ? ? ? g Hn Hpar Hru Hsi Hvs Hps]; subst.
    destruct (proj2 (vin_realizes _ _ _ _ _ Hvs) _ _ Hv) as (cid & Hin & Hc). destruct (IH _ _ Hc) as (k & p' & Hk & Hr).
    exists k, p'. split; [exact Hk|]. eapply Hstep; [exact Hn | apply in_or_app; left; exact (in_map ve_dest _ _ Hin) | exact Hr].
  - inversion Hrz as [? ? ? ? ? g Hn Hpar Hru Hsi Hvs Hps]; subst.
    destruct (pin_realizes _ _ _ _ _ Hps) as [_ H2]. destruct (H2 _ _ _ Hp) as (cid & etag & Hin & _ & Hc).
    destruct (IH _ _ Hc) as (k & p' & Hk & Hr). exists k, p'. split; [exact Hk|].
    eapply Hstep; [exact Hn | apply in_or_app; right; exact (in_map pe_dest _ _ Hin) | exact Hr].
Qed.
