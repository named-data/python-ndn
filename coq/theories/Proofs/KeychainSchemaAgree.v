(* T1 tie for C15: the schema re-read from keychain_sqlite3.INITIALIZE_SQL on this run (through SQLite itself)
   is the one Model/Keychain.v implements.

   What the model relies on, per table (identities / keys / certificates are three instances of one [row] table):
   * INTEGER PRIMARY KEY without AUTOINCREMENT        -> [next_id] = max(rowid)+1, ids are reused;
   * UNIQUE index on the name                          -> [r_insert] refuses an existing name (IntegrityError);
   * is_default DEFAULT 0 and BEFORE INSERT WHEN NEW.is_default=1
                                                       -> never fires for the INSERTs of the code (they do not set the flag);
   * AFTER INSERT WHEN no default in the scope of NEW: set is_default=1 where name=NEW.name
                                                       -> [r_insert] makes the new row the default iff its scope has none;
   * BEFORE UPDATE WHEN NEW.is_default=1 AND OLD.is_default=0: clear the scope of NEW
                                                       -> [r_set_default] clears the scope, then sets the row;
   * no trigger on DELETE, foreign keys not enforced   -> deletes are plain filters; the code cascades by hand;
   * scope column (identity_id / key_id) NOT NULL      -> [sql_insert_cert] with an unknown key is an IntegrityError. *)
From NDN Require Import Base.Prelude Model.Keychain.
From NDN Require Generated.KeychainSchema.
Local Open Scope N_scope.

(* trigger = (timing, event, condition, action); table = (id, AUTOINCREMENT, scope column, scope column NOT NULL,
   UNIQUE index on the name, DEFAULT of is_default, triggers); the codes are listed in Generated/KeychainSchema.v *)
Definition before_insert_new_default : Generated.KeychainSchema.trigger := (0, 0, 0, 0).
Definition before_update_becomes_default : Generated.KeychainSchema.trigger := (0, 1, 2, 0).
Definition after_insert_no_default : Generated.KeychainSchema.trigger := (1, 0, 1, 1).
Definition modelled_triggers := [before_insert_new_default; before_update_becomes_default; after_insert_no_default].

Definition modelled_schema : list Generated.KeychainSchema.table * bool :=
  ([ (0, false, 0, false, true, 0, modelled_triggers);     (* identities: one scope for the whole table *)
     (1, false, 1, true, true, 0, modelled_triggers);      (* keys: scope = identity_id                  *)
     (2, false, 2, true, true, 0, modelled_triggers) ],    (* certificates: scope = key_id               *)
   false).                                                  (* SQLite does not cascade deletes             *)

Lemma schema_agrees : Generated.KeychainSchema.schema = modelled_schema.
Proof. reflexivity. Qed.
