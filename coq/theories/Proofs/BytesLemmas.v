(* What all codec proofs use, in this order: [bind] on results that are Ok, [wf_bytes], big-endian numbers and their
   round trips; of Model/Name.v the traversal [rmap] of a list in the res monad and the equality test [name_eqb].
   Re-exports the list facts of ListLemmas.v. *)
From NDN Require Import Base.Prelude Model.Name.
From NDN Require Export Proofs.ListLemmas.
Local Open Scope N_scope.

Lemma bind_ok {A B} (r : res A) (f : A -> res B) b : bind r f = Ok b -> exists a, r = Ok a /\ f a = Ok b.
Proof. destruct r as [a|]; [exists a; split; [reflexivity|assumption] | discriminate]. Qed.

Lemma bind_ok_mono {A B} (r r' : res A) (k : A -> res B) b :
  (forall a, r = Ok a -> r' = Ok a) -> bind r k = Ok b -> bind r' k = Ok b.
Proof. intros H. destruct r as [a|]; [|discriminate]. rewrite (H a eq_refl). exact (fun h => h). Qed.

Lemma bind_ok_iff {A B} (r r' : res A) (k : A -> res B) b :
  (forall a, r = Ok a <-> r' = Ok a) -> (bind r k = Ok b <-> bind r' k = Ok b).
Proof. intros H. split; apply bind_ok_mono; intros a; apply H. Qed.

(* unlike [injection] it leaves both sides as they are written *)
Lemma Ok_inj {A} (x y : A) : Ok x = Ok y -> x = y.
Proof. intros H. injection H as ->. reflexivity. Qed.

Lemma wf_bytesb_spec l : wf_bytesb l = true <-> wf_bytes l.
Proof.
  unfold wf_bytesb, wf_bytes. rewrite forallb_forall, Forall_forall. unfold wf_byte.
  split; intros H x Hx; specialize (H x Hx); lia.
Qed.

Lemma be_to_N_acc (l : bytes) (a : N) :
  fold_left (fun a b => a * 256 + b) l a = a * 256 ^ N.of_nat (length l) + be_to_N l.
Proof.
  unfold be_to_N. revert a. induction l as [|b l IH]; intros a.
  - cbn. lia.
  - cbn [fold_left length]. rewrite IH, (IH (0 * 256 + b)).
    rewrite Nat2N.inj_succ, N.pow_succ_r'. lia.
Qed.

Lemma be_to_N_app (a b : bytes) :
  be_to_N (a ++ b) = be_to_N a * 256 ^ N.of_nat (length b) + be_to_N b.
Proof. unfold be_to_N at 1. rewrite fold_left_app. apply be_to_N_acc. Qed.

Lemma be_to_N_cons (x : N) (l : bytes) :
  be_to_N (x :: l) = x * 256 ^ N.of_nat (length l) + be_to_N l.
Proof. change (x :: l) with ([x] ++ l). rewrite be_to_N_app. cbn. lia. Qed.

Lemma be_to_N_snoc (l : bytes) (x : N) : be_to_N (l ++ [x]) = be_to_N l * 256 + x.
Proof. unfold be_to_N. rewrite fold_left_app. reflexivity. Qed.

Lemma be_to_N_bound (l : bytes) : wf_bytes l -> be_to_N l < 256 ^ N.of_nat (length l).
Proof.
  induction l as [|x l IH] using rev_ind; intros H; [cbn; lia|].
  apply Forall_app in H. destruct H as [Hl Hx]. inversion Hx; subst.
  rewrite be_to_N_snoc, app_length. cbn [length]. rewrite Nat.add_1_r, Nat2N.inj_succ, N.pow_succ_r'.
  specialize (IH Hl). nia.
Qed.

Lemma N_to_be_length k v : length (N_to_be k v) = k.
Proof. revert v; induction k as [|k IH]; intros v; cbn; [reflexivity|]. rewrite app_length, IH. cbn. lia. Qed.

Lemma N_to_be_wf k v : wf_bytes (N_to_be k v).
Proof.
  revert v; induction k as [|k IH]; intros v; cbn; [constructor|].
  apply Forall_app. split; [apply IH|]. constructor; [|constructor]. apply N.mod_lt. lia.
Qed.

Lemma be_to_N_to_be k v : be_to_N (N_to_be k v) = v mod 256 ^ N.of_nat k.
Proof.
  revert v; induction k as [|k IH]; intros v.
  - cbn. rewrite N.mod_1_r. reflexivity.
  - cbn [N_to_be]. rewrite be_to_N_snoc, IH, Nat2N.inj_succ, N.pow_succ_r'.
    set (P := 256 ^ N.of_nat k).
    assert (HP : P <> 0) by (unfold P; apply N.pow_nonzero; lia).
    rewrite N.mod_mul_r by lia.
    generalize ((v / 256) mod P) (v mod 256). intros a b. lia.
Qed.

Lemma be_to_N_to_be_small k v : v < 256 ^ N.of_nat k -> be_to_N (N_to_be k v) = v.
Proof. intros H. rewrite be_to_N_to_be. apply N.mod_small. exact H. Qed.

Lemma N_to_be_be_to_N (l : bytes) : wf_bytes l -> N_to_be (length l) (be_to_N l) = l.
Proof.
  induction l as [|x l IH] using rev_ind; intros H; [reflexivity|].
  apply Forall_app in H. destruct H as [Hl Hx]. inversion Hx; subst.
  rewrite app_length. cbn [length]. rewrite Nat.add_1_r. cbn [N_to_be]. rewrite be_to_N_snoc.
  replace ((be_to_N l * 256 + x) / 256) with (be_to_N l) by lia.
  replace ((be_to_N l * 256 + x) mod 256) with x by lia.
  rewrite IH by assumption. reflexivity.
Qed.

Lemma rmap_ok_iff {A B} (f : A -> res B) l ys : rmap f l = Ok ys <-> Forall2 (fun x y => f x = Ok y) l ys.
Proof.
  split.
  - revert ys. induction l as [|x l IH]; intros ys; cbn [rmap]; [intros [= <-]; constructor|].
    destruct (f x) as [y|] eqn:E; [|discriminate]. cbn [bind]. destruct (rmap f l) as [t|]; [|discriminate].
    intros [= <-]. constructor; [exact E|now apply IH].
  - induction 1 as [|x y l ys H _ IH]; [reflexivity|]. cbn [rmap]. now rewrite H, IH.
Qed.

Lemma rmap_map {A B C} (f : B -> res C) (g : A -> B) l : rmap f (map g l) = rmap (fun x => f (g x)) l.
Proof. induction l as [|x l IH]; [reflexivity|]. cbn [map rmap]. now rewrite IH. Qed.

Lemma rmap_Ok {A} (l : list A) : rmap Ok l = Ok l.
Proof. induction l as [|x l IH]; [reflexivity|]. cbn [rmap bind]. now rewrite IH. Qed.

Lemma name_eqb_spec a b : name_eqb a b = true <-> a = b.
Proof. apply list_eqb_spec. apply bytes_eqb_spec. Qed.

Lemma name_eqb_refl a : name_eqb a a = true.
Proof. apply (eqb_refl' _ name_eqb_spec). Qed.

Lemma name_eqb_neq a b : a <> b -> name_eqb a b = false.
Proof. apply (eqb_neq' _ name_eqb_spec). Qed.

Lemma name_eqbP a b : reflect (a = b) (name_eqb a b).
Proof. apply iff_reflect. symmetry. apply name_eqb_spec. Qed.
