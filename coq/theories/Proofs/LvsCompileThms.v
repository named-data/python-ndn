(* End to end, from the numbered rule chains of a schema to the answers of Checker.match / Checker.check
   on the model [compile] produces. *)
From NDN Require Import Base.Prelude Model.LvsAst Model.LvsChecker Model.LvsCompiler Spec.LvsSem Spec.LvsTree Spec.LvsChains
  Proofs.LvsMachine Proofs.LvsCheckerThms Proofs.LvsFlatten Proofs.LvsGenTree Proofs.LvsCompileTree Proofs.LvsCompileAccepts.
Local Open Scope N_scope.

Section EndToEnd.
  Variable ufn : ident -> option (bytes -> list (option bytes) -> res bool).
  Variable S : lvsfile.
  Variable chains : list chain.
  Variable st : numst.
  Variable m : lvsmodel.
  Let npc := N.of_nat (length (ns_named st)).
  Hypothesis Hchains : chains_of S = Ok (chains, st).
  Hypothesis Hcompile : compile S = Ok m.
  Hypothesis Hok : chains_ok npc chains.

  Theorem compile_sane : sane m.
  Proof.
    destruct (compile_unfold _ _ _ _ Hchains Hcompile) as (t0 & Ht & Hm).
    exact (compiled_sane chains st m t0 _ Hok Ht (flatten_root _ t0) Hm).
  Qed.

  (* r is a rule name of the schema, not the "#_<node id>" under which Checker.match reports a node at which no rule
     ends ([pseudo_rule]) *)
  Definition not_pseudo (r : ident) : Prop := forall n, r <> pseudo_rule n.

  Lemma rule_names_plain n r : not_pseudo r ->
    ((exists rs, node_rule_names m n = Ok rs /\ In r rs) <-> exists nd, get_node m n = Some nd /\ In r (n_rule nd)).
  Proof.
    intros Hnp. unfold node_rule_names. split.
    - intros (rs & H & Hr). destruct (get_node m n) as [nd|]; [|discriminate]. exists nd. split; [reflexivity|].
      injection H as <-. destruct (n_rule nd); [|exact Hr]. destruct Hr as [E|[]]. destruct (Hnp n). symmetry. exact E.
    - intros (nd & -> & Hr). exists (n_rule nd). split; [|exact Hr]. destruct (n_rule nd); [destruct Hr | reflexivity].
  Qed.

  (* Checker.match reports rule r with context c' iff one of r's chains is satisfied by the name with c' *)
  Theorem match_chains fuel name nm l r :
    strip_digest name = Ok nm -> (match_cost m nm <= fuel)%nat -> lvs_match ufn m fuel name = Ok l ->
    not_pseudo r ->
    forall c', (exists rs, In (rs, context_to_name m c') l /\ In r rs /\
                           exists n, tree_match ufn m nm [] n c' /\ node_rule_names m n = Ok rs) <->
               (exists rc, In rc chains /\ ch_id rc = r /\ chain_sem_from ufn 0 rc nm [] c').
  Proof.
    intros Hs Hf Hl Hnp c'.
    destruct (compile_unfold _ _ _ _ Hchains Hcompile) as (t0 & Ht & Hm).
    pose proof (compiled_match_chains chains st m t0 _ Hok Ht (flatten_root _ t0) Hm ufn nm [] c' r) as Hcm.
    assert (Hc0 : ctx_named npc []) by (intros t _; reflexivity). specialize (Hcm Hc0).
    pose proof (lvs_match_spec ufn m compile_sane fuel name nm l Hs Hf Hl) as Hspec.
    split.
    - intros (rs & Hin & Hr & n & Htm & Hrn). apply Hcm.
      destruct (proj1 (rule_names_plain n r Hnp)) as (nd & Hg & Hrd); [eauto|]. exists n, nd. auto.
    - intros Hex. apply Hcm in Hex. destruct Hex as (n & nd & Htm & Hg & Hr).
      destruct (proj2 (rule_names_plain n r Hnp)) as (rs & Hrn & Hrs); [eauto|].
      exists rs. split; [apply Hspec; exists n, c'; auto | split; [exact Hrs | exists n; auto]].
  Qed.

  (* Checker.check answers yes iff some chain is satisfied by the packet name and a chain of one of its
     signer rules by the key name, starting from the packet's bindings *)
  Theorem check_chains fuel pkt key p k b :
    strip_digest pkt = Ok p -> strip_digest key = Ok k ->
    (Nat.max (match_cost m p) (match_cost m k) <= fuel)%nat ->
    lvs_check ufn m fuel pkt key = Ok b ->
    (b = true <-> exists rc rk cx cx', In rc chains /\ chain_sem_from ufn 0 rc p [] cx /\ In rk chains /\
                                       In (ch_id rk) (ch_sign rc) /\ chain_sem_from ufn 0 rk k cx cx').
  Proof.
    intros Hp Hk Hf Hc.
    destruct (compile_unfold _ _ _ _ Hchains Hcompile) as (t0 & Ht & Hm).
    rewrite (lvs_check_spec ufn m compile_sane fuel pkt key p k b Hp Hk Hf Hc).
    pose proof (fun cx cx' => compiled_check_chains chains st m t0 _ Hok Ht (flatten_root _ t0) Hm ufn p k [] cx cx' (fun t _ => eq_refl)) as Hcc. split.
    - intros (pn & cx & pnode & kn & cx' & H). destruct (proj1 (Hcc cx cx')) as (rc & rk & H'); [eauto|]. exists rc, rk, cx, cx'. exact H'.
    - intros (rc & rk & cx & cx' & H). destruct (proj2 (Hcc cx cx')) as (pn & pnode & kn & H'); [eauto|]. exists pn, cx, pnode, kn, cx'. exact H'.
  Qed.
End EndToEnd.

(* [schema_wf]: what the lexer guarantees.  [static_ok] need not be asked for beside [compile S = Ok m]. *)
Theorem compile_wf_sane S m : schema_wf S = true -> compile S = Ok m -> sane m.
Proof. intros Hwf Hm. destruct (compiled_chains_ok S m Hwf Hm) as (chains & st & Hc & Hok). exact (compile_sane S chains st m Hc Hm Hok). Qed.
