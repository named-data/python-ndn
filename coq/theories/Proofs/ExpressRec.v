(* C03 / C05 — one loop turn seen from a single Interest record, against one transition of its specification
   automaton.  A settled record has one of four shapes (the constructors of [rep], Proofs/ExpressInv.v); on a record of
   known shape a turn is a closed computation once the timer test [due _ (i_timer r) t] is replaced by its value, which
   [fire_b] makes possible. *)
From NDN Require Import Base.Prelude Spec.ExpressSpec Model.ExpressPipeline Proofs.ExpressBasics Proofs.ExpressInv.
Local Open Scope N_scope.

(* the record as the woken waiter finds it: timers due (mid-turn, then with strictness [sb]) around the synchronous
   effect [g] of the event, then the validation task *)
Definition rready (fe : frontend) (mid sb : bool) (t : N) (g : irec -> eff) (i : N) (r : irec) : irec :=
  f_rec (sv_rec fe i (fire_rec sb t (f_rec (g (if mid then fire_rec false t r else r))))).
Definition rturn (fe : frontend) (mid sb : bool) (t : N) (g : irec -> eff) (i : N) (r : irec) : irec :=
  f_rec (ws_rec fe t i (rready fe mid sb t g i r)).

(* what a turn owes for one record [r], [q] being the record the waiter finds: the record left stands for the state
   [st] of the automaton, and the PIT entry is still there iff the record is still pending ([r], the record before
   the turn, enters through [pendingb r] only) *)
Definition turn_rep (fe : frontend) (sb : bool) (t i : N) (st : istate) (kp : bool) (r q : irec) : Prop :=
  rep fe sb t (f_rec (ws_rec fe t i q)) st /\
  pendingb (f_rec (ws_rec fe t i q)) = pendingb r && kp && negb (wants_cleanup q).

Definition fire_b (b : bool) (r : irec) : irec :=
  if match i_wait r with WWaiting => negb (i_tfired r) && b | _ => false end
  then set_fut (set_tfired r true) (fut_cancel (i_fut r)) else r.
Lemma fire_rec_b sb t r : fire_rec sb t r = fire_b (due sb (i_timer r) t) r.
Proof. reflexivity. Qed.

Lemma fire_rec_idem sb t r : fire_rec sb t (fire_rec sb t r) = fire_rec sb t r.
Proof.
  unfold fire_rec. destruct (timer_due sb t r) eqn:E; [|rewrite E; reflexivity].
  unfold timer_due. cbn. destruct (i_wait r); reflexivity.
Qed.

(* evaluation in stages, each result computed once: [b], [b'] are the values of the two timer tests *)
Lemma turn_rep_eval fe (mid : bool) sb t i st kp g r dl b b' q r' :
  i_timer r = dl -> due sb dl t = b -> due false dl t = b' ->
  i_timer (f_rec (g (if mid then fire_b b' r else r))) = dl ->
  f_rec (sv_rec fe i (fire_b b (f_rec (g (if mid then fire_b b' r else r))))) = q ->
  f_rec (ws_rec fe t i q) = r' ->
  rep fe sb t r' st -> pendingb r' = pendingb r && kp && negb (wants_cleanup q) ->
  turn_rep fe sb t i st kp r (rready fe mid sb t g i r).
Proof.
  intros <- B B' T <- <-. unfold turn_rep, rready. rewrite !fire_rec_b, B', T, B. auto.
Qed.

(* [norm] evaluates with the tests on times, verdicts and names left as atoms.  [fin] closes a goal [rep _ _ _ r' st]
   on a literal record by the constructor that fits; a premise of it is trivial, is a hypothesis (the value [false] of
   the timer test, for a record left waiting), or has an absurd premise ([V2 = V1 -> _]). *)
Local Ltac norm := lazy -[due N.ltb N.leb N.eqb N.add pass norm_verdict matches name_eqb odig_eqb is_prefix].
Local Ltac fin := constructor; auto; discriminate.
(* [leaf B B'] closes [turn_rep] for a literal record and an effect that evaluates, by [turn_rep_eval]: [B], [B'] are
   the values of the two timer tests ([eq_refl] for a test that is not reached, since its value is then immaterial).
   [leaf_v B B' P] does so where the turn looks at a verdict, whose value is [P]. *)
Local Ltac leaf_with B B' verdict :=
  eapply turn_rep_eval;
  [ reflexivity | exact B | exact B'   (* the timer and its two tests *)
  | reflexivity                        (* the event leaves the timer alone *)
  | norm; reflexivity                  (* [q], the record the waiter finds *)
  | verdict; norm; reflexivity         (* [r'], the record it leaves *)
  | norm; rewrite ?B; verdict; fin     (* [r'] stands for the automaton's state *)
  | norm; reflexivity ].               (* the PIT bit *)
Local Ltac leaf B B' := leaf_with B B' idtac.
Local Ltac leaf_v B B' P := leaf_with B B' ltac:(rewrite ?P).

Local Ltac spec_side := cbv [react expire spec_of i_name i_cbp i_dig i_deadline i_vm s_name s_dig s_D s_vm].

Lemma turn_expire fe sb sb' t' t i r st :
  rep fe sb' t' r st -> turn_rep fe sb t i (expire fe sb t st) true r (rready fe false sb t keep i r).
Proof.
  intros H.
  destruct H as [nm cb dg lf dl vm nd _|nm cb dg lf dl nd d -> _|nm cb dg lf dl nd fu tm tf d ->
                |nm cb dg lf dl vm nd fu o t0 tm tf xc va NS VN].
  1,2: spec_side; destruct (due sb dl t) eqn:B; leaf B (eq_refl (due false dl t)).
  - leaf (eq_refl (due sb tm t)) (eq_refl (due false tm t)).
  - destruct va; try contradiction; leaf (eq_refl (due sb tm t)) (eq_refl (due false tm t)).
Qed.

Lemma turn_untouched fe (mid : bool) t i r g st st' kp :
  rep fe true t r st -> (let x := if mid then fire_rec false t r else r in g x = keep x) ->
  st' = expire fe false t st ->
  (pendingb r = true -> kp = true) ->
  turn_rep fe false t i st' kp r (rready fe mid false t g i r).
Proof.
  intros H G -> K.
  assert (E : rready fe mid false t g i r = rready fe false false t keep i r).
  { unfold rready. cbv zeta in G. rewrite G. destruct mid; [cbn [f_rec keep]; rewrite fire_rec_idem|]; reflexivity. }
  rewrite E. destruct (turn_expire fe false true t t i r st H) as (A & C). split; [exact A|].
  rewrite C. destruct (pendingb r); [rewrite K|]; reflexivity.
Qed.

(* the hit test of an event and its PIT filter, read on a record instead of its PIT entry: [rec_hit e r], [e] is
   addressed to [r] if [r] is pending; [rec_keep e r], the entry of [r] stays in the PIT *)
Definition rec_hit (e : ev) (r : irec) : bool :=
  match e with
  | Data _ n h _ => matches (spec_of r) n h
  | Nack n dig _ _ => name_eqb n (i_name r) && odig_eqb dig (i_dig r)
  | Shutdown _ => true
  | _ => false
  end.
Definition rec_keep (e : ev) (r : irec) : bool :=
  match e with Shutdown _ => false | _ => negb (rec_hit e r) end.

(* An event leaves alone the records it does not address (another Interest's VDone / Cancel, a packet for another
   name, anything once the record is no longer pending): those take the expiry turn.  On the others the turn is
   evaluated on the record's shape, for both values of the timer test; [strict_due] turns the automaton's deadline
   test into that value. *)
Lemma rturn_event fe mid e i r st :
  plain_event e = true -> rep fe true (ev_time e) r st ->
  turn_rep fe false (ev_time e) i (expire fe false (ev_time e) (react fe i st e)) (rec_keep e r) r
    (rready fe mid false (ev_time e) (ev_rec fe (ev_time e) e (pendingb r && rec_hit e r) i) i r).
Proof.
  intros PE H.
  destruct e as [| |d n h t|n dig x t|j v t|j t|t|t|p hv t|k n hp sg dok v t|own t]; try discriminate PE;
    cbn [ev_time ev_rec rec_hit rec_keep negb] in *.
  (* VDone and Cancel (the third and fourth of the nine plain events) address Interest [j] only *)
  3,4: destruct (N.eqb_spec i j) as [<-|NE];
    [|apply (turn_untouched _ _ _ _ _ _ st);
        [exact H | reflexivity | rewrite ?react_vdone_other, ?react_cancel_other by exact NE; reflexivity | auto]].
  (* Nine events on four shapes.  [turn_untouched] takes 26 of the 36 cases: AdvanceTo, Attach, Incoming and
     SetDefault touch no record; Data, Nack and Shutdown only a pending one ([pendingb r] is false on the three other
     shapes); Cancel does nothing to a finished record.  The bullets are the ten cases left. *)
  all: pose proof H as H0;
    destruct H0 as [nm cb dg lf dl vm nd D|nm cb dg lf dl nd d0 -> D|nm cb dg lf dl nd fu tm tf d0 ->
                   |nm cb dg lf dl vm nd fu o t0 tm tf xc va NS VN];
    try solve [eapply turn_untouched; [exact H | destruct mid; reflexivity | reflexivity | first [discriminate | reflexivity]]];
    clear H; spec_side; rewrite ?N.eqb_refl, ?(strict_due _ _ D).
  - (* Data, pending: the packet goes to the validation task (V2) or to the future (V1), too late if the timer has
       fired *)
    destruct (matches _ n h).
    + destruct fe; [destruct vm as [v|]|].
      * (* V2, the Interest has a validator: its verdict is looked at *)
        destruct (due false dl t) eqn:B, mid, (pass V2 v) eqn:P; leaf_v B B P.
      * (* V2, no validator *) destruct (due false dl t) eqn:B, mid; leaf B B.
      * (* V1: the waiter validates at once or suspends in the validator, by [vm] *)
        destruct (due false dl t) eqn:B, mid, vm; leaf B B.
    + destruct (due false dl t) eqn:B, mid; leaf B B.
  - (* Nack, pending *)
    destruct (name_eqb n nm && odig_eqb dig dg), (due false dl t) eqn:B, mid, fe; leaf B B.
  - (* VDone, pending: no validator is running *)
    destruct (due false dl t) eqn:B, mid, fe; leaf B B.
  - (* VDone, V2 validation in flight: the task finishes, and its verdict counts unless the timer has fired *)
    destruct (due false dl t) eqn:B, mid, (pass V2 v) eqn:P; leaf_v B B P.
  - (* VDone, V1 validating: the waiter gets its verdict *)
    destruct mid; leaf (eq_refl (due false tm t)) (eq_refl (due false tm t)).
  - (* VDone, finished: only a V2 validation task still in flight moves, to VFinished *)
    destruct fe; [|rewrite (VN eq_refl)].
    + destruct va as [|d|d|]; try contradiction; [|destruct fu|]; destruct mid, (pass V2 v) eqn:P;
        leaf_v (eq_refl (due false tm t)) (eq_refl (due false tm t)) P.
    + destruct mid; leaf (eq_refl (due false tm t)) (eq_refl (due false tm t)).
  - (* Cancel, pending: it wins over a timer due in the same turn *)
    destruct (due false dl t) eqn:B, mid, fe; leaf B B.
  - (* Cancel, V2 validation in flight *)
    destruct (due false dl t) eqn:B, mid; leaf B B.
  - (* Cancel, V1 validating *)
    destruct mid; leaf (eq_refl (due false tm t)) (eq_refl (due false tm t)).
  - (* Shutdown, pending: the future is cancelled *)
    destruct (due false dl t) eqn:B, mid, fe; leaf B B.
Qed.
