(* C14 — proofs about validations that overlap in time on one validator instance (Model/ValidatorConc.v):
   whatever the interleaving of starts and fetch completions, every verdict is accept <-> Chain, the key
   storage keeps its invariant, a delivered verdict never changes; and a validation that runs alone, every
   fetch answered at once, is exactly [validate] of Model/Validator.v. *)
From NDN Require Import Proofs.ListLemmas Base.Prelude Model.Validator Model.ValidatorConc Spec.ChainSpec Proofs.ValidatorProofs.
Local Open Scope nat_scope.

Lemma set_nth_length {A} (l : list A) : forall i a, i < length l -> length (set_nth l i a) = length l.
Proof.
  induction l as [|x l IH]; intros i a H; cbn in H; [lia|].
  destruct i as [|i]; [reflexivity|]. rewrite set_nth_cons. cbn. rewrite IH; lia.
Qed.

Section Conc.
Variables (w : world) (c : cfg).
Let t := trust_of c.

Definition tstate_ok (rt : pkt) (ts : tstate) : Prop :=
  match ts with
  | TDone r => answer_ok w t r rt
  | TWait [] => False
  | TWait ((p, cn) :: rest) => frame_ok t (p, cn) /\ stack_ok w t p rest rt
  end.

Definition thread_ok (th : thread) : Prop := tstate_ok (th_pkt th) (th_state th).

Definition cstate_ok (cs : cstate) : Prop :=
  cache_ok w t (cs_cache cs) /\ Forall thread_ok (cs_threads cs).

Lemma unwind_no_data p cn rest rt r st r' st' :
  cache_ok w t st -> frame_ok t (p, cn) -> stack_ok w t p rest rt ->
  (forall d, w_fetch w cn <> FData d) -> r <> Ok true ->
  unwind w p r rest st = (r', st') ->
  cache_ok w t st' /\ answer_ok w t r' rt.
Proof.
  intros Hst Hf Hs ND Nr. apply (unwind_ok w t rest p r st r' st' rt Hst Hs).
  apply not_chain_answer; [exact Nr|]. rewrite (chain_frame w t p cn Hf).
  destruct (w_fetch w cn) as [d| | |]; [destruct (ND d eq_refl) | tauto..].
Qed.

Lemma advance_spec q stack rt st ts st' sent :
  cache_ok w t st -> stack_ok w t q stack rt ->
  advance w c q stack st = (ts, st', sent) ->
  cache_ok w t st' /\ tstate_ok rt ts.
Proof.
  intros Hst Hs Ha. unfold advance in Ha.
  pose proof (local_verdict_spec w c st q Hst) as LV.
  destruct (local_verdict w c st q) as [r|cn].
  - destruct (unwind w q r stack st) as [r' st1] eqn:U. injection Ha as <- <- _.
    exact (unwind_ok _ _ _ _ _ _ _ _ _ Hst Hs (answer_ok_of_iff _ _ _ _ LV) U).
  - destruct (w_fetch w cn) as [d| | |e] eqn:F.
    4:{ destruct (unwind w q (Err e) stack st) as [r' st1] eqn:U. injection Ha as <- <- _.
        apply (unwind_no_data q cn stack rt (Err e) st r' st1 Hst LV Hs); [intros d; congruence | discriminate | exact U]. }
    all: injection Ha as <- <- _; split; [exact Hst|]; cbn; auto.
Qed.

Lemma resume_spec th st th' st' :
  cache_ok w t st -> thread_ok th -> resume w c th st = (th', st') ->
  cache_ok w t st' /\ thread_ok th' /\ th_pkt th' = th_pkt th.
Proof.
  intros Hst Hth Hr. unfold resume in Hr. unfold thread_ok in *.
  destruct (th_state th) as [[|[p cn] rest]|r] eqn:TS.
  1,3: injection Hr as <- <-; rewrite TS; auto.
  destruct Hth as (Hf & Hs).
  destruct (w_fetch w cn) as [d| | |e] eqn:F.
  (* no Data: validate(p) ends with False, or with the exception of express_interest *)
  2,3,4: destruct (unwind w p _ rest st) as [r st1] eqn:U; injection Hr as <- <-; cbn;
         apply and_assoc; split; [|reflexivity];
         refine (unwind_no_data p cn rest _ _ st r st1 Hst Hf Hs _ _ U); [intros d; congruence | discriminate].
  destruct (advance w c d ((p, cn) :: rest) st) as [[ts st1] sent] eqn:A. injection Hr as <- <-. cbn.
  destruct (advance_spec d ((p, cn) :: rest) _ _ _ _ _ Hst (conj Hf (conj F Hs)) A) as [H1 H2]. auto.
Qed.

Lemma resume_done th st r : th_state th = TDone r -> resume w c th st = (th, st).
Proof. intros H. unfold resume. rewrite H. reflexivity. Qed.

Definition extends (cs cs' : cstate) : Prop :=
  forall tid th, nth_error (cs_threads cs) tid = Some th ->
    exists th', nth_error (cs_threads cs') tid = Some th' /\ th_pkt th' = th_pkt th /\
                forall r, th_state th = TDone r -> th_state th' = TDone r.

Lemma extends_refl cs : extends cs cs.
Proof. intros tid th H. exists th. auto. Qed.

Lemma extends_trans a b d : extends a b -> extends b d -> extends a d.
Proof.
  intros H1 H2 tid th H. destruct (H1 _ _ H) as (th1 & N1 & P1 & D1).
  destruct (H2 _ _ N1) as (th2 & N2 & P2 & D2). exists th2. repeat split; auto; try congruence.
Qed.

Lemma resume_tid_spec cs tid :
  cstate_ok cs -> cstate_ok (resume_tid w c cs tid) /\ extends cs (resume_tid w c cs tid).
Proof.
  intros [Hc Ht]. unfold resume_tid.
  destruct (nth_error (cs_threads cs) tid) as [th|] eqn:N; [|split; [split; auto | apply extends_refl]].
  destruct (waiting_on th) as [cn|] eqn:Wt; [|split; [split; auto | apply extends_refl]].
  destruct (resume w c th (cs_cache cs)) as [th' st'] eqn:R.
  assert (Hth : thread_ok th) by (rewrite Forall_forall in Ht; apply Ht; eapply nth_error_In; eauto).
  destruct (resume_spec _ _ _ _ Hc Hth R) as (H1 & H2 & H3).
  assert (L : tid < length (cs_threads cs)) by (apply nth_error_Some; congruence).
  split.
  - split; cbn; auto. apply Forall_set_nth; auto.
  - intros j thj Nj. cbn. rewrite (nth_error_set_nth _ _ _ _ L).
    destruct (Nat.eqb_spec j tid) as [->|NE]; [|exists thj; auto].
    exists th'. split; auto. split; [congruence|].
    intros r Hr. assert (thj = th) by congruence. subst thj.
    unfold waiting_on in Wt. rewrite Hr in Wt. discriminate.
Qed.

Lemma fold_resume_spec : forall tids cs,
  cstate_ok cs ->
  cstate_ok (fold_left (resume_tid w c) tids cs) /\ extends cs (fold_left (resume_tid w c) tids cs).
Proof. exact (fold_left_keeps cstate_ok extends _ extends_refl extends_trans resume_tid_spec). Qed.

Lemma cstep_spec cs e : cstate_ok cs -> cstate_ok (cstep w c cs e) /\ extends cs (cstep w c cs e).
Proof.
  intros H. destruct e as [p|tid|cn|]; cbn [cstep].
  - destruct H as [Hc Ht].
    destruct (advance w c p [] (cs_cache cs)) as [[ts st'] sent] eqn:A.
    destruct (advance_spec p [] p _ _ _ _ Hc eq_refl A) as [H1 H2].
    split.
    + split; cbn; auto. apply Forall_app. split; auto.
    + intros tid th N. cbn. exists th. split; auto. apply nth_error_app_some, N.
  - apply resume_tid_spec; auto.
  - destruct (silent w cn); [split; [auto | apply extends_refl]|]. apply fold_resume_spec; auto.
  - apply fold_resume_spec; auto.
Qed.

Lemma cfinal_spec : forall evs cs, cstate_ok cs -> cstate_ok (cfinal w c cs evs) /\ extends cs (cfinal w c cs evs).
Proof. exact (fold_left_keeps cstate_ok extends _ extends_refl extends_trans cstep_spec). Qed.

Lemma crun_spec : forall evs cs, cstate_ok cs -> Forall cstate_ok (crun w c cs evs).
Proof.
  induction evs as [|e r IH]; intros cs H; cbn; constructor.
  - apply cstep_spec; auto.
  - apply IH. apply cstep_spec; auto.
Qed.

Lemma cinit_ok st : cache_ok w t st -> cstate_ok (cinit st).
Proof. intros H. split; cbn; auto. Qed.

Theorem conc_iff cs evs th r :
  cstate_ok cs ->
  In th (cs_threads (cfinal w c cs evs)) -> th_state th = TDone r -> r <> Err EFuel ->
  (r = Ok true <-> Chain w t (th_pkt th)).
Proof.
  intros H Hin Hd. destruct (cfinal_spec evs cs H) as [[_ Ht] _].
  rewrite Forall_forall in Ht. specialize (Ht _ Hin). unfold thread_ok in Ht. rewrite Hd in Ht.
  exact (answer_ok_iff _ _ _ _ Ht).
Qed.

(* the validation started by [CStart p] is thread number |threads before| and asks about p; by [extends] it stays
   there, asks about p for ever, and keeps its verdict once it has one *)
Theorem conc_started cs p :
  exists th, nth_error (cs_threads (cstep w c cs (CStart p))) (length (cs_threads cs)) = Some th /\ th_pkt th = p.
Proof.
  cbn [cstep]. destruct (advance w c p [] (cs_cache cs)) as [[ts st'] sent]. cbn.
  eexists. split; [apply nth_error_snoc_last | reflexivity].
Qed.

End Conc.

(* two runs — any two interleavings, any two starting storages that satisfy the invariant, even two instances
   with the same trust configuration: the same packet gets the same verdict *)
Theorem conc_same_verdict w c1 c2 cs1 cs2 evs1 evs2 th1 th2 r1 r2 :
  trust_of c1 = trust_of c2 ->
  cstate_ok w c1 cs1 -> cstate_ok w c2 cs2 ->
  In th1 (cs_threads (cfinal w c1 cs1 evs1)) -> In th2 (cs_threads (cfinal w c2 cs2 evs2)) ->
  th_pkt th1 = th_pkt th2 ->
  th_state th1 = TDone r1 -> th_state th2 = TDone r2 -> r1 <> Err EFuel -> r2 <> Err EFuel ->
  (r1 = Ok true <-> r2 = Ok true).
Proof.
  intros ET H1 H2 I1 I2 EP D1 D2 N1 N2.
  rewrite (conc_iff w c1 cs1 evs1 th1 r1 H1 I1 D1 N1), (conc_iff w c2 cs2 evs2 th2 r2 H2 I2 D2 N2).
  rewrite ET, EP. tauto.
Qed.

Lemma drive_done w c fuel th st r : th_state th = TDone r -> drive w c fuel th st = (th, st).
Proof. intros H. destruct fuel; cbn [drive]; rewrite H; reflexivity. Qed.

(* validate(q) called below the frames [stack]: the thread runs through the same fetches and returns through them.
   With no frames and nothing sent before: a validation that has the instance to itself, every fetch answered at
   once, IS [validate]. *)
Theorem alone_general w c : forall fuel q stack st pk pre r st1 tr,
  validate w c fuel st q = (r, st1, tr) -> r <> Err EFuel ->
  (let '(th, st0) := start_thread w c pk q stack pre st in drive w c fuel th st0) =
  (let '(r', st') := unwind w q r stack st1 in ({| th_pkt := pk; th_state := TDone r'; th_sent := pre ++ tr |}, st')).
Proof.
  induction fuel as [fuel IH] using lt_wf_ind. intros q stack st pk pre r st1 tr Hv Hne.
  rewrite validate_local in Hv. unfold start_thread, advance.
  destruct (local_verdict w c st q) as [r0|cn].
  { injection Hv as <- <- <-. destruct (unwind w q r0 stack st) as [r' st']. apply drive_done with r'. reflexivity. }
  destruct fuel as [|f]; [injection Hv as <- _ _; congruence|].
  destruct (w_fetch w cn) as [d| | |e] eqn:F.
  2,3: (* Nack, no answer: the thread waits, is resumed, and validate(q) returns False *)
       injection Hv as <- <- <-; cbn [drive th_state]; unfold resume; cbn [th_state th_pkt th_sent]; rewrite F;
       destruct (unwind w q (Ok false) stack st) as [r' st']; apply drive_done with r'; reflexivity.
  - (* Data: the certificate is validated by next_level *)
    destruct (validate w c f st d) as [[ri sti] tri] eqn:VI.
    destruct (unwind w d ri [(q, cn)] sti) as [r1 st2] eqn:U1. injection Hv as <- <- <-.
    assert (Hri : ri <> Err EFuel) by (intros ->; injection U1 as <- _; congruence).
    specialize (IH f (Nat.lt_succ_diag_r f) d ((q, cn) :: stack) st pk (pre ++ [cn]) ri sti tri VI Hri).
    unfold start_thread in IH. rewrite unwind_cons, U1, <- app_assoc in IH.
    cbn [drive th_state]. unfold resume. cbn [th_state th_pkt th_sent]. rewrite F.
    destruct (advance w c d ((q, cn) :: stack) st) as [[ts st0] sent]. exact IH.
  - injection Hv as <- <- <-. destruct (unwind w q (Err e) stack st) as [r' st']. apply drive_done with r'. reflexivity.
Qed.

From NDN Require Import Proofs.ValidatorExamples.

Definition ex_thread_P : thread := {| th_pkt := P; th_state := TDone (Ok true); th_sent := [nC] |}.

(* two validations of P start before the certificate C has arrived: both wait for it ... *)
Example ex_conc_waiting :
  cfinal ex_world cfg1 (cinit []) [CStart P; CStart P] =
  {| cs_cache := [];
     cs_threads := [ {| th_pkt := P; th_state := TWait [(P, nC)]; th_sent := [nC] |};
                     {| th_pkt := P; th_state := TWait [(P, nC)]; th_sent := [nC] |} ];
     cs_queue := [0; 1] |}.
Proof. vm_compute. reflexivity. Qed.

(* ... and both accept when it does; a third one, later, is served from the storage *)
Example ex_conc_overlap :
  cfinal ex_world cfg1 (cinit []) [CStart P; CStart P; CDeliver nC; CStart P] =
  {| cs_cache := [(nC, [13%N])];
     cs_threads := [ ex_thread_P; ex_thread_P; {| th_pkt := P; th_state := TDone (Ok true); th_sent := [] |} ];
     cs_queue := [] |}.
Proof. vm_compute. reflexivity. Qed.

Example ex_alone : run_alone ex_world cfg1 3 [] P = (ex_thread_P, [(nC, [13%N])]).
Proof. vm_compute. reflexivity. Qed.
