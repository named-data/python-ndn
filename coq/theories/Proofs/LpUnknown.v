(* C10 (generic, any descriptor): with ignore_critical the scan loop skips EVERY element whose
   Type the level does not recognise — critical or not, at any position, any number of them. *)
From NDN Require Import Base.Prelude Model.Tlv
  Proofs.BytesLemmas Proofs.TlvSplit Proofs.TlvAssign Proofs.TlvMore.
Local Open Scope N_scope.

Definition known (fs : list field) (e : elem) : bool := existsb (N.eqb (e_type e)) (level_types fs).

Lemma known_false fs e : known fs e = false -> ~ In (e_type e) (level_types fs).
Proof. intros H Hin. apply (existsb_eqb_in N.eqb N.eqb_eq) in Hin. unfold known in H. congruence. Qed.

Inductive with_unknown (fs : list field) : list elem -> list elem -> Prop :=
| wu_nil : with_unknown fs [] []
| wu_keep e a b : with_unknown fs a b -> with_unknown fs (e :: a) (e :: b)
| wu_ins e a b : known fs e = false -> with_unknown fs a b -> with_unknown fs a (e :: b).

Lemma with_unknown_refl fs a : with_unknown fs a a.
Proof. induction a; constructor; assumption. Qed.

Lemma with_unknown_of_filter fs els : with_unknown fs (filter (known fs) els) els.
Proof.
  induction els as [|e els IH]; [constructor|]. cbn [filter]. destruct (known fs e) eqn:K.
  - apply wu_keep. exact IH.
  - apply wu_ins; assumption.
Qed.

Theorem assign_with_unknown pv fs a b :
  with_unknown fs a b -> forall st pos acc, st_ok fs st ->
  assign_with pv fs true st pos b acc = assign_with pv fs true st pos a acc.
Proof.
  induction 1 as [|e a b _ IH|e a b K _ IH]; intros st pos acc Hst; [reflexivity| |].
  - exact (assign_prefix pv fs true eq b a (fun _ => eq_refl) IH [e] st pos acc Hst).
  - rewrite assign_with_cons, (step_req_unknown _ _ _ _ _ _ (known_false fs e K) Hst), andb_false_r. apply IH, Hst.
Qed.

Theorem assign_filter_known pv fs els :
  forall st pos acc, st_ok fs st ->
  assign_with pv fs true st pos els acc = assign_with pv fs true st pos (filter (known fs) els) acc.
Proof. apply assign_with_unknown, with_unknown_of_filter. Qed.

Lemma with_unknown_el_ok fs a b : with_unknown fs a b -> Forall el_ok b -> Forall el_ok a.
Proof.
  induction 1 as [|e a b _ IH|e a b _ _ IH]; intros H; [constructor| |].
  - inversion H; subst. constructor; [assumption|apply IH; assumption].
  - inversion H; subst. apply IH. assumption.
Qed.

Theorem parse_model_with_unknown d fs a b :
  with_unknown fs a b -> Forall el_ok b ->
  parse_model d fs true (ser_els b) = parse_model d fs true (ser_els a).
Proof.
  intros Hw Hb. unfold parse_model.
  rewrite (split_wire_ser b Hb), (split_wire_ser a (with_unknown_el_ok _ _ _ Hw Hb)). cbn [bind].
  apply assign_with_unknown; [exact Hw|exact I].
Qed.

Lemma ser_els_with_unknown_length fs a b :
  with_unknown fs a b -> (length (ser_els a) <= length (ser_els b))%nat.
Proof.
  induction 1 as [|e a b _ IH|e a b _ _ IH]; [lia| |];
    unfold ser_els in *; cbn [map concat]; rewrite ?app_length; lia.
Qed.
