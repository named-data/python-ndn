(* C03 / C05 — the abstraction function from operational states to the per-Interest specification automaton, the
   simulation relation between settled states and families of automata ([rep] per record, [srep] per state), and the
   structural lemmas (PIT membership, preservation of the PIT shape); what each event does to one record ([ev_rec]). *)
From NDN Require Import Base.Prelude Spec.ExpressSpec Model.ExpressPipeline Proofs.ListLemmas Proofs.ExpressBasics.
Local Open Scope N_scope.

Definition spec_of (r : irec) : ispec := mkSp (i_name r) (i_cbp r) (i_dig r) (i_deadline r) (i_vm r).
Definition entry_of (i : N) (r : irec) : entry := mkE i (i_cbp r) (i_dig r).

Definition abs_rec (r : irec) : istate :=
  match i_wait r with
  | WDone o _ => IDone o
  | WValidating d => IValidating (spec_of r) d
  | _ => match i_val r with VInFlight d => IValidating (spec_of r) d | _ => IPending (spec_of r) end
  end.
Definition abs (s : st) (i : N) : istate := match get_int s i with Some r => abs_rec r | None => INone end.

Definition pendingb (r : irec) : bool :=
  match i_wait r, i_val r with
  | WWaiting, VNone => true
  | WNotAwaited, VNone => true
  | _, _ => false
  end.

(* [rep fe sb t r st]: the settled record [r] stands for the state [st] of its automaton at time [t], the timers having
   been run up to [t] with strictness [sb].  The constructors are the fibres of [abs_rec] over the settled records, one
   per state of the automaton and two for IValidating: waiting with nothing received; waiting while the V2 validation
   task is suspended in the validator; the V1 waiter itself suspended in its validator; finished.  A waiting record is
   determined by its static fields (its timer is the deadline and is not due, nothing has fired).  Once the waiter
   is validating or done, the future, the timer and the fired flag no longer matter (nor, when done, the cancel flag
   and a validation task that is not about to start): those fields are free. *)
Inductive rep (fe : frontend) (sb : bool) (t : N) : irec -> istate -> Prop :=
| rep_pending nm cb dg lf dl vm nd :
    due sb dl t = false ->
    rep fe sb t (mkI nm cb dg lf dl vm nd FPending WWaiting dl false false VNone) (IPending (mkSp nm cb dg dl vm))
| rep_inflight nm cb dg lf dl nd d :
    fe = V2 -> due sb dl t = false ->
    rep fe sb t (mkI nm cb dg lf dl VDef nd FPending WWaiting dl false false (VInFlight d))
        (IValidating (mkSp nm cb dg dl VDef) d)
| rep_validating nm cb dg lf dl nd fu tm tf d :
    fe = V1 ->
    rep fe sb t (mkI nm cb dg lf dl VDef nd fu (WValidating d) tm tf false VNone) (IValidating (mkSp nm cb dg dl VDef) d)
| rep_done nm cb dg lf dl vm nd fu o t0 tm tf xc va :
    match va with VStart _ => False | _ => True end -> (fe = V1 -> va = VNone) ->
    rep fe sb t (mkI nm cb dg lf dl vm nd fu (WDone o t0) tm tf xc va) (IDone o).

Lemma rep_abs fe sb t r st : rep fe sb t r st -> abs_rec r = st.
Proof. destruct 1; reflexivity. Qed.

Lemma rep_pendingb fe sb t r st : rep fe sb t r st -> pendingb r = match st with IPending _ => true | _ => false end.
Proof. destruct 1; reflexivity. Qed.

Lemma rep_spec fe sb t r sp : rep fe sb t r (IPending sp) -> sp = spec_of r.
Proof. inversion 1; reflexivity. Qed.

Lemma rep_weaken fe t r st : rep fe false t r st -> rep fe true t r st.
Proof. destruct 1; constructor; auto using due_weaken. Qed.

Definition same_static (r r' : irec) : Prop :=
  i_name r' = i_name r /\ i_cbp r' = i_cbp r /\ i_dig r' = i_dig r /\ i_life r' = i_life r /\
  i_deadline r' = i_deadline r /\ i_vm r' = i_vm r /\ i_node r' = i_node r.

Definition pit_ok (s : st) : Prop :=
  NoDup (map fst (pit s)) /\
  (forall pn nid es, In (pn, (nid, es)) (pit s) -> es <> []) /\
  NoDup (map flat_id (pflat (pit s))) /\
  (forall pn nid e, In (pn, nid, e) (pflat (pit s)) ->
     exists r, get_int s (e_id e) = Some r /\ i_name r = pn /\ i_node r = nid /\ e = entry_of (e_id e) r).

Definition inv_struct (s : st) : Prop :=
  NoDup (map fst (ints s)) /\ pit_ok s /\
  (forall i r, get_int s i = Some r -> mem i (pit_entries s) = pendingb r).

Definition srep (fe : frontend) (sb : bool) (s : st) (sg : N -> istate) : Prop :=
  inv_struct s /\
  forall i, match get_int s i with Some r => rep fe sb (now s) r (sg i) | None => sg i = INone end.

Lemma srep_inv fe sb s sg : srep fe sb s sg -> inv_struct s.
Proof. intros [A _]. exact A. Qed.

Lemma srep_get fe sb s sg i :
  srep fe sb s sg -> match get_int s i with Some r => rep fe sb (now s) r (sg i) | None => sg i = INone end.
Proof. intros [_ R]. exact (R i). Qed.

Lemma srep_rec fe sb s sg i r : srep fe sb s sg -> get_int s i = Some r -> rep fe sb (now s) r (sg i).
Proof. intros SR G. pose proof (srep_get _ _ _ _ i SR) as R. rewrite G in R. exact R. Qed.

Lemma srep_abs fe sb s sg i : srep fe sb s sg -> abs s i = sg i.
Proof.
  intros SR. pose proof (srep_get _ _ _ _ i SR) as R. unfold abs.
  destruct (get_int s i); [exact (rep_abs _ _ _ _ _ R) | symmetry; exact R].
Qed.

Lemma srep_none fe sb s sg i : srep fe sb s sg -> sg i = INone -> get_int s i = None.
Proof.
  intros SR E. pose proof (srep_get _ _ _ _ i SR) as R. rewrite E in R. destruct (get_int s i); [inversion R | reflexivity].
Qed.

Lemma srep_weaken fe s sg : srep fe false s sg -> srep fe true s sg.
Proof.
  intros [A B]. split; [exact A|]. intros i. specialize (B i). destruct (get_int s i); [apply rep_weaken, B | exact B].
Qed.

Lemma srep_ext fe sb s sg sg' : (forall i, sg i = sg' i) -> srep fe sb s sg -> srep fe sb s sg'.
Proof. intros E [A B]. split; [exact A|]. intros i. rewrite <- E. apply B. Qed.

Lemma srep_pending fe sb s sg i sp :
  srep fe sb s sg -> (sg i = IPending sp <-> exists r, get_int s i = Some r /\ pendingb r = true /\ sp = spec_of r).
Proof.
  intros SR. pose proof (srep_get _ _ _ _ i SR) as R. destruct (get_int s i) as [r|].
  - pose proof (rep_pendingb _ _ _ _ _ R) as P. split.
    + intros E. rewrite E in *. exists r. repeat split; [exact P | exact (rep_spec _ _ _ _ _ R)].
    + intros (r' & [= <-] & P' & ->). rewrite P' in P. destruct (sg i); try discriminate P. f_equal. exact (rep_spec _ _ _ _ _ R).
  - rewrite R. split; [discriminate | intros (r' & E & _); discriminate].
Qed.

Lemma same_static_refl r : same_static r r. Proof. repeat split. Qed.
Lemma same_static_trans a b c : same_static a b -> same_static b c -> same_static a c.
Proof. unfold same_static. intuition congruence. Qed.

Local Ltac ss := unfold same_static; cbn; repeat split; reflexivity.
Lemma ss_set_fut r f : same_static r (set_fut r f). Proof. ss. Qed.
Lemma ss_set_wait r f : same_static r (set_wait r f). Proof. ss. Qed.
Lemma ss_set_timer r f : same_static r (set_timer r f). Proof. ss. Qed.
Lemma ss_set_tfired r f : same_static r (set_tfired r f). Proof. ss. Qed.
Lemma ss_set_xc r f : same_static r (set_xc r f). Proof. ss. Qed.
Lemma ss_set_val r f : same_static r (set_val r f). Proof. ss. Qed.

Lemma ss_await fe nw r : same_static r (await_rec fe nw r).
Proof. unfold await_rec. destruct (i_wait r); try apply same_static_refl. ss. Qed.

Lemma inv_nodup s : inv_struct s -> NoDup (map fst (ints s)).
Proof. intros [K _]. exact K. Qed.

Lemma inv_pit_ok s : inv_struct s -> pit_ok s.
Proof. intros [_ [P _]]. exact P. Qed.

Lemma inv_pending s : inv_struct s -> forall i r, get_int s i = Some r -> mem i (pit_entries s) = pendingb r.
Proof. intros [_ [_ M]]. exact M. Qed.

Lemma pit_ok_nonempty s : pit_ok s -> forall pn nid es, In (pn, (nid, es)) (pit s) -> es <> [].
Proof. intros [_ [NE _]]. exact NE. Qed.

Lemma pit_ok_entry s i x :
  pit_ok s -> In x (pflat (pit s)) -> flat_id x = i ->
  exists r, get_int s i = Some r /\ x = (i_name r, i_node r, entry_of i r).
Proof.
  intros [_ [_ [_ E]]] I X. destruct x as [[pn nid] e]. unfold flat_id in X; cbn in X. subst.
  destruct (E pn nid e I) as [r [G [A [B C]]]]. exists r; split; auto. congruence.
Qed.

Lemma mem_hits s i r h :
  pit_ok s -> get_int s i = Some r ->
  mem i (pit_hits h (pit s)) = mem i (pit_entries s) && h (i_name r) (i_node r) (entry_of i r).
Proof.
  intros P G. apply Bool.eq_iff_eq_true. rewrite andb_true_iff, !mem_In.
  rewrite pit_entries_flat, pit_hits_flat, !in_map_iff. split.
  - intros [x [X I]]. apply filter_In in I. destruct I as [I L]. split; [eauto|].
    destruct (pit_ok_entry s i x P I X) as [r' [G' ->]]. rewrite G in G'; inversion G'; subst. exact L.
  - intros [[x [X I]] L]. exists x; split; auto. apply filter_In; split; auto.
    destruct (pit_ok_entry s i x P I X) as [r' [G' ->]]. rewrite G in G'; inversion G'; subst. exact L.
Qed.

Lemma mem_pit_map s s' i r kp :
  pit_ok s -> get_int s i = Some r -> pit s' = pit_map kp (pit s) ->
  mem i (pit_entries s') = mem i (pit_entries s) && kp (i_name r) (i_node r) (entry_of i r).
Proof.
  intros P G E. rewrite <- (mem_hits s i r kp P G). rewrite pit_entries_flat, E, pflat_pit_map, pit_hits_flat. reflexivity.
Qed.

Lemma mem_entries_has_rec s i : pit_ok s -> mem i (pit_entries s) = true -> exists r, get_int s i = Some r.
Proof.
  intros P M. apply mem_In in M. rewrite pit_entries_flat in M. apply in_map_iff in M.
  destruct M as [x [X I]]. destruct (pit_ok_entry s i x P I X) as [r [G _]]. eauto.
Qed.

Lemma pit_ok_filter s kp : pit_ok s -> pit_ok (set_pit s (pit_map kp (pit s))).
Proof.
  intros [K [NE [ND E]]]. unfold pit_ok. cbn [pit set_pit].
  split; [apply pit_map_keys_nodup; auto|]. split; [|split].
  - intros pn nid es I. apply pit_map_In in I. tauto.
  - rewrite pflat_pit_map. apply NoDup_map_filter. exact ND.
  - intros pn nid e I. rewrite pflat_pit_map in I. apply filter_In in I. apply (E pn nid e), I.
Qed.

Lemma pit_ok_upd_all s g : pit_ok s -> (forall i r, same_static r (f_rec (g i r))) -> pit_ok (upd_all g s).
Proof.
  intros [K [NE [ND E]]] SS. unfold pit_ok. rewrite upd_all_pit. repeat split; auto.
  intros pn nid e I. destruct (E pn nid e I) as [r [G [A [B C]]]].
  rewrite get_int_upd_all, G; cbn. eexists; split; [reflexivity|]. destruct (SS (e_id e) r) as [S1 [S2 [S3 [S4 [S5 [S6 S7]]]]]].
  repeat split; try congruence. rewrite C. unfold entry_of; cbn. rewrite S2, S3. reflexivity.
Qed.

Lemma abs_done_iff r o : abs_rec r = IDone o <-> exists t, i_wait r = WDone o t.
Proof.
  unfold abs_rec. destruct (i_wait r) eqn:W.
  1-3: split; [destruct (i_val r); discriminate | intros [t E]; discriminate].
  split; [intros E; inversion E; eauto | intros [t' E]; inversion E; reflexivity].
Qed.

Definition plain_event (e : ev) : bool :=
  match e with Express _ _ _ _ _ _ _ | Await _ _ => false | _ => true end.

(* the events other than Express (Await included) as one table: the synchronous effect on record [i] at time [nw]
   ([hit]: its PIT entry is among those the event hits) *)
Definition ev_rec (fe : frontend) (nw : N) (e : ev) (hit : bool) (i : N) : irec -> eff :=
  match e with
  | Await j _ => fun r => if i =? j then only (await_rec fe nw r) else keep r
  | Data d _ _ _ => fun r => if hit then sat_rec fe d r else keep r
  | Nack _ _ x _ => fun r => if hit then nack_rec x r else keep r
  | VDone j v _ => fun r => if i =? j then vdone_rec fe nw i v r else keep r
  | Cancel j _ => fun r => if i =? j then only (cancel_rec r) else keep r
  | Shutdown _ => fun r => if hit then only (set_fut r (fut_cancel (i_fut r))) else keep r
  | _ => keep
  end.
