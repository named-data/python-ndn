(* T2 bridge for tlv_var.shrink_length: the function translated from the source on this run computes what the
   hand-written offset model computes, on every well-formed buffer that begins with a Type and a Length of at least
   [val] > 0; hence, on the inputs the encoders produce (an element whose value ends with [val] unused bytes), the
   canonical shorter element (C01_shrink). *)
From NDN Require Import Base.Prelude Base.PyPrim Model.TlvVar Model.Tlv Proofs.BytesLemmas Proofs.TlvVarProofs
  Proofs.TlvVarBridge Proofs.TlvSplit Proofs.ShrinkProofs.
Local Open Scope Z_scope.

(* Well-formedness gives the size bounds ([tl_dec_inv]) by which the three struct.pack_into land inside the buffer. *)
Theorem gen_shrink_agree w (val : nat) typ tlen size slen :
  wf_bytes w -> tl_dec w = Ok (typ, tlen) -> tl_dec (skipn tlen w) = Ok (size, slen) ->
  (N.of_nat val <= size)%N -> (0 < val <= length w)%nat ->
  Generated.TlvVarGen.shrink_length w (Z.of_nat val) = shrink_length w val.
Proof.
  intros Hw E1 E2 Hsz Hval.
  destruct (tl_dec_inv _ _ _ Hw E1) as (L1 & Ht & St & _).
  destruct (tl_dec_inv _ _ _ (Forall_skipn _ tlen w Hw) E2) as (L2 & Hs & Ss & _). rewrite skipn_length in L2.
  unfold Generated.TlvVarGen.shrink_length, shrink_length.
  change 0 with (Z.of_nat 0). rewrite gen_parse_nat. cbn [skipn]. rewrite E1. cbn [map_res bind zpair fst snd].
  rewrite gen_parse_nat, E2. cbn [map_res bind zpair fst snd].
  replace (size <? N.of_nat val)%N with false by lia.
  set (real := (size - N.of_nat val)%N).
  replace (Z.of_N size - Z.of_nat val) with (Z.of_N real) by (unfold real; lia).
  assert (Hreal : (real < two64)%N) by (unfold real; lia).
  assert (Hrs : (tl_size real <= tl_size size)%nat) by (apply tl_size_mono; unfold real; lia).
  rewrite gen_write_eq by (exact Hreal || lia). cbn [bind].
  pose proof (splice_length_ge w tlen (tl_enc real)) as G1. set (w1 := splice w tlen (tl_enc real)) in *.
  replace (Z.of_nat (tl_size real) =? Z.of_nat slen) with (Nat.eqb (tl_size real) slen)
    by (destruct (Nat.eqb_spec (tl_size real) slen); lia).
  destruct (Nat.eqb (tl_size real) slen) eqn:E.
  - rewrite py_slice_neg_end, py_slice_to by lia. reflexivity.
  - apply Nat.eqb_neq in E.
    replace (Z.of_nat slen - Z.of_nat (tl_size real)) with (Z.of_nat (slen - tl_size real)) by lia.
    set (diff := (slen - tl_size real)%nat).
    rewrite gen_write_eq by (exact Ht || (unfold diff; lia)). cbn [bind].
    pose proof (splice_length_ge w1 diff (tl_enc typ)) as G2. set (w2 := splice w1 diff (tl_enc typ)) in *.
    replace (Z.of_nat tlen + Z.of_nat diff) with (Z.of_nat (tlen + diff)) by lia.
    rewrite gen_write_eq by (exact Hreal || (unfold diff; lia)). cbn [bind].
    pose proof (splice_length_ge w2 (tlen + diff) (tl_enc real)) as G3.
    rewrite py_slice_neg_end, py_slice_nat by lia. reflexivity.
Qed.

Theorem gen_shrink_eq t p pad :
  (t < two64)%N -> (N.of_nat (length (p ++ pad)) < two64)%N -> (0 < length pad)%nat -> wf_bytes (p ++ pad) ->
  Generated.TlvVarGen.shrink_length (tlv t (p ++ pad)) (Z.of_nat (length pad)) = Ok (tlv t p).
Proof.
  intros Ht Hl Hpad Hw. rewrite <- (shrink_length_correct t p pad Ht Hl).
  destruct (tl_header t (p ++ pad) [] Ht Hl) as (E1 & E2 & _). rewrite app_nil_r in E1, E2.
  apply (gen_shrink_agree _ _ _ _ _ _ ) with (2 := E1) (3 := E2).
  - unfold tlv. apply Forall_app; split; [apply tl_enc_wf, Ht|apply Forall_app; split; [apply tl_enc_wf, Hl|exact Hw]].
  - rewrite app_length. lia.
  - rewrite tlv_length, !app_length. lia.
Qed.
