(* C17, protocol part — basic lemmas: the specification automata over an extended log, what [proto_ok] gives, and
   what a call returns ([finish]). *)
From NDN Require Import Base.Prelude Model.TlvVar Model.Tlv Model.NfdMgmt Model.Registerer
  Spec.Registration Proofs.ListLemmas Proofs.BytesLemmas Proofs.TlvAssign Proofs.NfdMgmtProofs.
Local Open Scope N_scope.

Lemma map_upd_same {A B} (F : A -> B) (l : list A) i g :
  (forall c, F (g c) = F c) -> map F (upd l i g) = map F l.
Proof.
  intros H. revert i. induction l as [|y r IH]; intros [|i]; cbn [upd map]; try reflexivity.
  - now rewrite H.
  - now rewrite IH.
Qed.

Lemma upd_preserves_length {A} (acc : list A) i f : length (upd acc i f) = length acc.
Proof. apply upd_length. Qed.

(* not [ListLemmas.firstn_app_le]: the lists come first here *)
Lemma firstn_app_le {A} (l r : list A) i : (i <= length l)%nat -> firstn i (l ++ r) = firstn i l.
Proof. apply ListLemmas.firstn_app_le. Qed.

Lemma check_app {S} (stp : option S -> obs -> option S) i l ex :
  check stp i (l ++ ex) = fold_left stp ex (check stp i l).
Proof. apply fold_left_app. Qed.
Lemma check_snoc {S} (stp : option S -> obs -> option S) i l o : check stp i (l ++ [o]) = stp (check stp i l) o.
Proof. exact (check_app stp i l [o]). Qed.

(* an automaton that has failed stays failed *)
Lemma fold_failed {S} {stp : option S -> obs -> option S} {l t} :
  fold_left stp l None = Some t -> (forall o, stp None o = None) -> False.
Proof. intros H Hn. rewrite (fold_left_fixed stp None Hn) in H. discriminate. Qed.

Lemma check_prefix {S} (stp : option S -> obs -> option S) i l1 l2 t :
  (forall o, stp None o = None) -> check stp i (l1 ++ l2) = Some t ->
  exists t1, check stp i l1 = Some t1 /\ fold_left stp l2 (Some t1) = Some t.
Proof.
  intros Hn H. rewrite check_app in H. destruct (check stp i l1) as [t1|]; [now exists t1|].
  destruct (fold_failed H Hn).
Qed.

Lemma proto_ok_inv p : proto_ok p = true ->
  p_sem p = true /\ ts_mode_ok (p_ts p) = true /\ p_recorded p = true /\ p_checks p = true /\ p_cmp p = CNe /\
  p_code p = 200 /\ p_catch_decode p = true /\ p_catch_express p = true /\ p_body_optional p = true.
Proof.
  unfold proto_ok. rewrite !andb_true_iff, N.eqb_eq. intros [[[[[[[[A B] C] D] E] F] G] H] K].
  destruct (p_cmp p); try discriminate. repeat split; assumption.
Qed.

Lemma status_200_parse c :
  status_200 c = match parse_response c with Ok (VUint n, _, _) => n =? 200 | _ => false end.
Proof.
  unfold status_200, parse_response, parse_response_gen. destruct c as [b|]; [|reflexivity].
  destruct (parse_and_check_tl b RESPONSE_TYPE) as [v|]; cbn [bind]; [|reflexivity].
  destruct (parse_model (depth_of CR) CR false v) as [vs|] eqn:E; cbn [bind]; [|reflexivity].
  apply parse_model_length in E. change (length CR) with 3%nat in E.
  destruct vs as [|sc [|st [|body [|x r]]]]; try discriminate.
  destruct body; reflexivity.
Qed.

(* what the checking front-ends make of a reply's content *)
Lemma parse_outcome c :
  match parse_response c with
  | Ok (VUint n, _, _) => Ret (negb (cmp_fail CNe n 200))
  | Ok _ => Ret false
  | Err e => if decode_class e then Ret false else Raise e
  end = Ret (status_200 c).
Proof.
  rewrite status_200_parse. destruct (parse_response c) as [[[sc st] ps]|e] eqn:E.
  - destruct sc; try reflexivity. unfold cmp_fail. now rewrite Bool.negb_involutive.
  - now rewrite (parse_response_errors c e E).
Qed.

(* C17: what a call returns for each kind of reply: True exactly for a decodable response with status 200,
   False otherwise, never an exception *)
Theorem finish_ok p r : proto_ok p = true -> finish p r = Ret (answers_200 (p_validates p) r).
Proof.
  intros H. destruct (proto_ok_inv p H) as (_ & _ & _ & Hc & Hcmp & Hcode & Hcd & Hce & Hbo).
  unfold finish. rewrite Hc, Hcmp, Hcode, Hcd, Hce, Hbo. destruct r as [c ok|rs|]; try reflexivity.
  unfold answers_200. change (parse_response_gen true c) with (parse_response c).
  (* a Data that fails a validating front-end's check is a failure before it is parsed *)
  destruct (p_validates p), ok; cbn [andb negb orb]; [|reflexivity| |]; exact (parse_outcome c).
Qed.
