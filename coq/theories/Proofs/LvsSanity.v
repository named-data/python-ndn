(* Checker._sanity_check (Model/LvsChecker.sanity_check) against the documented loader rules (Spec/LvsSem.sane).
   [sane] is read along the tree: [subtree_ok m cur up] unfolds node by node in the order of the dfs ([subtree_ok_iff]);
   the matching machine and the proof that compiled models are sane walk the tree by it as well.  The recursion depth
   of the dfs never exceeds the number of nodes, so [sanity_fuel] is enough: no RecursionError.  [saneb] is the
   executable form used by the harness oracle. *)
From NDN Require Import Base.Prelude Model.LvsAst Model.LvsChecker Spec.LvsSem Proofs.ListLemmas Proofs.LvsTraverse.
From Coq Require FinFun.
Local Open Scope N_scope.

Lemma rfold_app {A B} (f : A -> B -> res A) l1 l2 a :
  rfold f (l1 ++ l2) a = do a' <- rfold f l1 a ;; rfold f l2 a'.
Proof.
  revert a; induction l1 as [|x l1 IH]; intros a; cbn; [reflexivity|].
  destruct (f a x); cbn; auto.
Qed.

Lemma get_node_nth m i : get_node m i = nth_error (m_nodes m) (N.to_nat i).
Proof.
  unfold get_node. destruct (N.ltb_spec i (N.of_nat (length (m_nodes m)))); [reflexivity|].
  symmetry. apply nth_error_None. lia.
Qed.

Lemma get_node_lt m i nd : get_node m i = Some nd -> i < N.of_nat (length (m_nodes m)).
Proof. rewrite get_node_nth. intros H. assert (N.to_nat i < length (m_nodes m))%nat by (apply nth_error_Some; congruence). lia. Qed.

Lemma get_node_in m i nd : get_node m i = Some nd -> In nd (m_nodes m).
Proof. rewrite get_node_nth. apply nth_error_In. Qed.

Lemma get_node_some m k : k < N.of_nat (length (m_nodes m)) -> exists nd, get_node m k = Some nd.
Proof.
  intros H. rewrite get_node_nth. destruct (nth_error (m_nodes m) (N.to_nat k)) as [nd|] eqn:E; [eauto|].
  apply nth_error_None in E. lia.
Qed.

Lemma optN_eqb_eq a b : optN_eqb a b = true <-> a = b.
Proof.
  destruct a, b; cbn; try (split; congruence). rewrite N.eqb_eq. split; congruence.
Qed.

Lemma nmem_in x l : nmem x l = true <-> In x l.
Proof. apply (existsb_eqb_in N.eqb N.eqb_eq). Qed.

Lemma in_dests_v nd ve : In ve (n_vedges nd) -> In (ve_dest ve) (dests nd).
Proof. intros H. apply in_or_app. left. apply in_map, H. Qed.
Lemma in_dests_p nd pe : In pe (n_pedges nd) -> In (pe_dest pe) (dests nd).
Proof. intros H. apply in_or_app. right. apply in_map, H. Qed.
Lemma in_dests nd d : In d (dests nd) ->
  (exists ve, In ve (n_vedges nd) /\ ve_dest ve = d) \/ (exists pe, In pe (n_pedges nd) /\ pe_dest pe = d).
Proof.
  intros H. apply in_app_or in H. destruct H as [H|H]; apply in_map_iff in H; destruct H as (e & He & Hin); [left | right]; eauto.
Qed.

Lemma child_ok_inv m src d : child_ok m src d = true ->
  exists c nd, d = Some c /\ get_node m c = Some nd /\ n_parent nd = Some src.
Proof.
  unfold child_ok. destruct d as [c|]; [|discriminate].
  destruct (get_node m c) as [nd|] eqn:Eg; [|discriminate].
  destruct (n_parent nd) as [p|] eqn:Ep; [|discriminate].
  intros H. apply N.eqb_eq in H. subst. exists c, nd. auto.
Qed.

Lemma child_ok_intro m src c nd : get_node m c = Some nd -> n_parent nd = Some src -> child_ok m src (Some c) = true.
Proof. unfold child_ok. intros -> ->. apply N.eqb_refl. Qed.

Lemma node_ok_iff m i nd : get_node m i = Some nd ->
  (node_ok m i = true <->
   n_id nd = Some i /\
   (forall ve, In ve (n_vedges nd) -> child_ok m i (ve_dest ve) = true /\ nonempty (ve_value ve) = true) /\
   (forall pe, In pe (n_pedges nd) ->
      child_ok m i (pe_dest pe) = true /\ is_some (pe_tag pe) = true /\ forallb (forallb option_ok) (pe_cons pe) = true) /\
   forall k, In k (n_sign nd) -> k < N.of_nat (length (m_nodes m))).
Proof.
  intros Hn. unfold node_ok. rewrite Hn.
  change (match n_id nd with Some j => j =? i | None => false end) with (optN_eqb (n_id nd) (Some i)). split.
  - intros H. apply andb_prop in H. destruct H as [H H4]. apply andb_prop in H. destruct H as [H H3].
    apply andb_prop in H. destruct H as [H1 H2]. split; [apply optN_eqb_eq, H1|]. split; [|split].
    + intros ve Hin. apply andb_prop, (forallb_in _ _ ve H2 Hin).
    + intros pe Hin. pose proof (forallb_in _ _ pe H3 Hin) as H. apply andb_prop in H. destruct H as [H Ho].
      apply andb_prop in H. tauto.
    + intros k Hin. apply N.ltb_lt, (forallb_in _ _ k H4 Hin).
  - intros (H1 & H2 & H3 & H4). repeat (apply andb_true_intro; split); [apply optN_eqb_eq, H1 | | |]; apply forallb_forall.
    + intros ve Hin. apply andb_true_intro, H2, Hin.
    + intros pe Hin. destruct (H3 pe Hin) as (Hc & Ht & Ho). apply andb_true_intro. split; [apply andb_true_intro; split; [exact Hc | exact Ht] | exact Ho].
    + intros k Hin. apply N.ltb_lt, H4, Hin.
Qed.

Inductive reach_from (m : lvsmodel) (r : N) : N -> Prop :=
| rf_refl : reach_from m r r
| rf_edge a nd d : reach_from m r a -> get_node m a = Some nd -> In (Some d) (dests nd) -> reach_from m r d.

Lemma reach_from_trans m r a b : reach_from m r a -> reach_from m a b -> reach_from m r b.
Proof. intros H1 H2. induction H2; [assumption | eapply rf_edge; eauto]. Qed.

Lemma reach_from_step m cur nd d i :
  get_node m cur = Some nd -> In (Some d) (dests nd) -> reach_from m d i -> reach_from m cur i.
Proof. intros Hn Hd H. eapply reach_from_trans; [eapply rf_edge; [apply rf_refl| |]; eauto | exact H]. Qed.

Lemma reach_from_inv m cur i :
  reach_from m cur i -> i = cur \/ exists nd d, get_node m cur = Some nd /\ In (Some d) (dests nd) /\ reach_from m d i.
Proof.
  induction 1 as [|a nd d Hr IH Hn Hd]; [left; reflexivity|].
  right. destruct IH as [->|(nd0 & d0 & Hn0 & Hd0 & Hr0)].
  - exists nd, d. repeat split; auto. apply rf_refl.
  - exists nd0, d0. repeat split; auto. eapply rf_edge; eauto.
Qed.

Lemma reach_from_start m s i : m_start m = Some s -> (reach m i <-> reach_from m s i).
Proof.
  intros Hs. split.
  - induction 1 as [s' Hs'|a nd d Hr IH Hn Hd]; [|eapply rf_edge; eauto].
    rewrite Hs in Hs'. injection Hs' as <-. apply rf_refl.
  - induction 1; [apply reach_start; assumption | eapply reach_edge; eauto].
Qed.

Definition subtree_ok (m : lvsmodel) (cur : N) (up : option N) : Prop :=
  (exists nd, get_node m cur = Some nd /\ n_parent nd = up) /\ forall i, reach_from m cur i -> node_ok m i = true.

(* the clauses come in the order in which [dfs] tests them *)
Lemma subtree_ok_iff m cur up :
  subtree_ok m cur up <->
  exists nd, get_node m cur = Some nd /\ n_id nd = Some cur /\ n_parent nd = up /\
    (forall ve, In ve (n_vedges nd) ->
       exists d, ve_dest ve = Some d /\ nonempty (ve_value ve) = true /\ subtree_ok m d (Some cur)) /\
    (forall pe, In pe (n_pedges nd) ->
       exists d, pe_dest pe = Some d /\ exists t, pe_tag pe = Some t /\ subtree_ok m d (Some cur) /\
       forall cons, In cons (pe_cons pe) -> forall op, In op cons -> option_ok op = true) /\
    forall k, In k (n_sign nd) -> k < N.of_nat (length (m_nodes m)).
Proof.
  split.
  - intros ((nd & Hn & Hp) & Hall). exists nd.
    destruct (proj1 (node_ok_iff m cur nd Hn) (Hall cur (rf_refl m cur))) as (Hid & Hve & Hpe & Hsg).
    assert (Hsub : forall d, In d (dests nd) -> child_ok m cur d = true -> exists c, d = Some c /\ subtree_ok m c (Some cur)).
    { intros d Hd Hc. apply child_ok_inv in Hc. destruct Hc as (c & cnd & -> & Hg & Hpc). exists c. split; [reflexivity|].
      split; [eauto|]. intros i Hr. apply Hall. eapply reach_from_step; eauto. }
    split; [exact Hn|]. split; [exact Hid|]. split; [exact Hp|]. split; [|split; [|exact Hsg]].
    + intros ve Hin. destruct (Hve ve Hin) as [Hc Hne]. destruct (Hsub _ (in_dests_v nd ve Hin) Hc) as (d & Hd & Hs). eauto.
    + intros pe Hin. destruct (Hpe pe Hin) as (Hc & Ht & Ho). destruct (Hsub _ (in_dests_p nd pe Hin) Hc) as (d & Hd & Hs).
      exists d. split; [exact Hd|]. destruct (pe_tag pe) as [t|]; [|discriminate]. exists t. split; [reflexivity|]. split; [exact Hs|].
      intros cons Hcin op Hoin. rewrite forallb_forall in Ho. specialize (Ho cons Hcin). rewrite forallb_forall in Ho. auto.
  - intros (nd & Hn & Hid & Hp & Hve & Hpe & Hsg). split; [eauto|].
    intros i Hr. apply reach_from_inv in Hr. destruct Hr as [->|(nd0 & d & Hn0 & Hd & Hr)].
    + apply (node_ok_iff m cur nd Hn). split; [exact Hid|]. split; [|split; [|exact Hsg]].
      * intros ve Hin. destruct (Hve ve Hin) as (d & -> & Hne & (cnd & Hg & Hpc) & _). split; [eapply child_ok_intro; eauto | exact Hne].
      * intros pe Hin. destruct (Hpe pe Hin) as (d & -> & t & -> & ((cnd & Hg & Hpc) & _) & Ho).
        split; [eapply child_ok_intro; eauto|]. split; [reflexivity|].
        apply forallb_forall. intros cons Hcin. apply forallb_forall. exact (Ho cons Hcin).
    + rewrite Hn in Hn0. injection Hn0 as <-. destruct (in_dests nd _ Hd) as [(ve & Hin & E)|(pe & Hin & E)].
      * destruct (Hve ve Hin) as (d0 & E0 & _ & _ & Hall). rewrite E in E0. injection E0 as <-. auto.
      * destruct (Hpe pe Hin) as (d0 & E0 & _ & _ & (_ & Hall) & _). rewrite E in E0. injection E0 as <-. auto.
Qed.

(* the specification's version bounds (MIN_SUPPORTED_VERSION, SUPPORTED_VERSION) are the checker's constants *)
Lemma version_supported_ok m : version_supported m = version_ok (m_version m).
Proof. reflexivity. Qed.

Lemma sane_iff m : sane m <-> version_ok (m_version m) = true /\ exists s, m_start m = Some s /\ subtree_ok m s None.
Proof.
  unfold sane, root_ok. rewrite version_supported_ok. split.
  - intros (Hv & Hroot & Hall). split; [exact Hv|].
    destruct (m_start m) as [s|] eqn:Es; [|discriminate].
    destruct (get_node m s) as [nd|] eqn:En; [|discriminate].
    destruct (n_parent nd) eqn:Ep; [discriminate|].
    exists s. split; [reflexivity|]. split; [eauto|]. intros i Hr. apply Hall, (reach_from_start m s i Es), Hr.
  - intros (Hv & s & Es & (nd & Hn & Hp) & Hall). rewrite Es, Hn, Hp. split; [exact Hv|]. split; [reflexivity|].
    intros i Hr. apply Hall, (reach_from_start m s i Es), Hr.
Qed.

Fixpoint achain (m : lvsmodel) (l : list N) : Prop :=
  match l with
  | [] => True
  | x :: r => (exists nd, get_node m x = Some nd /\ n_parent nd = hd_error r) /\ achain m r
  end.

Lemma achain_det m : forall r r' x, achain m (x :: r) -> achain m (x :: r') -> r = r'.
Proof.
  induction r as [|y r IH]; intros r' x [(nd & Hn & Hp) Hr] [(nd' & Hn' & Hp') Hr'];
    rewrite Hn in Hn'; injection Hn' as <-; rewrite Hp in Hp'.
  - destruct r'; [reflexivity|discriminate].
  - destruct r' as [|y' r']; [discriminate|]. injection Hp' as <-. f_equal. eapply IH; eauto.
Qed.

Lemma achain_suffix m l1 l2 : achain m (l1 ++ l2) -> achain m l2.
Proof. induction l1 as [|x l1 IH]; cbn; [auto|]. intros [_ H]. auto. Qed.

(* the chain above a node is determined by the node ([achain_det]); were x to occur again further up, the chain above x
   would be a proper suffix of itself *)
Lemma achain_nodup m l : achain m l -> NoDup l.
Proof.
  induction l as [|x r IH]; intros H; [constructor|].
  constructor; [|apply IH; apply H].
  intros Hin. apply in_split in Hin. destruct Hin as (l1 & l2 & E).
  assert (H2 : achain m (x :: l2)). { apply (achain_suffix m l1). rewrite <- E. apply H. }
  pose proof (achain_det m _ _ _ H H2) as Er. rewrite E in Er at 1.
  apply (f_equal (@length N)) in Er. rewrite app_length in Er. cbn in Er. lia.
Qed.

Lemma achain_bound m l : achain m l -> (length l <= length (m_nodes m))%nat.
Proof.
  intros H. pose proof (achain_nodup m l H) as Hnd.
  assert (Hlt : forall x, In x l -> x < N.of_nat (length (m_nodes m))).
  { clear Hnd. induction l as [|y r IH]; intros x Hin; [destruct Hin|].
    destruct H as [(nd & Hn & _) Hr]. destruct Hin as [->|Hin]; [eapply get_node_lt; eauto | apply IH; auto]. }
  assert (Hnd' : NoDup (map N.to_nat l)).
  { apply FinFun.Injective_map_NoDup; [|exact Hnd]. intros a b E. apply N2Nat.inj. exact E. }
  pose proof (NoDup_incl_length Hnd' (l' := seq 0 (length (m_nodes m)))) as Hl.
  rewrite map_length, seq_length in Hl. apply Hl.
  intros k Hk. apply in_map_iff in Hk. destruct Hk as (x & <- & Hx). apply Hlt in Hx.
  apply in_seq. lia.
Qed.

(* adj_lst[k].append(v) on the signing graph: nothing happens to a key that is absent *)
Lemma adj_append_spec adj k v :
  map fst (adj_append adj k v) = map fst adj /\
  forall e, In e (adj_edges (adj_append adj k v)) <-> In e (adj_edges adj) \/ In k (map fst adj) /\ e = (k, v).
Proof.
  unfold adj_append. destruct (al_get optN_eqb adj k) as [l|] eqn:E.
  - assert (Hk : In k (map fst adj)) by (apply (al_get_in optN_eqb optN_eqb_eq); eauto).
    destruct (al_append_edges optN_eqb optN_eqb_eq adj k l v E) as [Hkeys Hed]. split; [exact Hkeys|]. intros e. rewrite Hed. tauto.
  - apply (al_get_none optN_eqb optN_eqb_eq) in E. split; [reflexivity | tauto].
Qed.

Definition grows (P : option N -> N -> Prop) (a a' : sacc) : Prop :=
  map fst (sa_adj a') = map fst (sa_adj a) /\
  forall x k, In (x, k) (adj_edges (sa_adj a')) <-> In (x, k) (adj_edges (sa_adj a)) \/ In x (map fst (sa_adj a)) /\ P x k.

Lemma grows_iff (P P' : option N -> N -> Prop) a a' : (forall x k, P x k <-> P' x k) -> grows P a a' -> grows P' a a'.
Proof. intros HP [K E]. split; [exact K|]. intros x k. rewrite E, HP. reflexivity. Qed.

Lemma grows_trans P Q a a1 a2 : grows P a a1 -> grows Q a1 a2 -> grows (fun x k => P x k \/ Q x k) a a2.
Proof.
  intros [K1 E1] [K2 E2]. split; [congruence|]. intros x k. split.
  - intros H. apply E2 in H. destruct H as [H|[Hk HQ]]; [apply E1 in H; destruct H as [H|[Hk HP]]; auto|]. rewrite K1 in Hk. auto.
  - intros [H|[Hk [HP|HQ]]]; apply E2; [left; apply E1; auto | left; apply E1; auto | right; rewrite K1; auto].
Qed.

Lemma grows_adj P a a1 a2 : grows P a a1 -> sa_adj a2 = sa_adj a1 -> grows P a a2.
Proof. unfold grows. intros H ->. exact H. Qed.

Definition own (m : lvsmodel) (cur : N) (x : option N) (k : N) : Prop :=
  exists i nd, x = Some i /\ reach_from m cur i /\ get_node m i = Some nd /\ In k (n_sign nd).

Lemma own_iff m cur nd x k : get_node m cur = Some nd ->
  (own m cur x k <->
   (exists ve, In ve (n_vedges nd) /\ exists d, ve_dest ve = Some d /\ own m d x k) \/
   (exists pe, In pe (n_pedges nd) /\ exists d, pe_dest pe = Some d /\ own m d x k) \/
   (exists k0, In k0 (n_sign nd) /\ x = Some cur /\ k = k0)).
Proof.
  intros En.
  assert (Hchild : forall d, In (Some d) (dests nd) -> own m d x k -> own m cur x k).
  { intros d Hd (i & ndi & -> & Hr & Hg & Hk). exists i, ndi. split; [reflexivity|]. split; [eapply reach_from_step; eauto | auto]. }
  split.
  - intros (i & ndi & -> & Hr & Hg & Hk). apply reach_from_inv in Hr. destruct Hr as [->|(nd0 & d & Hn0 & Hd & Hr)].
    + rewrite En in Hg. injection Hg as <-. right. right. eauto.
    + rewrite En in Hn0. injection Hn0 as <-. assert (Ho : own m d (Some i) k) by (exists i, ndi; auto).
      destruct (in_dests nd _ Hd) as [(ve & Hin & E)|(pe & Hin & E)]; [left | right; left]; eauto.
  - intros [(ve & Hin & d & E & Ho)|[(pe & Hin & d & E & Ho)|(k0 & Hk0 & -> & ->)]].
    + apply (Hchild d); [rewrite <- E; apply in_dests_v, Hin | exact Ho].
    + apply (Hchild d); [rewrite <- E; apply in_dests_p, Hin | exact Ho].
    + exists cur, nd. split; [reflexivity|]. split; [apply rf_refl | auto].
Qed.

Lemma verdict_rfold_grows {B} e (f : sacc -> B -> res sacc) (G : B -> Prop) (Q : B -> option N -> N -> Prop) l a0 :
  (forall b, In b l -> forall a, verdict e (f a b) (G b) (grows (Q b) a)) ->
  verdict e (rfold f l a0) (forall b, In b l -> G b) (grows (fun x k => exists b, In b l /\ Q b x k) a0).
Proof.
  intros Hf. apply (verdict_rfold e f G (fun done => grows (fun x k => exists b, In b done /\ Q b x k) a0)).
  - split; [reflexivity|]. intros x k. split; [auto | intros [H|(_ & b & [] & _)]; exact H].
  - intros done b todo a El Ha. eapply verdict_imp; [reflexivity | | apply Hf; rewrite El; apply in_or_app; right; left; reflexivity].
    intros a1 H1. eapply grows_iff; [|exact (grows_trans _ _ _ _ _ Ha H1)].
    intros x k. split; [intros [(b0 & Hb0 & H)|H]; [exists b0 | exists b]; split; auto; apply in_or_app; cbn; auto|].
    intros (b0 & Hb0 & H). apply in_app_or in Hb0. destruct Hb0 as [Hb0|[<-|[]]]; eauto.
Qed.

Lemma verdict_bind_grows e (r : res sacc) (k : sacc -> res sacc) P P' (X Y : option N -> N -> Prop) a :
  verdict e r P (grows X a) -> (forall a1, verdict e (k a1) P' (grows Y a1)) ->
  verdict e (do a1 <- r ;; k a1) (P /\ P') (grows (fun x k => X x k \/ Y x k) a).
Proof.
  intros H Hk. eapply verdict_bind; [exact H|]. intros a1 H1.
  eapply verdict_imp; [reflexivity | intros a2 H2; exact (grows_trans _ _ _ _ _ H1 H2) | apply Hk].
Qed.

Lemma check_option_verdict a op : verdict ELvsModel (check_option a op) (option_ok op = true) (fun a' => sa_adj a' = sa_adj a).
Proof.
  unfold check_option, opt_shape_ok, option_ok.
  destruct (co_value op), (co_tag op), (co_fn op) as [fn|]; cbn; try (split; [reflexivity | discriminate]); try (split; reflexivity).
  destruct (uf_id fn) as [[|c s]|]; cbn; split; (reflexivity || discriminate).
Qed.

Lemma check_signer_verdict nn cur a k :
  verdict ELvsModel (check_signer nn cur a k) (k < nn) (grows (fun x k' => x = Some cur /\ k' = k) a).
Proof.
  unfold check_signer. destruct (N.leb_spec nn k); cbn; [split; [reflexivity | lia]|]. split; [assumption|].
  destruct (adj_append_spec (sa_adj a) (Some cur) k) as [K E]. split; [exact K|]. cbn [sa_adj]. intros x k'. rewrite E.
  split; [intros [H1|[H1 H2]]; [|injection H2 as -> ->]; auto | intros [H1|[H1 [-> ->]]]; auto].
Qed.

(* [anc]: the ancestors of cur, on the Python stack; [fuel]: room for one frame per node, so the dfs never runs out of
   stack. *)
Theorem dfs_spec m : forall fuel cur up anc a,
  achain m anc -> up = hd_error anc -> (length (m_nodes m) < length anc + fuel)%nat ->
  verdict ELvsModel (dfs fuel m cur up a) (subtree_ok m cur up) (grows (own m cur) a).
Proof.
  induction fuel as [|f IH]; intros cur up anc a Hch Hpar Hlen; [apply achain_bound in Hch; lia|].
  eapply verdict_imp; [symmetry; apply subtree_ok_iff | intros a' H; exact H|]. cbn [dfs].
  apply verdict_some. intros nd En.
  eapply verdict_imp; [reflexivity | intros a'; apply grows_iff; intros x k; symmetry; apply (own_iff m cur nd x k En)|].
  apply verdict_unless; [rewrite negb_false_iff; apply optN_eqb_eq | intros _].
  apply verdict_unless; [rewrite negb_false_iff; apply optN_eqb_eq | intros Epar].
  assert (Hrec : forall d a0, verdict ELvsModel (dfs f m d (Some cur) a0) (subtree_ok m d (Some cur)) (grows (own m d) a0)).
  { intros d a0. apply (IH d (Some cur) (cur :: anc)); [split; [exists nd; split; congruence | exact Hch] | reflexivity | cbn; lia]. }
  assert (Hto : forall (o : option N) d a0 a', o = Some d -> grows (own m d) a0 a' ->
                  grows (fun x k => exists d0, o = Some d0 /\ own m d0 x k) a0 a').
  { intros o d a0 a' -> H. eapply grows_iff; [|exact H]. intros x k. split; [eauto | intros (d0 & E & Ho); injection E as <-; exact Ho]. }
  apply verdict_bind_grows; [|intros a1; apply verdict_bind_grows; [|intros a2]].
  - apply (verdict_rfold_grows _ _ _ (fun ve x k => exists d, ve_dest ve = Some d /\ own m d x k)). intros ve _ a0.
    apply verdict_some. intros d Ed. apply verdict_if. eapply verdict_imp; [reflexivity | intros a'; apply (Hto _ _ _ _ Ed) | apply Hrec].
  - apply (verdict_rfold_grows _ _ _ (fun pe x k => exists d, pe_dest pe = Some d /\ own m d x k)). intros pe _ a0.
    apply verdict_some. intros d Ed. apply verdict_some. intros t _.
    apply (verdict_bind _ _ _ _ (grows (own m d) a0)); [apply Hrec | intros a3 H3].
    (* the option checks leave the graph as the dfs below d left it *)
    eapply verdict_imp; [reflexivity | intros a4 E4; exact (Hto _ _ _ _ Ed (grows_adj _ _ _ _ H3 E4))|].
    apply (verdict_rfold _ _ _ (fun _ a4 => sa_adj a4 = sa_adj a3)); [reflexivity | intros _ cons _ a4 _ E4].
    apply (verdict_rfold _ _ _ (fun _ a5 => sa_adj a5 = sa_adj a3)); [exact E4 | intros _ op _ a5 _ E5].
    eapply verdict_imp; [reflexivity | | apply check_option_verdict]. intros a6 E6. cbn beta in E6. rewrite E6. exact E5.
  - apply (verdict_rfold_grows _ _ _ (fun k0 x k => x = Some cur /\ k = k0)). intros k _ a0. apply check_signer_verdict.
Qed.

Definition sign_graph_passes (m : lvsmodel) (a : sacc) : Prop :=
  exists o, top_order optN_eqb optN_leb ids_sortable (dedup optN_eqb (map n_id (m_nodes m)))
              (map (fun e => (fst e, map Some (snd e))) (sa_adj a)) = Ok o.

Definition sacc0 (m : lvsmodel) : sacc :=
  {| sa_fns := []; sa_indeg := []; sa_adj := map (fun i => (i, [])) (dedup optN_eqb (map n_id (m_nodes m))) |}.

Lemma sacc0_adj m : map fst (sa_adj (sacc0 m)) = dedup optN_eqb (map n_id (m_nodes m)) /\ adj_edges (sa_adj (sacc0 m)) = [].
Proof.
  cbn [sacc0 sa_adj]. split; [rewrite map_map; apply map_id|].
  unfold adj_edges. induction (dedup optN_eqb (map n_id (m_nodes m))); cbn; auto.
Qed.

Definition loader_end (m : lvsmodel) (a : sacc) : res (list ident * list N) :=
  do _ <- top_order optN_eqb optN_leb ids_sortable (dedup optN_eqb (map n_id (m_nodes m)))
            (map (fun e => (fst e, map Some (snd e))) (sa_adj a)) ;;
  Ok (sa_fns a,
      filter (fun n => match get_node m n with Some nd => match n_sign nd with [] => true | _ => false end | None => false end)
             (sa_indeg a)).

(* Either the model breaks a sanity rule and the loader raises LvsModelError, or it satisfies them all, the dfs returns an
   accumulator holding the signer lists of the reachable nodes, and the answer is that of compiler.top_order on it. *)
Theorem loader_cases m :
  (~ sane m /\ sanity_check (sanity_fuel m) m = Err ELvsModel) \/
  (sane m /\ exists s a, m_start m = Some s /\ dfs (sanity_fuel m) m s None (sacc0 m) = Ok a /\ grows (own m s) (sacc0 m) a /\
                         sanity_check (sanity_fuel m) m = loader_end m a).
Proof.
  assert (H : verdict ELvsModel (if negb (version_ok (m_version m)) then Err ELvsModel else
                       match m_start m with Some s => dfs (sanity_fuel m) m s None (sacc0 m) | None => Err ELvsModel end)
                (sane m) (fun a => forall s, m_start m = Some s -> grows (own m s) (sacc0 m) a)).
  { eapply verdict_imp; [symmetry; apply sane_iff | intros a H; exact H|]. apply verdict_unless; [apply negb_false_iff | intros _].
    apply verdict_some. intros s Es.
    eapply verdict_imp; [reflexivity | | apply (dfs_spec m _ s None []); [exact I | reflexivity | unfold sanity_fuel; cbn; lia]].
    intros a Hg s' Es'. rewrite Es in Es'. injection Es' as <-. exact Hg. }
  unfold sanity_check. fold (sacc0 m). destruct (negb (version_ok (m_version m))); [left; destruct H; auto|].
  destruct (m_start m) as [s|]; [|left; destruct H; auto].
  destruct (dfs (sanity_fuel m) m s None (sacc0 m)) as [a|e] eqn:Ed.
  - right. destruct H as [Hs Hg]. split; [exact Hs|]. exists s, a. auto.
  - left. destruct H as [-> H]. auto.
Qed.

Theorem sanity_check_sound m r : sanity_check (sanity_fuel m) m = Ok r -> sane m.
Proof. destruct (loader_cases m) as [[_ E]|[H _]]; [rewrite E; discriminate | auto]. Qed.

Theorem sanity_check_rejects m : ~ sane m -> sanity_check (sanity_fuel m) m = Err ELvsModel.
Proof. destruct (loader_cases m) as [[_ E]|[H _]]; [auto | contradiction]. Qed.

Theorem sanity_check_sane m : sane m ->
  exists s a, m_start m = Some s /\
    dfs (sanity_fuel m) m s None {| sa_fns := []; sa_indeg := [];
                                    sa_adj := map (fun i => (i, [])) (dedup optN_eqb (map n_id (m_nodes m))) |} = Ok a /\
    (sign_graph_passes m a -> exists r, sanity_check (sanity_fuel m) m = Ok r) /\
    (forall e, sanity_check (sanity_fuel m) m = Err e -> ~ sign_graph_passes m a).
Proof.
  intros Hs. destruct (loader_cases m) as [[Hn _]|(_ & s & a & Es & Ed & _ & E)]; [contradiction|].
  exists s, a. split; [exact Es|]. split; [exact Ed|]. rewrite E. unfold loader_end, sign_graph_passes. split.
  - intros (o & ->). cbn [bind]. eauto.
  - intros e He (o & Ho). rewrite Ho in He. discriminate.
Qed.

Lemma closed_contains m r : closedb m r = true -> forall s, nmem s r = true -> forall i, reach_from m s i -> nmem i r = true.
Proof.
  intros Hc s Hs i Hr. induction Hr as [|a nd d Hr IH Hn Hd]; [exact Hs|].
  unfold closedb in Hc. rewrite forallb_forall in Hc. apply nmem_in in IH.
  specialize (Hc a IH). rewrite forallb_forall in Hc. apply Hc.
  unfold valid_dests. rewrite Hn. apply in_flat_map. exists (Some d). split; [exact Hd | left; reflexivity].
Qed.

Theorem saneb_sane m : saneb m = true -> sane m.
Proof.
  unfold saneb. rewrite !andb_true_iff. intros ((((Hver & Hroot) & Hstart) & Hclosed) & Hnodes).
  split; [exact Hver|]. split; [exact Hroot|].
  intros i Hr. destruct (m_start m) as [s|] eqn:Es; [|discriminate]. apply (reach_from_start m s i Es) in Hr.
  rewrite forallb_forall in Hnodes. apply Hnodes, nmem_in. exact (closed_contains m _ Hclosed s Hstart i Hr).
Qed.
