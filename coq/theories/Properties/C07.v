(* C07 — Packet decoders accept exactly the well-formed packets.
   Only statements, [exact]s and Print Assumptions live here.  The clause "every nested element lies
   entirely inside its parent" is FALSE for the library as it stands (Properties/C07Findings.v,
   known findings C07-overrun-...); the theorems below are the parts that hold. *)
From NDN Require Import Base.Prelude Model.TlvVar Model.Name Model.Tlv Model.Packet Spec.StrictTlv.
From NDN Require Import Model.TlvChecked Proofs.PacketChecked.
From NDN Require Import Proofs.TlvMore Proofs.PacketDecode Proofs.PacketTotal Proofs.TlvVarBridge.
Local Open Scope N_scope.

(* every byte string is accepted or rejected with a documented decoding error (DecodeError, IndexError,
   ValueError/UnicodeDecodeError, struct.error); in particular the model's fuel never runs out: decoding
   terminates on every input *)
Theorem C07_total_interest w : res_documented (dec_interest w).
Proof. exact (dec_interest_doc w). Qed.
Theorem C07_total_data w : res_documented (dec_data w).
Proof. exact (dec_data_doc w). Qed.
Theorem C07_total_lp w : res_documented (dec_lp w).
Proof. exact (dec_lp_doc w). Qed.
Theorem C07_total_cert w : res_documented (dec_cert w).
Proof. exact (dec_cert_doc w). Qed.
Print Assumptions C07_total_interest.
Print Assumptions C07_total_cert.

(* whatever a strict reading of the format accepts, the library accepts, with the same fields *)
Theorem C07_strict_implies_accept_interest w vs : strict_interest w = Ok vs -> dec_interest w = Ok vs.
Proof. exact (decode_sound _ _ _ _ w vs). Qed.
Theorem C07_strict_implies_accept_data w vs : strict_data w = Ok vs -> dec_data w = Ok vs.
Proof. exact (decode_sound _ _ _ _ w vs). Qed.
Theorem C07_strict_implies_accept_lp w vs : strict_lp w = Ok vs -> dec_lp w = Ok vs.
Proof. exact (decode_sound _ _ _ _ w vs). Qed.
Theorem C07_strict_implies_accept_cert w vs : strict_cert w = Ok vs -> dec_cert w = Ok vs.
Proof. exact (decode_sound _ _ _ _ w vs). Qed.
Print Assumptions C07_strict_implies_accept_data.

(* partial converse (C07_accept_implies_strict_partial): at any one level, when no element declares a
   Length beyond what is left, the library's split IS the strict split.  The full converse is refuted. *)
Theorem C07_accept_implies_strict_partial fuel w els :
  elements fuel w = Ok els -> Forall exact els -> strict_elements fuel w = Some els.
Proof. exact (elements_exact_strict fuel w els). Qed.
Print Assumptions C07_accept_implies_strict_partial.

(* the converse at EVERY depth, stated against the decoder plus ONE check (Model/TlvChecked.v: the library's
   decoder verbatim, except that an element declaring a Length beyond what is left of its parent is refused --
   the check whose absence is the known finding): that decoder accepts EXACTLY the strictly well-formed packets,
   with the same fields, and it refines the library's decoder.  Hence: accepted by the library, and no
   end-of-parent check would have fired => strictly well-formed, same fields. *)
Theorem C07_checked_iff_strict d fs ic w vs : parse_model_c d fs ic w = Ok vs <-> strict_model d fs ic w = Ok vs.
Proof. exact (checked_iff_strict d fs ic w vs). Qed.
Print Assumptions C07_checked_iff_strict.
Theorem C07_checked_refines d fs ic w vs : parse_model_c d fs ic w = Ok vs -> parse_model d fs ic w = Ok vs.
Proof. exact (checked_refines d fs ic w vs). Qed.
Theorem C07_checked_iff_strict_interest w vs : dec_interest_c w = Ok vs <-> strict_interest w = Ok vs.
Proof. exact (decode_c_iff _ _ _ _ w vs). Qed.
Theorem C07_checked_iff_strict_data w vs : dec_data_c w = Ok vs <-> strict_data w = Ok vs.
Proof. exact (decode_c_iff _ _ _ _ w vs). Qed.
Theorem C07_checked_iff_strict_cert w vs : dec_cert_c w = Ok vs <-> strict_cert w = Ok vs.
Proof. exact (decode_c_iff _ _ _ _ w vs). Qed.
Theorem C07_checked_iff_strict_lp w vs : dec_lp_c w = Ok vs <-> strict_lp w = Ok vs.
Proof. exact (decode_c_iff _ _ _ _ w vs). Qed.
Theorem C07_accept_no_overrun_strict_interest w vs :
  dec_interest w = Ok vs -> (exists vs', dec_interest_c w = Ok vs') -> strict_interest w = Ok vs.
Proof. exact (accept_no_overrun _ _ _ _ w vs). Qed.
Theorem C07_accept_no_overrun_strict_data w vs :
  dec_data w = Ok vs -> (exists vs', dec_data_c w = Ok vs') -> strict_data w = Ok vs.
Proof. exact (accept_no_overrun _ _ _ _ w vs). Qed.
Theorem C07_accept_no_overrun_strict_cert w vs :
  dec_cert w = Ok vs -> (exists vs', dec_cert_c w = Ok vs') -> strict_cert w = Ok vs.
Proof. exact (accept_no_overrun _ _ _ _ w vs). Qed.
Theorem C07_accept_no_overrun_strict_lp w vs :
  dec_lp w = Ok vs -> (exists vs', dec_lp_c w = Ok vs') -> strict_lp w = Ok vs.
Proof. exact (accept_no_overrun _ _ _ _ w vs). Qed.
Print Assumptions C07_accept_no_overrun_strict_interest.

(* mandatory name *)
Theorem C07_name_mandatory_interest w vs :
  dec_interest w = Ok vs -> field_value Generated.Schemas.ndn_format_0_3_InterestPacketValue vs TYPE_NAME <> VNone.
Proof. exact (require_name_inv _ _ vs). Qed.
Theorem C07_name_mandatory_data w vs :
  dec_data w = Ok vs -> field_value Generated.Schemas.ndn_format_0_3_DataPacketValue vs TYPE_NAME <> VNone.
Proof. exact (require_name_inv _ _ vs). Qed.

(* legal integer widths *)
Theorem C07_int_width d fx e v :
  parse_val (S d) (KUint fx) e = Ok v ->
  (e_dlen e = 1 \/ e_dlen e = 2 \/ e_dlen e = 4 \/ e_dlen e = 8) /\
  N.of_nat (length (e_payload e)) = e_dlen e /\ v = VUint (be_to_N (e_payload e)).
Proof. exact (parse_uint_width d fx e v). Qed.

(* recognised critical fields once and in order; unrecognised critical fields refused *)
Theorem C07_critical_once_in_order pv fs pos e r acc :
  N.odd (e_type e) = true ->
  (forall j k, nth_error fs j = Some (e_type e, k) -> (j < pos)%nat) ->
  assign_with pv fs false PNormal pos (e :: r) acc = Err EDecode.
Proof. exact (assign_rejects_out_of_order pv fs pos e r acc). Qed.
Theorem C07_unknown_critical_refused pv fs e0 :
  ~ In (e_type e0) (level_types fs) -> N.odd (e_type e0) = true ->
  forall a b st pos acc, st_ok fs st -> is_ok (assign_with pv fs false st pos (a ++ e0 :: b) acc) = false.
Proof. exact (assign_rejects_critical pv fs e0). Qed.

(* the work is linear: at most |w|/2 elements per level *)
Theorem C07_linear fuel w els : elements fuel w = Ok els -> (2 * length els <= length w)%nat.
Proof. exact (elements_linear fuel w els). Qed.
Print Assumptions C07_linear.

(* non-vacuity: a Data packet /a with content "hi" is accepted by both readers with the same fields *)
Example C07_example :
  let w := [6; 9; 7; 3; 8; 1; 97; 21; 2; 104; 105] in
  exists vs, dec_data w = Ok vs /\ strict_data w = Ok vs /\ field_value Generated.Schemas.ndn_format_0_3_DataPacketValue vs 21 = VBytes [104; 105].
Proof. eexists. vm_compute. repeat split; reflexivity. Qed.

(* T2 tie: the outer Type/Length check translated from the source on this run is the model's *)
Theorem C07_tie_parse_and_check_tl wire (t : N) :
  wf_bytes wire -> Generated.TlvVarGen.parse_and_check_tl wire (Z.of_N t) = parse_and_check_tl wire t.
Proof. exact (Proofs.TlvVarBridge.gen_pact_eq wire t). Qed.
