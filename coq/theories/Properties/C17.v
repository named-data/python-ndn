(* C17 — prefix registration speaks the forwarder management protocol correctly.
   Only statements, [exact]s and Print Assumptions live here.

   Protocol part: [run_events fe clock evs] is the registration machine of Model/Registerer.v for a front-end
   [fe] (how register / unregister are written: the records extracted from the source), ANY clock stream
   [clock : nat -> N] (not even monotone) and ANY event history (calls, replies of every kind to the i-th
   outstanding command, 1 ms ticks, junk, routes, connect / disconnect).  [log] is what an observer sees. *)
From NDN Require Import Base.Prelude Model.TlvVar Model.Name Model.Tlv Spec.TlvWf.
From NDN Require Import Model.NfdMgmt Model.Registerer Spec.Registration Model.NfdEnums Spec.NfdEnums.
From NDN Require Generated.NfdEnums.
From NDN Require Import Proofs.NfdMgmtProofs Proofs.RegistererBase Proofs.RegistererInv
  Proofs.RegSpecMeaning Proofs.RegProtoOk Proofs.NfdEnumsOk.
From Coq Require Import Sorting.Sorted.
Local Open Scope N_scope.

(* ---- the theorems below apply to the code as shipped ------------------------------------------------------------- *)
Theorem C17_shipped_protocols_ok : frontend_ok fe_v2 /\ frontend_ok fe_v1.
Proof. exact (conj shipped_v2_ok shipped_v1_ok). Qed.
Print Assumptions C17_shipped_protocols_ok.

(* ---- codec -------------------------------------------------------------------------------------------------------- *)
(* a register / unregister command is /localhost|localhop/nfd/rib/<verb>/<parameters> and the parameters
   component decodes to parameters naming exactly that prefix *)
Theorem C17_command_names_prefix local verb prefix nm :
  verb = s_register \/ verb = s_unregister ->
  Forall good_comp prefix ->
  make_command_v2 local s_rib verb (params_of_prefix prefix) = Ok nm ->
  N.of_nat (length (concat nm)) < two64 ->
  exists c, nm = [c_of (if local then [108;111;99;97;108;104;111;115;116] else [108;111;99;97;108;104;111;112]);
                  c_of [110;102;100]; c_of s_rib; c_of verb; c] /\
            command_parameters nm = Ok (params_of_prefix prefix).
Proof. exact (command_names_prefix local verb prefix nm). Qed.
Print Assumptions C17_command_names_prefix.

(* ... and so does every command with every legal keyword set *)
Theorem C17_command_parameters_roundtrip local module command cpv nm :
  Forall2 (fun f v => fits (snd f) v) CPV cpv ->
  make_command_v2 local module command cpv = Ok nm ->
  N.of_nat (length (concat nm)) < two64 ->
  exists pre c, nm = pre ++ [c] /\ command_prefix local module command = Ok pre /\ command_parameters nm = Ok cpv.
Proof. exact (command_parameters_roundtrip local module command cpv nm). Qed.
Print Assumptions C17_command_parameters_roundtrip.

(* the command-Interest format of the v1 front-end: the v2 name, then timestamp, nonce, SignatureInfo and
   SignatureValue = SHA-256 over everything before it (sha256 : any function) *)
Theorem C17_command_signed_v1 (sha256 : bytes -> bytes) local module command cpv ts nonce nm :
  make_command sha256 local module command cpv ts nonce = Ok nm ->
  exists base,
    make_command_v2 local module command cpv = Ok base /\ ts < two64 /\ nonce < two64 /\
    let signed := base ++ [comp_enc TYPE_GENERIC (N_to_be 8 ts); comp_enc TYPE_GENERIC (N_to_be 8 nonce);
                           comp_enc TYPE_GENERIC [TYPE_SIGNATURE_INFO; 3; 27; 1; 0]] in
    nm = signed ++ [comp_enc TYPE_GENERIC ([TYPE_SIGNATURE_VALUE; 32] ++ sha256 (concat signed))].
Proof. exact (make_command_shape sha256 local module command cpv ts nonce nm). Qed.
Print Assumptions C17_command_signed_v1.

(* decoding a management response returns the fields that were encoded *)
Theorem C17_response_roundtrip sc st body w :
  Forall2 (fun f v => fits (snd f) v) CR [sc; st; body] ->
  response_wire sc st body = Ok w -> N.of_nat (length w) < two64 ->
  parse_response (Some w) = Ok (sc, st, params_of_body body).
Proof. exact (response_roundtrip sc st body w). Qed.
Print Assumptions C17_response_roundtrip.

(* the same for every status dataset / management model of nfd_mgmt.py *)
Theorem C17_dataset_roundtrip fs d ic vs w :
  In fs nfd_models -> Forall2 (fun f v => fits (snd f) v) fs vs ->
  encode_model d fs vs = Ok w -> N.of_nat (length w) < two64 ->
  parse_model d fs ic w = Ok vs.
Proof. exact (dataset_roundtrip fs d ic vs w). Qed.
Print Assumptions C17_dataset_roundtrip.

(* ... in the form an application uses it: Cls.parse(obj.encode()) on the class's own descriptor *)
Theorem C17_dataset_parse_wire fs vs w :
  In fs nfd_models -> Forall2 (fun f v => fits (snd f) v) fs vs ->
  dataset_wire fs vs = Ok w -> N.of_nat (length w) < two64 ->
  dataset_parse fs w = Ok vs.
Proof. exact (dataset_parse_wire fs vs w). Qed.
Print Assumptions C17_dataset_parse_wire.

(* ... and at the level of the typed attributes an application reads: for every enumerated field of the management
   models (table regenerated from nfd_mgmt.py: Enum / Flag type and member values) and every number the management
   protocol defines for it (a member; for the bit fields Flags / Mask every union of members, none included), reading
   the attribute returns the encoded number - it does not raise -, and two members of a bit field can be joined with |
   to write their union *)
Theorem C17_enumerated_field_reads_back f v :
  In f Generated.NfdEnums.nfd_enum_fields -> In v (domain (ef_type f) (ef_members f)) ->
  typed_read (ef_kind f) (ef_members f) v = Ok v.
Proof. exact (shipped_typed_read f v). Qed.
Print Assumptions C17_enumerated_field_reads_back.

Theorem C17_flags_can_be_joined f a b :
  In f Generated.NfdEnums.nfd_enum_fields -> bitfield_type (ef_type f) = true ->
  In a (ef_members f) -> In b (ef_members f) -> join (ef_kind f) a b = Ok (N.lor a b).
Proof. exact (shipped_join f a b). Qed.
Print Assumptions C17_flags_can_be_joined.

(* whatever the members: a (strict) Flag type reads every union of its members *)
Theorem C17_flag_type_reads_unions ms v : In v (unions ms) -> typed_read EFlag ms v = Ok v.
Proof. exact (flag_reads_unions ms v). Qed.
Print Assumptions C17_flag_type_reads_unions.

(* ---- protocol ----------------------------------------------------------------------------------------------------- *)
Section Protocol.
  Variable fe : kind -> proto.
  Variable clock : nat -> N.
  Hypothesis Hfe : frontend_ok fe.

  (* what a call returns, for every kind of reply: True for a decodable ControlResponse with status 200
     (that passes validation where the front-end validates), False for everything else - other status, no
     status, response without body, damaged / empty / missing Content, bad signature, Nack, silence *)
  Theorem C17_reply_table k r : finish (fe k) r = Ret (answers_200 (p_validates (fe k)) r).
  Proof. exact (finish_ok (fe k) r (fe_ok fe Hfe k)). Qed.

  (* every call that returned, returned True iff its command was answered with status 200 ... *)
  Theorem C17_success_iff_200 evs id r o :
    In (ODone id r o) (log (run_events fe clock evs)) -> o = Ret (answers_200 (p_validates (fe KReg)) r).
  Proof. exact (outcomes_ok_meaning _ _ id r o (run_outcomes fe clock Hfe evs)). Qed.

  (* ... and no call ever raised, whatever the replies *)
  Theorem C17_failures_do_not_raise evs id r o :
    In (ODone id r o) (log (run_events fe clock evs)) -> exists b, o = Ret b.
  Proof. exact (fun H => ex_intro _ _ (C17_success_iff_200 evs id r o H)). Qed.

  (* at most one command awaits its reply, at any time, however many calls are made concurrently *)
  Theorem C17_one_at_a_time evs :
    serial_ok (log (run_events fe clock evs)) = true /\ (length (outst (run_events fe clock evs)) <= 1)%nat.
  Proof. exact (conj (run_serial fe clock Hfe evs) (run_one_outstanding fe clock Hfe evs)). Qed.

  (* spelled out: between two commands on the face, the call of the first one has returned *)
  Theorem C17_one_at_a_time_meaning evs l1 c1 l2 c2 l3 :
    log (run_events fe clock evs) = l1 ++ OSend c1 :: l2 ++ OSend c2 :: l3 ->
    exists r o, In (ODone (m_call c1) r o) l2.
  Proof. exact (serial_ok_meaning _ l1 c1 l2 c2 l3 (run_serial fe clock Hfe evs)). Qed.

  (* the timestamps of the commands, in the order they are sent, are strictly increasing - for any clock *)
  Theorem C17_timestamps_strictly_increase evs :
    StronglySorted N.lt (map m_ts (sends (log (run_events fe clock evs)))).
  Proof. exact (timestamps_ok_sorted _ (run_timestamps fe clock Hfe evs)). Qed.

  (* every call sends at most one command, it names the verb and prefix of the call, and a call returns only
     after its command went out *)
  Theorem C17_one_command_per_call evs : percall_ok (log (run_events fe clock evs)) = true.
  Proof. exact (run_percall fe clock Hfe evs). Qed.

  (* spelled out: no call sends two commands; every command names the verb and prefix of a call that was
     entered; a call returns only after its command went out *)
  Theorem C17_one_command_per_call_meaning evs :
    let l := log (run_events fe clock evs) in
    NoDup (map m_call (sends l)) /\
    (forall c, In c (sends l) -> exists a, In (OCall (m_call c) (m_kind c) (m_prefix c) a) l) /\
    (forall l1 id r o l2, l = l1 ++ ODone id r o :: l2 -> exists c, In c (sends l1) /\ m_call c = id).
  Proof. exact (percall_ok_meaning _ (C17_one_command_per_call evs)). Qed.

  (* progress of the timestamp loop: the call that holds the semaphore and sleeps with l readings left has its
     command on the face after at most l+1 ticks, whatever the clock does *)
  Theorem C17_command_goes_out evs l id :
    (forall k, exists n, p_ts (fe k) = TsLoop n true) ->
    status (run_events fe clock evs) id = Some (CSleep l) ->
    exists n, (n <= S l)%nat /\
              status (fold_left (step fe clock) (repeat ETick n) (run_events fe clock evs)) id = Some COut.
  Proof. exact (fun Hloop => holder_sends_within fe clock Hfe Hloop l _ id (run_inv fe clock Hfe evs)). Qed.

  (* on every connection the starting task registers every declared route exactly once, in order, and
     finishes without an exception *)
  Theorem C17_autoreg_once_per_connection evs : autoreg_ok (log (run_events fe clock evs)) = true.
  Proof. exact (run_autoreg fe clock Hfe evs). Qed.
End Protocol.
Print Assumptions C17_reply_table.
Print Assumptions C17_success_iff_200.
Print Assumptions C17_failures_do_not_raise.
Print Assumptions C17_one_at_a_time.
Print Assumptions C17_one_at_a_time_meaning.
Print Assumptions C17_timestamps_strictly_increase.
Print Assumptions C17_one_command_per_call.
Print Assumptions C17_one_command_per_call_meaning.
Print Assumptions C17_command_goes_out.
Print Assumptions C17_autoreg_once_per_connection.

(* ---- non-vacuity ----------------------------------------------------------------------------------------------------- *)
Definition ex_name (c : N) : name := [comp_enc TYPE_GENERIC [c]].
(* the response  65 03 66 01 c8  (status 200, no text, no body) and  65 04 66 02 01 94  (status 404) *)
Definition ex_200 : reply := RData (Some [101; 3; 102; 1; 200]) true.
Definition ex_404 : reply := RData (Some [101; 4; 102; 2; 1; 148]) true.
(* a route declared before connecting, three concurrent calls, a clock that never advances; replies 200 / 404 /
   garbage / Nack, with the ticks the timestamp loop needs in between *)
Definition ex_events : list event :=
  [ERoute (ex_name 114); EConnect; ECall KReg (ex_name 97); ECall KUnreg (ex_name 98); ECall KReg (ex_name 99);
   EReply 0 ex_200] ++ repeat ETick 10 ++ [EReply 0 ex_404] ++ repeat ETick 10 ++
  [EReply 0 (RData (Some [1; 2; 3]) true)] ++ repeat ETick 10 ++ [EReply 0 (RNack 0)].

Example C17_example_v2 :
  let l := log (run_events fe_v2 (fun _ => 5) ex_events) in
  map m_ts (sends l) = [5; 6; 7; 8] /\
  map (fun o => match o with ODone id _ (Ret b) => Some (id, b) | _ => None end)
      (filter (fun o => match o with ODone _ _ _ => true | _ => false end) l)
  = [Some (0%nat, true); Some (1%nat, false); Some (2%nat, false); Some (3%nat, false)] /\
  autoreg_ok l = true.
Proof. vm_compute. repeat split. Qed.

Example C17_example_v1 :
  map m_ts (sends (log (run_events fe_v1 (fun _ => 5) ex_events))) = [5; 6; 7; 8].
Proof. vm_compute. reflexivity. Qed.

Example C17_example_command :
  exists nm, make_command_v2 true s_rib s_register (params_of_prefix (ex_name 97)) = Ok nm /\
             command_parameters nm = Ok (params_of_prefix (ex_name 97)).
Proof.
  (* one goal after the other: the second is evaluated once the first has fixed [nm] *)
  eexists. split; [vm_compute; reflexivity|]. vm_compute. reflexivity.
Qed.
