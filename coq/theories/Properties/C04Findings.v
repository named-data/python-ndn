(* C04 — statements that are FALSE on a faithful model, with their witnesses.

   †11 (fixed in the library, commit "fix: appv2 reply() returns True after the Data was sent"):
   before the fix the reply closure fell off the end of the function after a successful send. *)
From NDN Require Import Base.Prelude Model.Name Model.Trie Model.Dispatch Spec.DispatchSpec
  Proofs.TrieProofs.
Local Open Scope N_scope.

(* the closure as it was before the fix *)
Definition reply_closure_before_fix (deadline now : N) (running : bool) : res (bool * retval) :=
  if deadline <? now then Ok (false, RFalse)
  else if running then Ok (true, RNone) else Err E_NETWORK.

(* "the callback reports truthfully whether it was sent" fails: sent, yet a falsy value is returned.
   Witness replayed on the unfixed code: attach /a, Interest /a/b with lifetime 0 at t = 1000000,
   reply at t = 1000000 -> one packet on the face, return value None. *)
Theorem C04_reply_truthful_before_fix_refuted :
  exists d t, reply_closure_before_fix d t true = Ok (true, RNone) /\ t <= d.
Proof. exists 1000000, 1000000. split; [vm_compute; reflexivity|lia]. Qed.

(* Why the theorems ask for callable handlers: None passed as a handler (outside the documented type,
   accepted by attach_handler) occupies its prefix and hides the shorter handler behind 'No callback'. *)
Theorem C04_lpm_needs_callable_handlers :
  exists ops n p h,
    let t := s_fib (exec FE_V2 st0 ops) in
    is_lpm (attached t) n p h /\ dispatch t n = None /\ ~ Forall wf_op ops.
Proof.
  exists [OAttach [[8;1;97]] (Some 1) None (false, false); OAttach [[8;1;97]; [8;1;98]] None None (false, false)].
  exists [[8;1;97]; [8;1;98]; [8;1;99]], [[8;1;97]], 1. cbv zeta.
  split; [|split].
  - apply lp_fun_some. vm_compute. reflexivity.
  - vm_compute. reflexivity.
  - intros H. inversion H as [|? ? _ H2]; subst. inversion H2 as [|? ? W _]; subst. exact W.
Qed.
