(* C12 — The signing check holds exactly when the schema lets that key sign that packet.
   The statements and their Print Assumptions; the proofs are in Proofs/Lvs*.v. *)
From NDN Require Import Base.Prelude Model.LvsAst Model.LvsChecker Model.LvsCompiler Spec.LvsSem Spec.LvsTree.
From NDN Require Import Proofs.LvsMachine Proofs.LvsCheckerThms Proofs.LvsGenTree Proofs.LvsCompileTree Proofs.LvsCompileThms
  Proofs.LvsEndToEnd Proofs.LvsExamples.
From NDN Require Import Spec.LvsChains.
Local Open Scope N_scope.

(* Checker.check on any model that passes the loader: yes iff some path for the packet name ends in a node
   one of whose signer nodes is the end of a path for the key name that starts from the packet's context
   (constraints of the key path evaluated also on patterns the packet bound) *)
Theorem C12_check_tree ufn m (Hs : sane m) fuel pkt key p k b :
  strip_digest pkt = Ok p -> strip_digest key = Ok k ->
  (Nat.max (match_cost m p) (match_cost m k) <= fuel)%nat ->
  lvs_check ufn m fuel pkt key = Ok b ->
  (b = true <-> exists pn cx pnode kn cx',
      tree_match ufn m p [] pn cx /\ get_node m pn = Some pnode /\
      tree_match ufn m k cx kn cx' /\ In kn (n_sign pnode)).
Proof. exact (lvs_check_spec ufn m Hs fuel pkt key p k b). Qed.
Print Assumptions C12_check_tree.

Definition ufn_t := ident -> option (bytes -> list (option bytes) -> res bool).

(* ---- the full statement (DESIGN section 3, C12) ----------------------------------------------------------
   [can_sign] (Spec/LvsSem.v) reads the schema text: some definition matches the packet name, and one of the rules IT
   lists as signers matches the key name starting from the packet's bindings.  Hypotheses as for C11_match_iff. *)
Theorem C12_check_iff (ufn : ufn_t) (S : lvsfile) m : static_ok S = true -> schema_wf S = true -> compile S = Ok m ->
  forall fuel pkt key p k b, strip_digest pkt = Ok p -> strip_digest key = Ok k ->
    (Nat.max (match_cost m p) (match_cost m k) <= fuel)%nat ->
    lvs_check ufn m fuel pkt key = Ok b -> (b = true <-> can_sign ufn S pkt key).
Proof. exact (fun _ H2 H3 => check_iff ufn S m H2 H3). Qed.
Print Assumptions C12_check_iff.

(* on the example schema (#pkt: /"a"/x/y & {y: x|"b"} <= #key, #key: /"k"/x) the key /k/d may sign /a/d/b and /k/e may not,
   both by the compiled model and, through the theorem, by the text *)
Example C12_check_iff_example :
  can_sign no_ufn ex_schema ex_pkt ex_key /\ ~ can_sign no_ufn ex_schema ex_pkt ex_bad.
Proof.
  exact (conj
    (match ex_match, ex_check_yes with
     | ex_intro _ l (conj _ (conj _ (conj Hs _))), conj Hc (conj Hf Hk) =>
         proj1 (check_iff no_ufn ex_schema ex_model ex_wf ex_compile 1000 ex_pkt ex_key ex_pkt ex_key true Hs Hk Hf Hc) eq_refl end)
    (match ex_match, ex_check_no with
     | ex_intro _ l (conj _ (conj _ (conj Hs _))), conj Hc (conj Hf Hk) =>
         fun H => Bool.diff_false_true (proj2 (check_iff no_ufn ex_schema ex_model ex_wf ex_compile 1000 ex_pkt ex_bad ex_pkt ex_bad false Hs Hk Hf Hc) H) end)).
Qed.

(* ---- the chain-level half, usable on its own ------------------------------------------------------------------------
   from the numbered rule chains of the schema to the verdict of Checker.check on the compiled model:
   yes iff some chain is satisfied by the packet name and a chain of a rule listed among ITS signers is satisfied by
   the key name starting from the packet's bindings (so every constraint of the key chain is evaluated, also on
   patterns the packet bound; a pattern bound by the packet must have the same value in the key name). *)
Theorem C12_check_chains (ufn : ufn_t) S chains st m :
  chains_of S = Ok (chains, st) -> compile S = Ok m -> chains_ok (N.of_nat (length (ns_named st))) chains ->
  forall fuel pkt key p k b,
    strip_digest pkt = Ok p -> strip_digest key = Ok k ->
    (Nat.max (match_cost m p) (match_cost m k) <= fuel)%nat ->
    lvs_check ufn m fuel pkt key = Ok b ->
    (b = true <-> exists rc rk cx cx', In rc chains /\ chain_sem_from ufn 0 rc p [] cx /\ In rk chains /\
                                       In (ch_id rk) (ch_sign rc) /\ chain_sem_from ufn 0 rk k cx cx').
Proof. exact (check_chains ufn S chains st m). Qed.
Print Assumptions C12_check_chains.


(* in particular: a yes means the key name satisfies a chain of some rule -- when that chain is evaluated from the
   packet's bindings (docs: "a matched pattern is carried over through a signing chain") *)
Corollary C12_key_must_match_some_rule (ufn : ufn_t) S chains st m :
  chains_of S = Ok (chains, st) -> compile S = Ok m -> chains_ok (N.of_nat (length (ns_named st))) chains ->
  forall fuel pkt key p k,
    strip_digest pkt = Ok p -> strip_digest key = Ok k ->
    (Nat.max (match_cost m p) (match_cost m k) <= fuel)%nat ->
    lvs_check ufn m fuel pkt key = Ok true ->
    exists rk cx cx', In rk chains /\ chain_sem_from ufn 0 rk k cx cx'.
Proof.
  intros Hc Hm Hok fuel pkt key p k Hp Hk Hf H.
  destruct (proj1 (check_chains ufn S chains st m Hc Hm Hok fuel pkt key p k true Hp Hk Hf H) eq_refl)
    as (rc & rk & cx & cx' & _ & _ & Hrk & _ & Hsem).
  exists rk, cx, cx'. auto.
Qed.
Print Assumptions C12_key_must_match_some_rule.
