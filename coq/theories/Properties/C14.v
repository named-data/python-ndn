(* C14 — The schema validator accepts exactly packets with a valid chain to the anchor.
   Only statements, [exact]s and Print Assumptions live here.
   Model: Model/Validator.v (lvs_validator + CascadeChecker of the FIXED code: own default key storage per
   instance, Ed25519 branch).  Specification: Spec/ChainSpec.v.  *)
From NDN Require Import Base.Prelude Model.Validator Model.ValidatorConc Model.ValidatorMem Spec.ChainSpec.
From NDN Require Import Proofs.ValidatorProofs Proofs.ValidatorHistory Proofs.ValidatorTie Proofs.ValidatorExamples
  Proofs.ValidatorTrace Proofs.ValidatorConcProofs Proofs.ValidatorMemProofs.
From NDN Require Generated.ValidatorConsts.
From NDN Require Properties.C14Findings.   (* keeps the refutation witnesses checked on every run *)

(* accept <-> chain, for every world, schema, anchor, cache satisfying the invariant, packet and fuel,
   whenever the validator answers at all (r <> out-of-fuel; see C14Findings for certificate loops).
   Exceptions escaping the validator count as "not accepted" and indeed imply that there is no chain. *)
Theorem C14_iff w c fuel st p r st' tr :
  cache_ok w (trust_of c) st ->
  validate w c fuel st p = (r, st', tr) ->
  r <> Err EFuel ->
  (r = Ok true <-> Chain w (trust_of c) p).
Proof. exact (fun Hst Hv => answer_ok_iff _ _ _ _ (proj2 (validate_sound w c fuel st p r st' tr Hst Hv))). Qed.
Print Assumptions C14_iff.
Example C14_iff_nonvacuous :
  cache_ok ex_world (trust_of cfg1) [] /\ validate ex_world cfg1 3 [] P = (Ok true, [(nC, [13%N])], [nC]) /\
  Chain ex_world (trust_of cfg1) P /\ ~ Chain ex_world (trust_of cfg2) P.
Proof. exact (conj (cache_ok_nil _ _) (conj ex_validate_P (conj ex_chain_P ex_no_chain_P_anchor2))). Qed.

(* the same without any termination hypothesis: some fuel makes the validator accept  <->  chain *)
Theorem C14_accepts_iff_chain w c st p :
  cache_ok w (trust_of c) st ->
  (exists fuel, fst (fst (validate w c fuel st p)) = Ok true) <-> Chain w (trust_of c) p.
Proof. exact (accepts_iff_chain w c st p). Qed.
Print Assumptions C14_accepts_iff_chain.

(* the cache invariant "cached => retrievable under that name and validated under the same anchor and schema"
   is preserved by every validation, whatever its outcome *)
Theorem C14_cache_invariant w c fuel st p r st' tr :
  cache_ok w (trust_of c) st -> validate w c fuel st p = (r, st', tr) -> cache_ok w (trust_of c) st'.
Proof. exact (fun Hst Hv => proj1 (validate_sound w c fuel st p r st' tr Hst Hv)). Qed.
Print Assumptions C14_cache_invariant.
Example C14_cache_invariant_nonvacuous : cache_ok ex_world (trust_of cfg1) [(nC, [13%N])].
Proof. exact ex_cache_ok. Qed.

(* termination: if the key-locator path from p stops within n certificates (anchor reached, no key
   locator, or certificate not retrievable) then n fetches suffice and the validator answers *)
Theorem C14_terminates w c :
  no_fuel_err w -> check_no_fuel c -> fetch_no_fuel w ->
  forall n p, Bounded w c n p -> forall st, fst (fst (validate w c n st p)) <> Err EFuel.
Proof. exact (fun NV NC NF n p HB st => validate_terminates w c NV NC NF n p HB n st (le_n n)). Qed.
Print Assumptions C14_terminates.
Example C14_terminates_nonvacuous : Bounded ex_world cfg1 1 P.
Proof. exact ex_bounded_P. Qed.

(* constructor: built <-> user functions present /\ anchor matches all roots of trust /\ properly self-signed *)
Theorem C14_constructor w sc a :
  (exists c, lvs_init w sc a = Ok c) <->
  sc_fns_ok sc = true /\ exists p, a = Ok p /\ anchor_matches sc p /\ self_signed w p.
Proof. exact (lvs_init_iff w sc a). Qed.
Print Assumptions C14_constructor.
Example C14_constructor_nonvacuous : lvs_init ex_world ex_schema (Ok A1) = Ok cfg1.
Proof. exact ex_init1. Qed.

(* ... and the instance is configured with that anchor's name and key and that schema's signing check *)
Theorem C14_constructor_cfg w sc a c :
  lvs_init w sc a = Ok c ->
  exists p k, a = Ok p /\ p_content p = Some k /\
              trust_of c = {| t_anchor_name := p_name p; t_anchor_key := k; t_allowed := allowed_of (Some (sc_check sc)) |}.
Proof. exact (lvs_init_cfg w sc a c). Qed.
Print Assumptions C14_constructor_cfg.

Theorem C14_constructor_cascade w a :
  (exists c, cascade_init w a None = Ok c) <-> exists p, a = Ok p /\ self_signed w p.
Proof. exact (cascade_init_iff w a None). Qed.
Print Assumptions C14_constructor_cascade.

(* history independence: in ANY state reachable by ANY sequence of constructions (default storage, or an
   explicitly given storage that no other validator uses) and validations by any instances, the verdict of
   instance i on p is accept <-> Chain under i's own anchor and schema. *)
Theorem C14_history_independent w st fuel i ins p st' r tr :
  reachable w st ->
  nth_error (s_insts st) i = Some ins ->
  step false w fuel st (OValidate i p) = (st', BVal r tr) ->
  r <> Err EFuel ->
  (r = Ok true <-> Chain w (trust_of (i_cfg ins)) p).
Proof. exact (fun R => inv_verdict false w st fuel i ins p st' r tr (reachable_inv w st R)). Qed.
Print Assumptions C14_history_independent.
Example C14_history_independent_nonvacuous :
  reachable ex_world ex_state2 /\
  snd (run_history false ex_world 5 init_state ex_ops) =
  [ BNew (Ok 0%nat); BNew (Ok 1%nat); BVal (Ok false) [nC; nA]; BVal (Ok true) [nC]; BVal (Ok false) [nC; nA] ].
Proof. exact (conj ex_reachable ex_history_fixed). Qed.

(* every state along a run of constructions with defaulted storage and validations is such a reachable state *)
Theorem C14_runs_are_reachable w fuel ops st :
  reachable w st ->
  (forall o, In o ops -> match o with
                         | ONewLvs _ _ (SGiven _) | ONewCascade _ (SGiven _) => False
                         | _ => True end) ->
  reachable w (fst (run_history false w fuel st ops)).
Proof. exact (run_history_reachable w fuel ops st). Qed.
Print Assumptions C14_runs_are_reachable.

(* the caller's memory (Model/ValidatorMem.v): trust anchors and packets are handed over in buffers the application
   owns, loads the next wire into (e.g. the anchor of its second validator) and overwrites later.  In ANY state
   reached by ANY history of loads, overwrites, constructions from buffers and validations, the verdict of instance
   i on the packet in buffer b is accept <-> Chain under the configuration i was BUILT with ... *)
Theorem C14_memory_independent w ms fuel i ins b p ms' r tr :
  mreachable w ms ->
  nth_error (s_insts (m_st ms)) i = Some ins ->
  mem_get (m_mem ms) b = Some (Ok p) ->
  mstep false w fuel ms (MValidate i b) = (ms', Some (BVal r tr)) ->
  r <> Err EFuel ->
  (r = Ok true <-> Chain w (trust_of (i_cfg ins)) p).
Proof. exact (memory_independent w ms fuel i ins b p ms' r tr). Qed.
Print Assumptions C14_memory_independent.
Example C14_memory_independent_nonvacuous :
  mreachable ex_world (fst (mrun false ex_world 5 {| m_mem := []; m_st := init_state |} ex_mops)) /\
  snd (mrun false ex_world 5 {| m_mem := []; m_st := init_state |} ex_mops) =
  [ None; Some (BNew (Ok 0%nat)); None; Some (BVal (Ok true) [nC]);
    None; Some (BNew (Ok 1%nat)); Some (BVal (Ok true) []); Some (BVal (Ok false) [nC; nA]);
    None; Some (BVal (Ok true) []); None ].
Proof. exact (conj ex_mreachable ex_mrun). Qed.

(* ... that configuration is computed from the schema and from what the buffer held AT THE CALL, and no later
   operation (load, overwrite, construction of another validator from the same buffer, validation) changes it *)
Theorem C14_built_from_what_the_buffer_holds w fuel ms sc b s ms' n :
  mstep false w fuel ms (MNewLvs sc b s) = (ms', Some (BNew (Ok n))) ->
  exists a c sid, mem_get (m_mem ms) b = Some a /\ lvs_init w sc a = Ok c /\
                  nth_error (s_insts (m_st ms')) n = Some {| i_cfg := c; i_sid := sid |}.
Proof. exact (built_from_what_the_buffer_holds w fuel ms sc b s ms' n). Qed.
Print Assumptions C14_built_from_what_the_buffer_holds.

Theorem C14_built_config_is_kept lg w fuel ops ms i ins :
  nth_error (s_insts (m_st ms)) i = Some ins ->
  nth_error (s_insts (m_st (fst (mrun lg w fuel ms ops)))) i = Some ins.
Proof. exact (built_config_is_kept_run lg w fuel ops ms i ins). Qed.
Print Assumptions C14_built_config_is_kept.

(* a history with memory operations IS the history of the calls, each with the buffer content read at the call
   (what the harness gives to the model and to the oracle for the histories of its caller-memory family) *)
Theorem C14_memory_history_is_call_history lg w fuel ops ms :
  m_st (fst (mrun lg w fuel ms ops)) = fst (run_history lg w fuel (m_st ms) (given_ops (m_mem ms) ops)) /\
  somes (snd (mrun lg w fuel ms ops)) = snd (run_history lg w fuel (m_st ms) (given_ops (m_mem ms) ops)).
Proof. exact (mrun_is_run_of_given lg w fuel ops ms). Qed.
Print Assumptions C14_memory_history_is_call_history.
Example C14_memory_history_is_call_history_nonvacuous :
  given_ops [] ex_mops =
  [ ONewLvs ex_schema (Ok A1) SDefault; OValidate 0%nat P; ONewLvs ex_schema (Ok A2) SDefault;
    OValidate 0%nat P; OValidate 1%nat P; OValidate 0%nat P ].
Proof. exact ex_given_ops. Qed.

Theorem C14_same_verdict w st1 st2 f1 f2 i1 i2 a b p s1 s2 r1 r2 t1 t2 :
  reachable w st1 -> reachable w st2 ->
  nth_error (s_insts st1) i1 = Some a -> nth_error (s_insts st2) i2 = Some b ->
  trust_of (i_cfg a) = trust_of (i_cfg b) ->
  step false w f1 st1 (OValidate i1 p) = (s1, BVal r1 t1) ->
  step false w f2 st2 (OValidate i2 p) = (s2, BVal r2 t2) ->
  r1 <> Err EFuel -> r2 <> Err EFuel ->
  (r1 = Ok true <-> r2 = Ok true).
Proof.
  exact (fun R1 R2 => same_verdict false w st1 st2 f1 f2 i1 i2 a b p s1 s2 r1 r2 t1 t2
                                   (reachable_inv w st1 R1) (reachable_inv w st2 R2)).
Qed.
Print Assumptions C14_same_verdict.

(* validations that OVERLAP IN TIME on one instance (Model/ValidatorConc.v: every validation is a coroutine that is
   suspended while its certificate is fetched; the instance's key storage is what they share).  For every
   interleaving of starts and fetch completions - single completions in any order, NDNApp's "one Data answers
   every pending Interest of that name", time-outs - from any storage satisfying the invariant: a verdict,
   once delivered, is accept <-> Chain for the packet that validation was started with. *)
Theorem C14_concurrent_iff w c st evs th r :
  cache_ok w (trust_of c) st ->
  In th (cs_threads (cfinal w c (cinit st) evs)) -> th_state th = TDone r -> r <> Err EFuel ->
  (r = Ok true <-> Chain w (trust_of c) (th_pkt th)).
Proof. exact (fun H => conc_iff w c (cinit st) evs th r (cinit_ok w c st H)). Qed.
Print Assumptions C14_concurrent_iff.
Example C14_concurrent_iff_nonvacuous :
  cs_threads (cfinal ex_world cfg1 (cinit []) [CStart P; CStart P]) =
    [ {| th_pkt := P; th_state := TWait [(P, nC)]; th_sent := [nC] |};
      {| th_pkt := P; th_state := TWait [(P, nC)]; th_sent := [nC] |} ] /\
  cs_threads (cfinal ex_world cfg1 (cinit []) [CStart P; CStart P; CDeliver nC; CStart P]) =
    [ ex_thread_P; ex_thread_P; {| th_pkt := P; th_state := TDone (Ok true); th_sent := [] |} ].
Proof. exact (conj (f_equal cs_threads ex_conc_waiting) (f_equal cs_threads ex_conc_overlap)). Qed.

(* ... the storage invariant holds after every event, the k-th validation keeps asking about its own packet, and a
   verdict that was delivered is never revised *)
Theorem C14_concurrent_invariant w c st evs :
  cache_ok w (trust_of c) st ->
  Forall (fun cs => cache_ok w (trust_of c) (cs_cache cs)) (crun w c (cinit st) evs) /\
  forall evs' tid th, nth_error (cs_threads (cfinal w c (cinit st) evs)) tid = Some th ->
    exists th', nth_error (cs_threads (cfinal w c (cfinal w c (cinit st) evs) evs')) tid = Some th' /\
                th_pkt th' = th_pkt th /\ forall r, th_state th = TDone r -> th_state th' = TDone r.
Proof.
  exact (fun H => conj (Forall_impl _ (fun cs K => proj1 K) (crun_spec w c evs _ (cinit_ok w c st H)))
                       (fun evs' => proj2 (cfinal_spec w c evs' _ (proj1 (cfinal_spec w c evs _ (cinit_ok w c st H)))))).
Qed.
Print Assumptions C14_concurrent_invariant.

(* ... so the verdict does not depend on what else the instance (or another instance with the same anchor and
   schema) has in flight, nor on the order in which the certificates arrive *)
Theorem C14_schedule_independent w c1 c2 st1 st2 evs1 evs2 th1 th2 r1 r2 :
  trust_of c1 = trust_of c2 ->
  cache_ok w (trust_of c1) st1 -> cache_ok w (trust_of c2) st2 ->
  In th1 (cs_threads (cfinal w c1 (cinit st1) evs1)) -> In th2 (cs_threads (cfinal w c2 (cinit st2) evs2)) ->
  th_pkt th1 = th_pkt th2 ->
  th_state th1 = TDone r1 -> th_state th2 = TDone r2 -> r1 <> Err EFuel -> r2 <> Err EFuel ->
  (r1 = Ok true <-> r2 = Ok true).
Proof.
  exact (fun E H1 H2 => conc_same_verdict w c1 c2 _ _ evs1 evs2 th1 th2 r1 r2 E (cinit_ok w c1 st1 H1) (cinit_ok w c2 st2 H2)).
Qed.
Print Assumptions C14_schedule_independent.

(* a validation that has the instance to itself, every fetch answered at once, is [validate] of Model/Validator.v:
   the sequential theorems above are the special case "no overlap" of the concurrent model *)
Theorem C14_alone_is_validate w c fuel st p r st' tr :
  validate w c fuel st p = (r, st', tr) -> r <> Err EFuel ->
  run_alone w c fuel st p = ({| th_pkt := p; th_state := TDone r; th_sent := tr |}, st').
Proof. exact (alone_general w c fuel p [] st p [] r st' tr). Qed.
Print Assumptions C14_alone_is_validate.
Example C14_alone_is_validate_nonvacuous : run_alone ex_world cfg1 3 [] P = (ex_thread_P, [(nC, [13%N])]).
Proof. exact ex_alone. Qed.

(* triage of DESIGN 9b: only RSA / ECDSA / Ed25519 signatures can have a chain; an HMAC-, digest- or
   unknown-type packet is never accepted (the dropped HMAC result only ever yields "reject") *)
Theorem C14_symmetric_never_accepted w t p :
  Chain w t p -> exists si, p_sig p = Some si /\ asymmetric (s_type si) = true.
Proof. exact (chain_asymmetric w t p). Qed.
Print Assumptions C14_symmetric_never_accepted.

(* Interests sent for certificates: a prefix of the key-locator path starting at the packet, at most one per
   unit of fuel, never for the trust anchor's name; a packet signed directly by the anchor costs no Interest
   and leaves the key storage untouched *)
Theorem C14_interests_sent w c fuel st p r st' tr :
  validate w c fuel st p = (r, st', tr) ->
  (exists m, tr = firstn m (kl_path w fuel p)) /\ ~ In (c_anchor_name c) tr /\ (length tr <= fuel)%nat.
Proof.
  exact (interests_sent w c fuel st p r st' tr).
Qed.
Print Assumptions C14_interests_sent.
Example C14_interests_sent_nonvacuous : kl_path ex_world 3 P = [nC; nA] /\ snd (validate ex_world cfg1 3 [] P) = [nC].
Proof. exact ex_trace. Qed.

Theorem C14_anchor_shortcut w c fuel st p cn r st' tr :
  key_locator p = Some cn -> cn = c_anchor_name c -> validate w c fuel st p = (r, st', tr) -> tr = [] /\ st' = st.
Proof. exact (no_interest_for_anchor w c fuel st p cn r st' tr). Qed.
Print Assumptions C14_anchor_shortcut.

(* the harness oracle is the specification: the executable decision agrees with Chain *)
Theorem C14_oracle_sound w t fuel p b : chainb w t fuel p = Some b -> (b = true <-> Chain w t p).
Proof. exact (chainb_spec w t fuel p b). Qed.
Print Assumptions C14_oracle_sound.

(* tie to the source of this run (tools/gen_validator.py): _verify_sig branch table, fresh default storage,
   fetch arguments and caught exceptions are the ones the model hard-wires; an instance owns nothing but its
   configuration and its key storage (what overlapping validations share in Model/ValidatorConc.v) *)
Theorem C14_source_tie :
  (forall w k p, verify_sig w k p = match p_sig p with
                                    | None => Err EAttr
                                    | Some si => dispatch Generated.ValidatorConsts.verify_sig_branches w (s_type si) k p
                                    end) /\
  (Generated.ValidatorConsts.cascade_default_storage_shared = false /\
   Generated.ValidatorConsts.lvs_default_storage_shared = false) /\
  Generated.ValidatorConsts.fetch_can_be_prefix = false /\
  Generated.ValidatorConsts.fetch_validated_by_next_level = true /\
  Generated.ValidatorConsts.catches_nothing_else = true /\
  Generated.ValidatorConsts.instance_state_is_storage_only = true.
Proof.
  exact (match fetch_shape with
         | conj _ (conj _ (conj Prefix (conj Next (conj _ (conj _ (conj _ Else)))))) =>
             conj verify_sig_generated (conj default_storage_fresh (conj Prefix (conj Next (conj Else instance_state))))
         end).
Qed.
Print Assumptions C14_source_tie.
