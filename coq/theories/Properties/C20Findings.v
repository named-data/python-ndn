(* C20 — statements that are FALSE on the faithful model, with their witnesses (each is replayed on the
   implementation by harness/props/c20.py).  These mark the boundary of the theorems in C20.v. *)
From NDN Require Import Base.Prelude Base.Text Model.ConfBase Model.ClientConf Spec.ClientConfSpec.
From Coq Require Strings.String Strings.Ascii.
Import Coq.Strings.String.StringSyntax Coq.Strings.Ascii.AsciiSyntax.
Local Open Scope N_scope.

(* known finding C20-port-zero: "the port the URI denotes" fails for an explicit port 0 — default_face tests
   "if not port", so tcp://h:0 and udp://h:0 silently become port 6363.  C20_face therefore demands 1 <= port. *)
Theorem C20_face_port_zero_refuted :
  exists scheme h port,
    scheme_kind scheme = Some KTcp /\ host_ok h = true /\ denoted_port port = 0 /\
    default_face (fun _ => false) (uri_text scheme h port []) = Ok (FTcp (host_addr h) 6363) /\
    default_face (fun _ => false) (uri_text scheme h port []) <> Ok (denoted_face KTcp h port []).
Proof.
  exists (slit "tcp"), (HName (slit "h")), (Some (slit "0")). vm_compute. repeat split; try reflexivity. discriminate.
Qed.

(* domain boundary (not counted as a defect): "an environment override wins" needs "reading succeeds" —
   a configuration file that is not INI syntax makes read_client_conf raise even when all three settings
   are overridden *)
Theorem C20_env_wins_without_success_refuted :
  exists w v, env_get (w_env w) (env_name key_transport) = Some v /\
              env_get (w_env w) (env_name key_pib) = Some v /\ env_get (w_env w) (env_name key_tpm) = Some v /\
              read_client_conf w = Err EConfig.
Proof.
  exists (mk_world [(slit "HOME", slit "/h"); (slit "NDN_CLIENT_TRANSPORT", slit "x"); (slit "NDN_CLIENT_PIB", slit "x");
                    (slit "NDN_CLIENT_TPM", slit "x")]
                   (fun p => str_eqb p (slit "/h/.ndn/client.conf"))
                   [(slit "/h/.ndn/client.conf", Ok (slit "no delimiter here"))] []), (slit "x").
  vm_compute. repeat split; reflexivity.
Qed.

(* domain boundary: wf_conf excludes indented entries for a reason — configparser reads an indented line as
   the continuation of the previous value, so the tpm entry below is not seen and transport swallows it *)
Theorem C20_indented_entry_refuted :
  exists text d, ini_read (slit "[DEFAULT]" ++ ch_nl :: text) = Ok d /\
                 text = slit "transport=a" ++ ch_nl :: slit " tpm=b" ++ [ch_nl] /\
                 ini_get d key_tpm = None /\ ini_get d key_transport = Some (slit "a" ++ ch_nl :: slit "tpm=b").
Proof.
  exists (slit "transport=a" ++ ch_nl :: slit " tpm=b" ++ [ch_nl]), [(slit "transport", slit "a" ++ ch_nl :: slit "tpm=b")].
  vm_compute. repeat split; reflexivity.
Qed.
