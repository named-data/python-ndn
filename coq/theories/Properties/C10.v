(* C10 — Link-layer envelopes are transparent: Nack, PIT token and wrapped packets.
   Only statements, [exact]s, Print Assumptions and non-vacuity Examples live here.

   Vocabulary (Proofs/LpProofs.v, Proofs/LpUnknown.v):
     [envelope_of vs els]   els = the elements of an LpPacket whose recognised headers are the encoding of the
                            assignment [vs] of legal values to the fields LpPacketValue declares (ANY subset of
                            headers, ANY values), in the declared order, with ANY number of unrecognised
                            elements (critical or not) inserted at ANY position;  [lp_wire els] = its bytes.
     [dispatch s typ tok d] the part of _receive after the unwrap prologue (decoding, PIT, handlers, validation)
     [on_nack s r frag]     parse_interest(frag) + _on_nack(name, r)          -- both abstract (other properties).
   The theorems are about the library with the fixes 361b618 (Nack without reason), 5bae578 (idle / short
   fragment), 6e6923f (nocopy Length) and ef52f64 (IndexError caught; C06); envelopes whose recognised headers are NOT in the declared
   order are outside [envelope_of]: there the property fails (Properties/C10Findings.v, known finding
   C10-header-out-of-order). *)
From NDN Require Import Base.Prelude Model.TlvVar Model.Name Model.Tlv Model.Packet Model.Lp Spec.TlvWf
  Spec.StrictTlv Spec.LpSpec.
From NDN Require Import Proofs.TlvSplit Proofs.LpUnknown Proofs.LpProofs Proofs.LpWire Proofs.LpSpecProofs Proofs.LpSpecAgree.
From NDN Require Import Generated.Schemas Generated.ConstsLp.
Local Open Scope N_scope.

Section C10.
Variables St Out : Type.
Variable dispatch : St -> N -> option bytes -> bytes -> St * Out.
Variable on_nack : St -> N -> bytes -> St * Out.
Variable nothing : Out.
Notation receive2 := (receive_v2 St Out dispatch on_nack nothing).
Notation receive1 := (receive_v1 St Out dispatch on_nack nothing).

(* a network packet inside an envelope is processed exactly as the same packet received bare; appv2
   additionally records the PIT token of the envelope (absent token: literally the same) *)
Theorem C10_wrap_transparent s vs els pkt t n :
  envelope_of vs els -> unfragmented vs -> lp_attr vs attr_nack = VNone ->
  lp_attr vs attr_fragment = VBytes pkt -> tl_dec pkt = Ok (t, n) ->
  receive2 s LP_PACKET (lp_wire els) = Ok (dispatch s t (lp_token vs) pkt) /\
  (t <> LP_PACKET -> receive2 s t pkt = Ok (dispatch s t None pkt)).
Proof. exact (wrap_transparent_v2 St Out dispatch on_nack nothing s vs els pkt t n). Qed.

Theorem C10_wrap_transparent_v1 s vs els pkt t n :
  envelope_of vs els -> unfragmented vs -> lp_attr vs attr_nack = VNone ->
  lp_attr vs attr_fragment = VBytes pkt -> tl_dec pkt = Ok (t, n) -> t <> LP_PACKET ->
  receive1 s LP_PACKET (lp_wire els) = receive1 s t pkt.
Proof. exact (wrap_transparent_v1 St Out dispatch on_nack nothing s vs els pkt t n). Qed.

(* an envelope carrying a Nack header hands precisely its reason code to the Nack path (0 when the header has
   no NackReason), with any other headers around it, in both front-ends *)
Theorem C10_nack_exact_reason s vs els ns frag t n :
  envelope_of vs els -> unfragmented vs -> lp_attr vs attr_nack = VModel ns ->
  lp_attr vs attr_fragment = VBytes frag -> tl_dec frag = Ok (t, n) ->
  let r := match field_value nack_fields ns attr_nack_reason with VUint r => r | _ => 0 end in
  receive2 s LP_PACKET (lp_wire els) = Ok (on_nack s r frag) /\
  receive1 s LP_PACKET (lp_wire els) = Ok (on_nack s r frag).
Proof. exact (nack_exact_reason St Out dispatch on_nack nothing s vs els ns frag t n). Qed.

(* ... in particular the envelope make_network_nack builds, for every reason 0 .. 2^64-1 *)
Theorem C10_make_nack_received s i r t n :
  r < two64 -> tl_dec i = Ok (t, n) -> N.of_nat (length (spec_nack_wire i r)) < two64 ->
  make_network_nack i r = Ok (spec_nack_wire i r) /\
  receive2 s LP_PACKET (spec_nack_wire i r) = Ok (on_nack s r i) /\
  receive1 s LP_PACKET (spec_nack_wire i r) = Ok (on_nack s r i).
Proof. exact (make_nack_received St Out dispatch on_nack nothing s i r t n). Qed.

(* unknown headers are ignored: ANY element list, all unrecognised elements dropped at once *)
Theorem C10_unknown_headers_ignored s els :
  Forall el_ok els -> N.of_nat (length (ser_els els)) < two64 ->
  receive2 s LP_PACKET (lp_wire els) = receive2 s LP_PACKET (lp_wire (filter (known lp_fields) els)) /\
  receive1 s LP_PACKET (lp_wire els) = receive1 s LP_PACKET (lp_wire (filter (known lp_fields) els)).
Proof. exact (unknown_headers_ignored St Out dispatch on_nack nothing s els). Qed.

(* fragmented envelopes are rejected: nothing is delivered, the state is unchanged *)
Theorem C10_fragmented_rejected s vs els :
  envelope_of vs els -> ~ unfragmented vs ->
  receive2 s LP_PACKET (lp_wire els) = Ok (s, nothing) /\ receive1 s LP_PACKET (lp_wire els) = Ok (s, nothing).
Proof. exact (fragmented_rejected St Out dispatch on_nack nothing s vs els). Qed.

(* an envelope without a network packet (IDLE, empty Fragment) changes nothing, whatever its headers *)
Theorem C10_idle_dropped s vs els :
  envelope_of vs els -> unfragmented vs ->
  lp_attr vs attr_fragment = VNone \/ lp_attr vs attr_fragment = VBytes [] ->
  receive2 s LP_PACKET (lp_wire els) = Ok (s, nothing) /\ receive1 s LP_PACKET (lp_wire els) = Ok (s, nothing).
Proof. exact (idle_dropped St Out dispatch on_nack nothing s vs els). Qed.

(* no exception leaves the unwrap prologue, whatever bytes the face delivers *)
Theorem C10_prologue_never_raises s typ data :
  is_ok (receive2 s typ data) = true /\ is_ok (receive1 s typ data) = true.
Proof. exact (receive_never_raises St Out dispatch on_nack nothing s typ data). Qed.

(* the executable specification the harness evaluates on the implementation (Spec/LpSpec.v [spec_receive],
   an order-insensitive reading of the element list) and the model agree on every envelope *)
Theorem C10_model_meets_spec vs els :
  envelope_of vs els ->
  spec_receive LP_PACKET (lp_wire els) = spec_of_unwrapped (unwrap_v2 LP_PACKET (lp_wire els)).
Proof. exact (model_meets_spec vs els). Qed.
End C10.

(* the reply closure: the bytes put on the face for an Interest that arrived with token k are exactly
   LpPacket{PitToken k, Fragment data}; without a token the data itself; nothing after the deadline.
   A token of length 0 is a token ([c_token c = Some []]). *)
Theorem C10_token_echo now c data :
  reply_v2 true now c data = Ok (if c_deadline c <? now then [] else [spec_reply_wire (c_token c) data]).
Proof. exact (reply_v2_spec now c data). Qed.

(* ... which parses back to (token k, fragment = the reply bytes unmodified), nothing else *)
Theorem C10_token_echo_parses k data :
  N.of_nat (length (ser_els (token_els k data))) < two64 ->
  exists vs, dec_lp (spec_reply_wire (Some k) data) = Ok vs /\ lp_token vs = Some k /\ lp_fragment vs = Some data /\
             lp_nack vs = None /\ unfragmented vs.
Proof. exact (token_echo_parses k data). Qed.

(* the header-first variant (_put_raw_packet_with_pit_token_nocopy) puts the same bytes on a stream face *)
Theorem C10_token_echo_nocopy data k :
  N.of_nat (length (spec_reply_wire (Some k) data)) < two64 ->
  exists h, put_raw_packet_with_pit_token_nocopy true data k = Ok [h; data] /\
            h ++ data = spec_reply_wire (Some k) data.
Proof. exact (put_nocopy_bytes data k). Qed.

(* ... and a peer running this library receives the data with the token *)
Theorem C10_reply_received k data t n :
  tl_dec data = Ok (t, n) -> N.of_nat (length (ser_els (token_els k data))) < two64 ->
  unwrap_v2 LP_PACKET (spec_reply_wire (Some k) data) = UPacket t (Some k) data.
Proof. exact (reply_unwraps k data t n). Qed.

(* pairing under several outstanding Interests answered in any order: after ANY history [pre] (arrivals with
   other tokens, replies to other Interests), the reply to the i-th arrival carries the i-th arrival's token *)
Theorem C10_token_echo_history pre i now data c :
  nth_error (arrivals pre) i = Some c ->
  snd (lp_run true (pre ++ [EvReply i now data])) =
  snd (lp_run true pre) ++ [(i, Ok (if c_deadline c <? now then [] else [spec_reply_wire (c_token c) data]))].
Proof. exact (token_echo_history pre i now data c). Qed.

(* make_network_nack / parse_network_nack / parse_lp_packet round trip for every reason *)
Theorem C10_nack_roundtrip i r w :
  r < two64 -> make_network_nack i r = Ok w -> N.of_nat (length w) < two64 ->
  parse_network_nack w = Ok (Some r, Some i) /\ parse_lp_packet w = Ok (Some r, Some i).
Proof. exact (nack_roundtrip i r w). Qed.

(* T1 ties: constants and attribute wiring reflected from the source on this run *)
Theorem C10_tie_constants :
  LP_PACKET = T_LP_PACKET /\ FRAGMENT = T_FRAGMENT /\ FRAG_INDEX = T_FRAG_INDEX /\ FRAG_COUNT = T_FRAG_COUNT /\
  PIT_TOKEN = T_PIT_TOKEN /\ NACK = T_NACK /\ NACK_REASON = T_NACK_REASON /\ NACK_NONE = 0 /\
  LP_PACKET = TYPE_LP_PACKET /\ FRAG_INDEX = LP_FRAG_INDEX /\ FRAG_COUNT = LP_FRAG_COUNT.
Proof. exact consts_agree. Qed.
Theorem C10_tie_attributes :
  In (attr_frag_index, KUint None) lp_fields /\ In (attr_frag_count, KUint None) lp_fields /\
  In (attr_pit_token, KBytes false) lp_fields /\ In (attr_nack, KModel nack_fields false) lp_fields /\
  nack_fields = [(attr_nack_reason, KUint None)] /\
  last lp_fields (0, KBool) = (attr_fragment, KBytes false) /\
  lp_outer = [(attr_lp_packet, KModel lp_fields false)].
Proof. exact attrs_in_descriptor. Qed.

Print Assumptions C10_wrap_transparent.
Print Assumptions C10_wrap_transparent_v1.
Print Assumptions C10_nack_exact_reason.
Print Assumptions C10_make_nack_received.
Print Assumptions C10_unknown_headers_ignored.
Print Assumptions C10_fragmented_rejected.
Print Assumptions C10_prologue_never_raises.
Print Assumptions C10_idle_dropped.
Print Assumptions C10_reply_received.
Print Assumptions C10_token_echo_nocopy.
Print Assumptions C10_model_meets_spec.
Print Assumptions C10_token_echo.
Print Assumptions C10_token_echo_parses.
Print Assumptions C10_token_echo_history.
Print Assumptions C10_nack_roundtrip.

(* non-vacuity: an envelope with a PIT token, IncomingFaceId, NonDiscovery, a critical unknown header (Sequence
   0x51) in front, a non-critical one (1000) in the middle and one after the Fragment, around a 2-byte packet *)
Example C10_example :
  let vs := mk_vals lp_fields [(attr_pit_token, VBytes [1; 2]); (INCOMING_FACE_ID, VUint 7); (NON_DISCOVERY, VTrue);
                               (attr_fragment, VBytes [5; 0])] in
  let els := [Elem 81 1 [9]; Elem 98 2 [1; 2]; Elem 1000 0 []; Elem 812 1 [7]; Elem 844 0 []; Elem 80 2 [5; 0];
              Elem 1001 1 [0]] in
  envelope_of vs els /\ unfragmented vs /\ lp_attr vs attr_nack = VNone /\ lp_attr vs attr_fragment = VBytes [5; 0] /\
  tl_dec [5; 0] = Ok (5, 1%nat) /\ lp_token vs = Some [1; 2] /\
  unwrap_v2 LP_PACKET (lp_wire els) = UPacket 5 (Some [1; 2]) [5; 0] /\
  unwrap_v1 LP_PACKET (lp_wire els) = UPacket 5 None [5; 0].
Proof. exact example_envelope. Qed.
