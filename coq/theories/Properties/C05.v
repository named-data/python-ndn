(* C05 — nothing that requires validation reaches the application unvalidated.
   Only statements, [exact]s, Print Assumptions and non-vacuity Examples live here.
   Same operational model and specification as C03 (Model/ExpressPipeline.v, Spec/ExpressSpec.v). *)
From NDN Require Import Base.Prelude Spec.ExpressSpec Model.ExpressPipeline.
From NDN Require Import Proofs.ExpressRefine Proofs.ExpressC05 Proofs.ExpressGate.
From NDN Require Import Generated.ValidResultConsts Proofs.ValidResultAgree.
From NDN Require Import Model.GateSuspend Proofs.GateSuspendProofs.
Local Open Scope N_scope.

(* a Data packet is returned only if the validator supplied with that Interest accepted it:
   V2: verdict PASS or ALLOW_BYPASS (of FAIL, TIMEOUT, SILENCE, PASS, ALLOW_BYPASS, raised TimeoutError);
   V1: a truthy verdict.  The packet is one that was received. *)
Theorem C05_data_only_if_pass (fe : frontend) (h : list (tie * ev)) (i d : N) :
  wf_history h -> completion (run_hist fe h) i = Some (OGot d) ->
  data_received h d /\ exists v, pass fe v = true /\ verdict_given h i v.
Proof. exact (data_only_if_pass fe h i d). Qed.
Print Assumptions C05_data_only_if_pass.

(* any other verdict yields a validation failure that carries the packet and the verdict *)
Theorem C05_failure_carries_packet_and_verdict (fe : frontend) (h : list (tie * ev)) (i d v' : N) :
  wf_history h -> completion (run_hist fe h) i = Some (OInvalid d v') ->
  data_received h d /\ exists v, pass fe v = false /\ v' = norm_verdict fe v /\ verdict_given h i v.
Proof. exact (failure_carries_packet_and_verdict fe h i d v'). Qed.
Print Assumptions C05_failure_carries_packet_and_verdict.

(* current front-end: once an Interest is under validation, if its validator does not answer strictly before the
   deadline (and the caller does not cancel), the result is never the payload nor a failure: it stays pending until the
   deadline and is a timeout from then on.  (Legacy front-end: refuted, see C05Findings.v / known finding
   C05-v1-validator-no-deadline.) *)
Theorem C05_slow_validator_is_timeout (h1 h2 : list (tie * ev)) (i : N) (r : ispec) (d : N) :
  wf_history (h1 ++ h2) -> spec_state V2 h1 i = IValidating r d ->
  Forall (slow_event i (s_D r)) h2 ->
  (completion (run_hist V2 (h1 ++ h2)) i = None \/ completion (run_hist V2 (h1 ++ h2)) i = Some OTimeout) /\
  ((exists x, In x h2 /\ s_D r <= ev_time (snd x)) -> completion (run_hist V2 (h1 ++ h2)) i = Some OTimeout).
Proof. exact (slow_validator_is_timeout h1 h2 i r d). Qed.
Print Assumptions C05_slow_validator_is_timeout.

(* incoming Interests, for EVERY history: a handler is only ever called for an Interest that is plain, or whose
   parameters digest is correct and which the validator in force accepted (every Interest with parameters or a
   signature in V2, where a missing validator rejects; the signed ones in V1, where the application-wide
   sha256_digest_checker stands in for a missing route validator) *)
Theorem C05_interest_gate (fe : frontend) (h : list (tie * ev)) (hd : N) (k : inc) :
  In (hd, k) (hcalls (run_hist fe h)) -> exists own, may_deliver fe own k = true.
Proof. exact (interest_gate fe h hd k). Qed.
Print Assumptions C05_interest_gate.

(* ... and the gate is exact: the handler of the longest-prefix route is called iff the specification allows it under
   the validator in force: the route's own validator, else (legacy) the application-wide validator [dv] as it is when
   the Interest is dispatched *)
Theorem C05_gate_exact (fe : frontend) (dv : bool) (f : list (name * (N * bool))) (k : inc) (hd : N) (hasv : bool) :
  gate fe dv f k = Some (hd, hasv) <->
  (exists p, lpm f (k_name k) = Some (p, (hd, hasv))) /\ may_deliver fe (in_force fe hasv dv) k = true.
Proof. exact (gate_iff fe dv f k hd hasv). Qed.
Print Assumptions C05_gate_exact.

(* "the validator in force", for EVERY history: an Interest arriving after the history h calls exactly what the gate
   allows with the application-wide validator as LAST SET in h ([default_of h], Spec) - whether the route was attached
   before or after that assignment - and nothing else *)
Theorem C05_validator_in_force (fe : frontend) (h : list (tie * ev)) (m : tie)
        (k : N) (n : name) (hp : bool) (sg : N) (dok : bool) (v t : N) :
  hcalls (run_hist fe (h ++ [(m, Incoming k n hp sg dok v t)]))
  = hcalls (run_hist fe h)
    ++ match gate fe (default_of h) (fib (run_hist fe h)) (mkInc k n hp sg dok v) with
       | Some (hd, _) => [(hd, mkInc k n hp sg dok v)]
       | None => []
       end.
Proof. exact (incoming_after fe h m k n hp sg dok v t). Qed.
Print Assumptions C05_validator_in_force.

Theorem C05_delivered_only_if_in_force_accepts (fe : frontend) (h : list (tie * ev)) (m : tie)
        (k : N) (n : name) (hp : bool) (sg : N) (dok : bool) (v t : N) (hd : N) :
  In (hd, mkInc k n hp sg dok v) (hcalls (run_hist fe (h ++ [(m, Incoming k n hp sg dok v t)]))) ->
  In (hd, mkInc k n hp sg dok v) (hcalls (run_hist fe h)) \/
  exists p hasv, lpm (fib (run_hist fe h)) n = Some (p, (hd, hasv)) /\
                 may_deliver fe (in_force fe hasv (default_of h)) (mkInc k n hp sg dok v) = true.
Proof. exact (incoming_after_only_if fe h m k n hp sg dok v t hd). Qed.
Print Assumptions C05_delivered_only_if_in_force_accepts.

(* the verdict table used above is the one of the source: ValidResult as reflected from ndn.types on this run *)
Theorem C05_verdict_table_matches_source :
  valid_result_members = [(n_FAIL, -2); (n_TIMEOUT, -1); (n_SILENCE, 0); (n_PASS, 1); (n_ALLOW_BYPASS, 2)]%Z /\
  map (fun m => pass V2 (vr_index (snd m))) valid_result_members = [false; false; false; true; true] /\
  norm_verdict V2 5 = vr_index (-1) /\
  validation_failure_default_result = n_FAIL /\ norm_verdict V1 1 = vr_index (-2) /\
  valid_result_members_all_truthy = true /\
  legacy_default_int_validator_is_sha256_digest_checker = true.
Proof. exact valid_result_table. Qed.
Print Assumptions C05_verdict_table_matches_source.

(* non-vacuity *)
Definition ex_c05 : list (tie * ev) :=
  [ (NoTie, Express 0 [0] false None 100 VDef 0); (NoTie, Await 0 0);
    (NoTie, Express 1 [0] false None 100 (VImm 2) 0); (NoTie, Await 1 0);
    (NoTie, Data 5 [0] 5 20);
    (NoTie, Attach [0] true 30); (NoTie, Attach [0; 1] false 30);
    (NoTie, Incoming 0 [0; 2] true 1 true 3 40);      (* signed + params, digest ok, validator PASS -> delivered *)
    (NoTie, Incoming 1 [0; 2] true 1 true 2 41);      (* validator SILENCE -> dropped by V2 (truthy for V1) *)
    (NoTie, Incoming 2 [0; 1; 2] true 0 true 3 42);   (* route without validator: V2 drops *)
    (NoTie, Incoming 3 [0; 1; 2] false 0 true 0 43);  (* plain: delivered without validator *)
    (NoTie, SetDefault true 50);                      (* legacy: app.int_validator replaced AFTER the routes exist *)
    (NoTie, Incoming 4 [0; 1; 2] true 1 true 0 51);   (* /a/b has no validator of its own: the new default rejects (V1) *)
    (NoTie, Incoming 5 [0; 1; 2] true 1 true 1 52);   (* ... and accepts this one (V1); V2 still drops both *)
    (NoTie, SetDefault false 53);
    (NoTie, Incoming 6 [0; 1; 2] true 1 true 0 54);   (* library default again: DigestSha256 ok -> delivered (V1) *)
    (EvFirst, VDone 0 3 100) ].                        (* verdict exactly at the deadline -> timeout *)
Example C05_example :
  wf_history ex_c05 /\
  completion (run_hist V2 ex_c05) 0 = Some OTimeout /\
  completion (run_hist V2 ex_c05) 1 = Some (OInvalid 5 2) /\
  map (fun x : N * inc => (fst x, k_id (snd x))) (hcalls (run_hist V2 ex_c05)) = [(0, 0); (1, 3)] /\
  map (fun x : N * inc => (fst x, k_id (snd x))) (hcalls (run_hist V1 ex_c05)) = [(0, 0); (0, 1); (1, 2); (1, 3); (1, 5); (1, 6)] /\
  ivcalls (run_hist V1 ex_c05) = [0; 1; 4; 5] /\
  default_of (firstn 12 ex_c05) = true /\ default_of ex_c05 = false /\
  spec_state V2 (firstn 5 ex_c05) 0 = IValidating (mkSp [0] false None 100 VDef) 5.
Proof.
  split; [cbn; repeat split; try lia; intros H; repeat (destruct H as [H|H]; try discriminate H); contradiction|].
  repeat split; vm_compute; reflexivity.
Qed.

(* Suspended Interest validators (Model/GateSuspend.v): the validator of an incoming Interest may take its time, and
   the application may attach / detach routes or replace its application-wide validator before the verdict is there.
   For EVERY such history: a handler h that is called for an Interest k was attached (as handler h) at a prefix p of
   k's name, with / without a validator of its own, and the validator in force FOR THAT ATTACHMENT accepted k
   (a missing validator means rejection in V2; dv = an application-wide validator of the legacy front-end) -
   never the handler of one route after the verdict of another route's validator. *)
Theorem C05_suspended_gate (fe : frontend) (evs : list gev) (h : N) (k : inc) :
  In (h, k) (g_hc (g_run fe evs)) ->
  exists p hasv dv, In (h, (p, hasv)) (g_att (g_run fe evs)) /\ is_prefix p (k_name k) = true /\
                    may_deliver fe (in_force fe hasv dv) k = true.
Proof. exact (suspended_gate fe evs h k). Qed.
Print Assumptions C05_suspended_gate.

(* a handler id names one attachment (prefix, has a validator of its own) *)
Theorem C05_handler_names_one_attachment (fe : frontend) (evs : list gev) (h : N) (x y : name * bool) :
  In (h, x) (g_att (g_run fe evs)) -> In (h, y) (g_att (g_run fe evs)) -> x = y.
Proof. exact (att_functional fe evs h x y). Qed.
Print Assumptions C05_handler_names_one_attachment.

(* /a attached with a validator; a signed Interest /a/b/h arrives, its validator suspends; meanwhile /a/b is attached
   WITHOUT a validator (handler 1); the verdict is PASS: handler 0 - whose validator accepted - gets it, and a second
   Interest arriving afterwards meets /a/b and is rejected (V2) *)
Example C05_suspended_example :
  map (fun x : N * inc => (fst x, k_id (snd x)))
      (g_hc (g_run V2 [GAttach [0] true; GArrive (mkInc 0 [0; 1; 7] true 1 true 0) true; GAttach [0; 1] false;
                       GArrive (mkInc 1 [0; 1; 7] true 1 true 3) false; GVerdict 0 3])) = [(0, 0)].
Proof. vm_compute. reflexivity. Qed.

(* VALIDATOR OUTCOMES.  A validator that is consulted accepts, rejects, or terminates with an exception (a certificate
   fetch that timed out / was nacked, a face that went down).  Only the first is an acceptance: the histories give a
   validator that rejected OR RAISED a non-passing verdict (V2: FAIL, TIMEOUT, SILENCE, 5 = raised; V1: 0).  For EVERY
   history: an Interest whose validator did not accept reaches a handler only if no application validator had to accept
   it - it is plain, or (legacy) it is unsigned, or its DigestSha256 signature satisfied the library default
   sha256_digest_checker on a route without a validator of its own. *)
Theorem C05_no_accept_no_delivery (fe : frontend) (h : list (tie * ev)) (hd : N) (k : inc) :
  In (hd, k) (hcalls (run_hist fe h)) -> pass fe (k_verdict k) = false ->
  plain k = true \/ (fe = V1 /\ k_digest_ok k = true /\ (signed k = false \/ (k_sig k =? 2) = false)).
Proof. exact (interest_no_accept fe h hd k). Qed.
Print Assumptions C05_no_accept_no_delivery.

(* ... also when the validator suspended and the routes changed meanwhile ([k] carries the verdict it finally got) *)
Theorem C05_suspended_no_accept_no_delivery (fe : frontend) (evs : list gev) (h : N) (k : inc) :
  In (h, k) (g_hc (g_run fe evs)) -> pass fe (k_verdict k) = false ->
  plain k = true \/
  (fe = V1 /\ k_digest_ok k = true /\
   (signed k = false \/ ((k_sig k =? 2) = false /\ exists p, In (h, (p, false)) (g_att (g_run fe evs))))).
Proof. exact (suspended_no_accept fe evs h k). Qed.
Print Assumptions C05_suspended_no_accept_no_delivery.

(* a signed Interest on a route with a validator; the validator raises (verdict 5 in V2, 0 in V1) at once (Interest 0) or
   after a suspension (Interest 1): no handler call in either front-end; Interest 2 is accepted *)
Example C05_raising_validator_example :
  g_hc (g_run V2 [GAttach [0] true; GArrive (mkInc 0 [0; 1] false 1 true 5) false; GArrive (mkInc 1 [0; 1] false 1 true 0) true;
                  GVerdict 1 5]) = [] /\
  map (fun x : N * inc => (fst x, k_id (snd x)))
      (g_hc (g_run V1 [GAttach [0] true; GArrive (mkInc 0 [0; 1] false 1 true 0) false; GArrive (mkInc 1 [0; 1] false 1 true 0) true;
                       GVerdict 1 0; GArrive (mkInc 2 [0; 1] false 1 true 1) false])) = [(0, 2)].
Proof. split; vm_compute; reflexivity. Qed.
