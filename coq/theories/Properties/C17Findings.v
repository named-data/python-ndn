(* C17 — the clauses are FALSE for the registration code as it was found (protocol records [proto_*_orig] of
   Model/Registerer.v = what tools/gen_regproto.py extracts from the unrepaired source).  Each witness was
   replayed on the real NDNApp (docs/C17.md); the defects are repaired by the fix: commits listed in
   known_findings.d/C17.json, after which the generated records pass [proto_ok] and Properties/C17.v applies. *)
From NDN Require Import Base.Prelude Model.Name Model.Registerer Spec.Registration.
Local Open Scope N_scope.

Definition fe_v2_orig : kind -> proto := fe_of proto_v2_reg_orig proto_v2_unreg_orig.
Definition fe_v1_orig : kind -> proto := fe_of proto_v1_reg_orig proto_v1_unreg_orig.

Definition nm (c : N) : name := [comp_enc TYPE_GENERIC [c]].
Definition r200_nobody : reply := RData (Some [101; 3; 102; 1; 200]) true.   (* 65 03 66 01 c8 *)
Definition r404 : reply := RData (Some [101; 4; 102; 2; 1; 148]) true.
Definition r_garbage : reply := RData (Some [1; 2; 3]) true.
Definition r_nocontent : reply := RData None true.

(* a 200 response without body: AttributeError out of register (both front-ends) *)
Theorem C17_no_body_raises_refuted :
  exists clock evs, never_raises (log (run_events fe_v2_orig clock evs)) = false /\
                    never_raises (log (run_events fe_v1_orig clock evs)) = false.
Proof. exists (fun _ => 5), [EConnect; ECall KReg (nm 97); EReply 0 r200_nobody]. vm_compute. split; reflexivity. Qed.

(* undecodable or missing Content: ValueError / TypeError out of register *)
Theorem C17_garbage_reply_raises_refuted :
  exists clock evs1 evs2, never_raises (log (run_events fe_v2_orig clock evs1)) = false /\
                          never_raises (log (run_events fe_v2_orig clock evs2)) = false.
Proof.
  exists (fun _ => 5), [EConnect; ECall KReg (nm 97); EReply 0 r_garbage],
         [EConnect; ECall KReg (nm 97); EReply 0 r_nocontent].
  vm_compute. split; reflexivity.
Qed.

(* unregister answers True to a 404 *)
Theorem C17_unregister_success_iff_200_refuted :
  exists clock evs, outcomes_ok false (log (run_events fe_v2_orig clock evs)) = false /\
                    never_raises (log (run_events fe_v2_orig clock evs)) = true.
Proof. exists (fun _ => 5), [EConnect; ECall KUnreg (nm 97); EReply 0 r404]. vm_compute. split; reflexivity. Qed.

(* appv2: the signature time is read after the recorded timestamp - two commands with the same timestamp
   under a perfectly ordinary clock 5, 6, 6, 6, ... *)
Theorem C17_timestamps_v2_refuted :
  exists clock evs, (forall i, clock i <= clock (S i)) /\
                    timestamps_ok (log (run_events fe_v2_orig clock evs)) = false.
Proof.
  exists (fun i => match i with O => 5 | _ => 6 end),
         [EConnect; ECall KReg (nm 97); ECall KReg (nm 98); EReply 0 r200_nobody].
  split; [intros [|i]; cbn; lia|]. vm_compute. reflexivity.
Qed.

(* v1: two commands within one millisecond *)
Theorem C17_timestamps_v1_refuted :
  exists evs, timestamps_ok (log (run_events fe_v1_orig (fun _ => 5) evs)) = false.
Proof. exists [EConnect; ECall KReg (nm 97); ECall KReg (nm 98); EReply 0 r404]. vm_compute. reflexivity. Qed.

(* v1: unregister does not take the semaphore - two commands outstanding *)
Theorem C17_one_at_a_time_v1_refuted :
  exists evs, serial_ok (log (run_events fe_v1_orig (fun i => N.of_nat i) evs)) = false /\
              length (outst (run_events fe_v1_orig (fun i => N.of_nat i) evs)) = 2%nat.
Proof. exists [EConnect; ECall KReg (nm 97); ECall KUnreg (nm 98)]. vm_compute. split; reflexivity. Qed.

(* consequence for auto-registration: an undecodable reply to the first route ends the starting task and the
   second declared route is never registered *)
Theorem C17_autoreg_refuted :
  exists evs, autoreg_ok (log (run_events fe_v2_orig (fun i => N.of_nat (S i)) evs)) = false.
Proof. exists [ERoute (nm 97); ERoute (nm 98); EConnect; EReply 0 r_garbage]. vm_compute. reflexivity. Qed.
