(* C14 — statements that are FALSE on the faithful model, with witnesses (replayed on the real code by
   harness/props/c14.py: gen_loops, gen_histories '9a-witness'). *)
From NDN Require Import Base.Prelude Model.Validator Spec.ChainSpec.
From NDN Require Import Proofs.ValidatorProofs Proofs.ValidatorExamples.

(* KNOWN (DESIGN 9c, known_findings.d/C14.json C14-loop-no-verdict):
   "the validator always answers" is false — a certificate that names itself (or a cycle of certificates)
   and is admitted by the signing check makes validate() fetch forever; the packet has no chain, so the
   specification demands a rejection, but no verdict is ever produced. *)
Theorem C14_always_answers_refuted :
  exists w c p, ~ Chain w (trust_of c) p /\ forall fuel, fst (fst (validate w c fuel [] p)) = Err EFuel.
Proof. exact (ex_intro _ ex_world (ex_intro _ cfg1 (ex_intro _ PL (conj ex_no_chain_PL loop_leaf_never_answers)))). Qed.
Print Assumptions C14_always_answers_refuted.

(* FIXED (DESIGN 9a, commit "fix: give every CascadeChecker / lvs_validator its own default key storage"):
   on the model of the code BEFORE the fix ([legacy = true]: the default `storage` argument is one object
   shared by all instances) history independence is false: validator 1 (anchor A2) rejects P, validator 0
   (anchor A1) accepts it, then validator 1 accepts the same P — without a chain to A2 and without
   sending a single Interest. *)
Theorem C14_history_independent_legacy_refuted :
  exists w ops p c2,
    (forall o, In o ops -> match o with ONewLvs _ _ (SGiven _) | ONewCascade _ (SGiven _) => False | _ => True end) /\
    ~ Chain w (trust_of c2) p /\
    exists c1, snd (run_history true w 5 init_state
                      ([ONewLvs ex_schema (Ok A1) SDefault; ONewLvs ex_schema (Ok A2) SDefault] ++ ops)) =
               [ BNew (Ok 0%nat); BNew (Ok 1%nat); BVal (Ok false) [nC; nA]; BVal (Ok true) [nC]; BVal (Ok true) [] ] /\
               lvs_init w ex_schema (Ok A1) = Ok c1 /\ lvs_init w ex_schema (Ok A2) = Ok c2 /\
               ops = [OValidate 1 p; OValidate 0 p; OValidate 1 p].
Proof.
  refine (ex_intro _ ex_world (ex_intro _ [OValidate 1 P; OValidate 0 P; OValidate 1 P] (ex_intro _ P (ex_intro _ cfg2
         (conj _ (conj ex_no_chain_P_anchor2
                       (ex_intro _ cfg1 (conj ex_history_legacy (conj ex_init1 (conj ex_init2 eq_refl)))))))))).
  apply Forall_forall. repeat constructor.
Qed.
Print Assumptions C14_history_independent_legacy_refuted.

(* REMARK (not a violation of "accept <-> chain"): rejection is not always the boolean False — a packet whose
   signature type does not fit the key type of the certificate it names makes the key import raise ValueError,
   which escapes the validator (and every enclosing validation) instead of yielding False. *)
Theorem C14_remark_reject_by_exception :
  exists w c p, fst (fst (validate w c 3 [] p)) = Err EValue /\ ~ Chain w (trust_of c) p.
Proof.
  refine (ex_intro _ ex_world (ex_intro _ cfg1 (ex_intro _ Q (conj ex_reject_by_exception _)))).
  intros Hc. apply (chainb_spec ex_world (trust_of cfg1) 3 Q false) in Hc; [discriminate | vm_compute; reflexivity].
Qed.
Print Assumptions C14_remark_reject_by_exception.
