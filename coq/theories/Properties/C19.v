(* C19 — Segmented fetch yields every segment once, in order, tolerating bounded loss.
   Only statements, [exact]s and Print Assumptions live here.

   Vocabulary (Spec/SegFetchSpec.v): a scenario [S] is a published object (N segments base/seg=i with
   content and FinalBlockId marker), the answer to the discovery Interest (segment k or an unsegmented
   Data) and the fate (lost / nacked / invalid / delivered) of the n-th Interest for every key.
   [fetch fuel cfg S] is what the model of segment_fetcher yields, and how it ends, against that
   producer; [needed S k]: key k has to be obtained; [tolerable_explicit S r k]: the first r Interests
   for k are not all lost and the first one that is not lost is delivered; [exhausted S r k]: they are
   all lost; [marked S]: exactly the last segment carries its own component as FinalBlockId. *)
From NDN Require Import Base.Prelude Model.SegFetch Spec.SegFetchSpec.
From NDN Require Import Proofs.SegFetchHeadline Proofs.SegFetchMain
  Proofs.SegFetchAny Proofs.ConstsSegFetchAgree.
Local Open Scope nat_scope.

(* the model computes the specification's [expected], for every scenario: any number of segments, any
   discovery answer, any pattern of losses / nacks / validation failures, any FinalBlockId markers
   (absent, early, designating another segment, non-canonical) *)
Theorem C19_refines S cfg fuel :
  wf_scenario S -> nseg (obj S) < fuel -> fetch fuel cfg S = expected S (retry_times cfg).
Proof. exact (fetch_refines S cfg fuel). Qed.
Print Assumptions C19_refines.

(* every segment once, in order, whichever segment answers the discovery Interest; the single content
   of an unsegmented object *)
Theorem C19_in_order_once S cfg fuel :
  wf_scenario S -> marked S -> nseg (obj S) < fuel ->
  (forall k, needed S k -> tolerable_explicit S (retry_times cfg) k) ->
  fetch fuel cfg S = (all_contents S, Completed).
Proof. exact (fetch_in_order_once S cfg fuel). Qed.
Print Assumptions C19_in_order_once.
Example C19_in_order_once_nonvacuous :
  wf_scenario ex_scn /\ marked ex_scn /\ (forall k, needed ex_scn k -> tolerable_explicit ex_scn 3 k) /\
  fetch 4 ex_cfg ex_scn = ([[0; 7]; [1; 7]; [2; 7]]%N, Completed).
Proof. exact (conj ex_wf (conj ex_marked (conj ex_tolerable ex_runs))). Qed.

Theorem C19_completes_iff S cfg fuel :
  wf_scenario S -> marked S -> nseg (obj S) < fuel ->
  (snd (fetch fuel cfg S) = Completed <-> forall k, needed S k -> tolerable_explicit S (retry_times cfg) k).
Proof. exact (fetch_completes_iff S cfg fuel). Qed.
Print Assumptions C19_completes_iff.

(* timeout exactly when some needed key exhausts its attempts … *)
Theorem C19_timeout_exactly_when S cfg fuel :
  wf_scenario S -> marked S -> nseg (obj S) < fuel -> no_faults S ->
  (snd (fetch fuel cfg S) = Raised XTimeout <-> exists k, needed S k /\ exhausted S (retry_times cfg) k).
Proof. exact (fetch_timeout_iff S cfg fuel). Qed.
Print Assumptions C19_timeout_exactly_when.

(* … after yielding the earlier segments *)
Theorem C19_timeout_after_earlier S cfg fuel k :
  wf_scenario S -> marked S -> nseg (obj S) < fuel ->
  needed S k -> (forall k', needed S k' -> before k' k -> tolerable_explicit S (retry_times cfg) k') ->
  exhausted S (retry_times cfg) k ->
  fetch fuel cfg S = (contents_before S k, Raised XTimeout).
Proof. exact (fetch_timeout_after_earlier S cfg fuel k). Qed.
Print Assumptions C19_timeout_after_earlier.
Example C19_timeout_nonvacuous :
  exhausted ex_scn 2 (KSeg 0) /\ fetch 4 (mkCfg 2 4000 true) ex_scn = ([], Raised XTimeout).
Proof. exact (conj ex_exhausted ex_timeout). Qed.

(* Nacks and validation failures propagate, after the earlier segments, instead of being skipped *)
Theorem C19_errors_propagate S cfg fuel k x :
  wf_scenario S -> marked S -> nseg (obj S) < fuel ->
  needed S k -> (forall k', needed S k' -> before k' k -> tolerable_explicit S (retry_times cfg) k') ->
  fails_with S (retry_times cfg) k x ->
  fetch fuel cfg S = (contents_before S k, Raised x).
Proof. exact (fetch_errors_propagate S cfg fuel k x). Qed.
Print Assumptions C19_errors_propagate.
Example C19_errors_nonvacuous :
  fails_with ex_scn_nack 3 (KSeg 1) XNack /\ fetch 4 ex_cfg ex_scn_nack = ([[0; 7]]%N, Raised XNack).
Proof. exact (conj ex_fails ex_nack). Qed.

(* when no segment designates itself final the consumer cannot know where the object ends: it delivers
   every published segment in order and then times out on the first segment that does not exist *)
Theorem C19_unmarked_runs_to_timeout S cfg fuel k :
  wf_scenario S -> disc S = DSeg k -> nseg (obj S) < fuel ->
  (forall i, i < nseg (obj S) -> is_final (obj S) i = false) ->
  (forall k, needed S k -> tolerable_explicit S (retry_times cfg) k) ->
  fetch fuel cfg S = (all_contents S, Raised XTimeout).
Proof. exact (fetch_unmarked S cfg fuel k). Qed.
Print Assumptions C19_unmarked_runs_to_timeout.
Example C19_unmarked_nonvacuous : fetch 3 ex_cfg ex_scn_unmarked = ([[0]; [1]]%N, Raised XTimeout).
Proof. exact ex_unmarked. Qed.

(* the Interests the simulated producer observes are exactly those the specification lists … *)
Theorem C19_interests_observed S cfg fuel :
  wf_scenario S -> nseg (obj S) < fuel -> interests fuel cfg S = expected_asks S cfg.
Proof. exact (fetch_asks S cfg fuel). Qed.
Print Assumptions C19_interests_observed.

(* … in particular, under bounded loss: the discovery Interest, then every needed segment in order,
   each re-expressed once per loss, nothing skipped, nothing fetched twice *)
Theorem C19_interests_in_order S cfg fuel k :
  wf_scenario S -> disc S = DSeg k -> well_marked (obj S) -> nseg (obj S) < fuel ->
  (forall k, needed S k -> tolerable_explicit S (retry_times cfg) k) ->
  interests fuel cfg S =
    asks_for S cfg KDisc (disc_req S cfg) ++
    flat_map (fun t => asks_for S cfg (KSeg t) (seg_req S cfg t)) (seq (first_needed S) (nseg (obj S) - first_needed S)).
Proof. exact (fetch_asks_in_order S cfg fuel k). Qed.
Print Assumptions C19_interests_in_order.
Example C19_interests_nonvacuous :
  map rq_cbp (interests 4 ex_cfg ex_scn) = [true; true; false; false; false; false; false] /\
  map (fun q => last (rq_name q) []) (interests 4 ex_cfg ex_scn) =
    [[8; 1; 97]; [8; 1; 97]; seg_comp 0; seg_comp 0; seg_comp 0; seg_comp 1; seg_comp 2]%N.
Proof. exact ex_interests. Qed.

(* against ANY producer (arbitrary oracle, arbitrary names and markers in the answers): the retry
   discipline and the propagation of every exception other than a timeout *)
Theorem C19_any_producer_discipline fuel cfg o nm0 :
  disciplined (attempts_of (retry_times cfg)) (fst (segment_fetcher fuel cfg o nm0)) (snd (segment_fetcher fuel cfg o nm0)).
Proof. exact (fetcher_disciplined fuel cfg o nm0). Qed.
Print Assumptions C19_any_producer_discipline.

(* T1: constants and keyword defaults reflected from the source on this run are the model's *)
Theorem C19_consts_agree : consts_agree.
Proof. exact consts_agree_holds. Qed.
