(* C18 — State-vector sync merges monotonically and announces exactly when needed.
   Only statements, [exact]s, Print Assumptions and non-vacuity examples live here.
   Model: Model/Svs.v (sync.py after the fix commits of branch fix/C18); specification: Spec/SvsSpec.v.
   What was false before the fixes: Properties/C18Findings.v (required below so that it is re-checked). *)
From NDN Require Import Base.Prelude Model.Svs Spec.SvsSpec.
From NDN Require Import Proofs.SvsSpecFacts Proofs.SvsProofs Proofs.SvsConstsAgree.
From NDN Require Properties.C18Findings.
Local Open Scope N_scope.

(* ---- meaning of the executable specification functions (pointwise) ---------------------------- *)
Theorem C18_spec_pmax a b k : vget (pmax a b) k = N.max (vget a k) (vget b k).
Proof. exact (pmax_get a b k). Qed.
Print Assumptions C18_spec_pmax.

Theorem C18_spec_newer a b : newerb a b = true <-> exists k, vget b k < vget a k.
Proof. exact (newerb_spec a b). Qed.
Print Assumptions C18_spec_newer.

Theorem C18_spec_accepted self q w :
  acceptedb self q w = true <->
  (forall k, ~ In (Some k, None) w) /\ ~ (exists x, In (Some self, Some x) w /\ q < x).
Proof. exact (acceptedb_spec self q w). Qed.
Print Assumptions C18_spec_accepted.

(* a received vector with distinct node ids denotes exactly its entries *)
Theorem C18_spec_denote_distinct w k :
  NoDup (keys (wentries w)) -> vget (denote w) k = vget (wentries w) k.
Proof. exact (denote_get_distinct w k). Qed.
Print Assumptions C18_spec_denote_distinct.

(* ---- states the theorems range over: every state reachable from start() ------------------------ *)
Theorem C18_reachable_wf c last k h : wf c (run c (init c last k) h).
Proof. exact (wf_run c h _ (wf_init c last k)). Qed.
Print Assumptions C18_reachable_wf.

(* ---- merge = entry-wise maximum for accepted vectors ---------------------------------------------- *)
Theorem C18_merge c s now r es :
  accepted (c_self c) (self_seq s) es ->
  forall k, vget (local (fst (step c s (ERecv now r (RVec es))))) k
            = N.max (vget (local s) k) (vget (denote es) k).
Proof. exact (fun A => proj1 (recv_accepted c s now r es A)). Qed.
Print Assumptions C18_merge.

(* after ANY sequence of events the local vector and the own sequence number are what the
   specification computes from the accepted vectors and the publications alone *)
Theorem C18_local_history c h s :
  let r := spec_run (c_self c) (local s, self_seq s) (map habs h) in
  (forall k, vget (local (run c s h)) k = vget (fst r) k) /\ self_seq (run c s h) = snd r.
Proof. exact (local_history c h s (local s, self_seq s) (conj (fun k => eq_refl) eq_refl)). Qed.
Print Assumptions C18_local_history.

(* ---- monotonicity over any event sequence ------------------------------------------------------------ *)
Theorem C18_monotone c s h k : wf c s -> vget (local s) k <= vget (local (run c s h)) k.
Proof. exact (fun W => monotone c h s W k). Qed.
Print Assumptions C18_monotone.

(* ---- an over-claiming vector, and anything else that is not an accepted vector (malformed, undecodable,
        wrong name length), is ignored entirely: state, timer, callback, emission --------------------------- *)
Theorem C18_overclaim_ignored c s now r es :
  overclaims (c_self c) (self_seq s) es ->
  fst (step c s (ERecv now r (RVec es))) = s /\
  o_cb (snd (step c s (ERecv now r (RVec es)))) = false /\
  o_emit (snd (step c s (ERecv now r (RVec es)))) = None.
Proof. exact (fun O => not_accepted_ignored c s now r (RVec es) (fun A => proj2 A O)). Qed.
Print Assumptions C18_overclaim_ignored.

Theorem C18_not_accepted_ignored c s now r x :
  match x with RVec es => ~ accepted (c_self c) (self_seq s) es | _ => True end ->
  fst (step c s (ERecv now r x)) = s /\
  o_cb (snd (step c s (ERecv now r x))) = false /\ o_emit (snd (step c s (ERecv now r x))) = None.
Proof. exact (not_accepted_ignored c s now r x). Qed.
Print Assumptions C18_not_accepted_ignored.

(* ---- the missing-data callback fires iff the received vector raised some entry ----------------------------- *)
Theorem C18_missing_iff_raised c s now r x :
  o_cb (snd (step c s (ERecv now r x))) = true <->
  exists k, vget (local s) k < vget (local (fst (step c s (ERecv now r x)))) k.
Proof. exact (missing_iff_raised c s now r x). Qed.
Print Assumptions C18_missing_iff_raised.

Theorem C18_missing_iff_raises_accepted c s now r es :
  accepted (c_self c) (self_seq s) es ->
  (o_cb (snd (step c s (ERecv now r (RVec es)))) = true <-> exists k, vget (local s) k < vget (denote es) k).
Proof. exact (missing_iff_raises_accepted c s now r es). Qed.
Print Assumptions C18_missing_iff_raises_accepted.

(* ---- publishing: own sequence number + 1, own entry updated, nothing else touched, the timer is due at
        once (next_timing = 0) and its expiry emits the full vector ------------------------------------------- *)
Theorem C18_publish c s :
  let s' := fst (step c s EPublish) in
  self_seq s' = self_seq s + 1 /\
  vget (local s') (c_self c) = self_seq s + 1 /\
  (forall k, k <> c_self c -> vget (local s') k = vget (local s) k) /\
  next_timing s' = 0 /\
  forall now r, o_emit (snd (step c s' (EClock now r))) = Some (local s') /\
                local (fst (step c s' (EClock now r))) = local s'.
Proof. exact (publish c s). Qed.
Print Assumptions C18_publish.

(* ---- life cycle: construct, publications, start, events, then repeatedly: stop, publications, start, events.  A publication made while the
        instance is not running is a [new_data] step of the constructed / stopped state, so C18_publish (any state) applies;
        start() makes the own entry equal to the own sequence number and moves nothing else; every phase keeps the
        state well-formed, so C18_monotone applies from there on --------------------------------------------------------- *)
Theorem C18_start c s :
  self_seq (start c s) = self_seq s /\
  vget (local (start c s)) (c_self c) = self_seq s /\
  (forall k, k <> c_self c -> vget (local (start c s)) k = vget (local s) k) /\
  next_timing (start c s) = next_timing s /\ mode (start c s) = mode s.
Proof. exact (start_spec c s). Qed.
Print Assumptions C18_start.

Theorem C18_lifecycle_wf c last pubs h stopped_pubs h' :
  let phase s k evs := run c (start c (Nat.iter k (new_data c) s)) evs in
  wf c (phase (phase (construct last) pubs h) stopped_pubs h').
Proof.
  exact (wf_run c h' _ (wf_start c _ (wf_iter c stopped_pubs _
          (wf_run c h _ (wf_start c _ (wf_iter c pubs _ (wf_construct c last))))))).
Qed.
Print Assumptions C18_lifecycle_wf.

(* ---- expiry of a suppression period: a sync Interest is emitted iff the local vector is newer in some entry
        than the merge of the vectors heard during that period (Spec.heard over the observable trace);
        before the expiry nothing happens ------------------------------------------------------------------------ *)
Theorem C18_suppression_iff c s0 h :
  wf c s0 -> mode s0 = Steady ->
  let s := run c s0 h in
  mode s = Suppression ->
  exists hd, heard (trace c s0 h) = Some hd /\
    forall now r,
      (next_timing s <= now ->
         (newer (local s) hd -> o_emit (snd (step c s (EClock now r))) = Some (local s)) /\
         (~ newer (local s) hd -> o_emit (snd (step c s (EClock now r))) = None) /\
         mode (fst (step c s (EClock now r))) = Steady) /\
      (now < next_timing s -> step c s (EClock now r) = (s, quiet 13)).
Proof. exact (suppression_expiry c s0 h). Qed.
Print Assumptions C18_suppression_iff.

(* outside suppression an expiring timer announces the full vector; whatever any event emits is the full
   local vector *)
Theorem C18_periodic c s now r :
  mode s = Steady -> next_timing s <= now -> o_emit (snd (step c s (EClock now r))) = Some (local s).
Proof. exact (steady_expiry c s now r). Qed.
Print Assumptions C18_periodic.

Theorem C18_emit_full_vector c s e v :
  o_emit (snd (step c s e)) = Some v -> v = local s /\ local (fst (step c s e)) = local s.
Proof. exact (emit_full_vector c s e v). Qed.
Print Assumptions C18_emit_full_vector.

(* ---- T1 ties re-established on this run: jitter constants of sample_*_timer, state values, TLV numbers ------- *)
Theorem C18_tie_jitter c r :
  sample_sync_timer c r = gen_sample (c_sync_interval c) G.sync_jitter_den G.sync_offset_num G.sync_offset_den r /\
  sample_sup_timer c r = gen_sample (c_sup_interval c) G.sup_jitter_den G.sup_offset_num G.sup_offset_den r.
Proof. exact (conj (sample_sync_agree c r) (sample_sup_agree c r)). Qed.
Print Assumptions C18_tie_jitter.

Theorem C18_tie_consts :
  (G.state_steady = 0 /\ G.state_suppression = 1) /\
  (G.tlv_state_vec = 201 /\ G.tlv_state_vec_entry = 202 /\ G.tlv_seq_no = 204).
Proof. exact (conj mode_consts_agree tlv_consts_agree). Qed.

Theorem C18_jitter_range c r : r < 2 ^ G.sync_rand_bits ->
  (c_sync_interval c - c_sync_interval c / 10 <= sample_sync_timer c r /\
   sample_sync_timer c r <= c_sync_interval c - c_sync_interval c / 10 + c_sync_interval c / 5) /\
  (c_sup_interval c - c_sup_interval c / 2 <= sample_sup_timer c r /\
   sample_sup_timer c r <= c_sup_interval c - c_sup_interval c / 2 + c_sup_interval c).
Proof. exact (fun R => conj (sync_timer_range c r R) (sup_timer_range c r R)). Qed.
Print Assumptions C18_jitter_range.

(* ---- non-vacuity ----------------------------------------------------------------------------------------------
   node /me (3 items published) knows a:5, b:7.  An outdated vector {a:2,b:7,me:3} is accepted, raises nothing
   and opens a suppression period; {a:9,b:1} is accepted, raises a (callback) and is aggregated;
   {me:4} over-claims.  At the expiry the merge of what was heard is {a:9,b:7,me:3}: local is nowhere newer, so
   nothing is emitted; had only the first vector been heard, the full vector is emitted. *)
Example C18_example :
  let me := C18Findings.me in let a := C18Findings.na in let b := C18Findings.nb in
  let c := C18Findings.cfg0 in
  let v1 := [(Some a, Some 2); (Some b, Some 7); (Some me, Some 3)] in
  let v2 := [(Some a, Some 9); (None, Some 1); (Some b, Some 1)] in
  let s0 := init c 3 0 in
  let h0 := [EClock 262144000 0; ERecv 262144000 0 (RVec [(Some a, Some 5); (Some b, Some 7)]); EClock 262176768 0] in
  let s1 := run c s0 h0 in
  let s2 := run c s1 [ERecv 262406144 7 (RVec v1)] in
  let s3 := run c s2 [ERecv 262406145 9 (RVec v2)] in
  wf c s1 /\ mode s1 = Steady /\ local s1 = [(me, 3); (a, 5); (b, 7)] /\
  accepted me 3 v1 /\ accepted me 3 v2 /\ overclaims me 3 [(Some me, Some 4)] /\
  mode s2 = Suppression /\ mode s3 = Suppression /\
  o_cb (snd (step c s1 (ERecv 262406144 7 (RVec v1)))) = false /\
  o_cb (snd (step c s2 (ERecv 262406145 9 (RVec v2)))) = true /\
  local s3 = [(me, 3); (a, 9); (b, 7)] /\
  heard (trace c s1 [ERecv 262406144 7 (RVec v1); ERecv 262406145 9 (RVec v2)]) = Some (pmax (denote v1) (denote v2)) /\
  o_emit (snd (step c s3 (EClock (next_timing s3) 0))) = None /\
  o_emit (snd (step c s2 (EClock (next_timing s2) 0))) = Some (local s2) /\
  self_seq (fst (step c s3 EPublish)) = 4.
Proof.
  cbv zeta. split; [apply wf_run, wf_init|].
  split; [vm_compute; reflexivity|]. split; [vm_compute; reflexivity|].
  split; [apply acceptedb_spec; vm_compute; reflexivity|].
  split; [apply acceptedb_spec; vm_compute; reflexivity|].
  split; [apply overclaimsb_spec; vm_compute; reflexivity|].
  vm_compute. repeat split; reflexivity.
Qed.
