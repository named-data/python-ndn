(* C15 — Keychain contents, defaults and signers stay consistent over any history.
   Only statements, [exact]s and Print Assumptions live here.

   Model: Model/Keychain.v (KeychainSqlite3 + TpmFile, every effect a fault point).  Spec: Spec/KeychainSpec.v.
   A history is a list of (optional fault position, operation); [run h] is the state after it, started from
   the empty store; [wf_op] only asks that certificates are imported under their key (NDN naming). *)
From NDN Require Import Base.Prelude Model.Keychain Spec.KeychainSpec.
From NDN Require Import Proofs.KeychainOutcome
  Proofs.KeychainInvariant Proofs.KeychainAbs Proofs.KeychainDefaults Proofs.KeychainCascade
  Proofs.KeychainSchemaAgree Proofs.KeychainRefine Proofs.KeychainHistory.
Local Open Scope N_scope.

Definition wf_history (h : list (option nat * op)) : Prop := Forall (fun fo => wf_op (snd fo)) h.

(* ---- the state invariant, over all histories with any failures -------------------------------------------
   inv = tables well-formed (unique row ids and names, at most one default per scope, valid references,
   keys named under their identity and certificates under their key), no transaction left open, every
   private key belongs to a listed key with the matching public bits, cached signers are current. *)
Theorem C15_invariant h : wf_history h -> inv (run h).
Proof. exact (inv_run h). Qed.
Print Assumptions C15_invariant.

(* at most one default per scope, in each of the three tables *)
Theorem C15_at_most_one_default h (sel : tables -> rows) :
  wf_history h -> (sel = t_ids \/ sel = t_keys \/ sel = t_certs) ->
  forall a b, In a (sel (db (run h))) -> In b (sel (db (run h))) ->
              r_def a = true -> r_def b = true -> r_par a = r_par b -> a = b.
Proof. intros W. exact (one_default_wf _ sel (inv_wf _ (inv_run h W))). Qed.
Print Assumptions C15_at_most_one_default.

(* ---- views ----------------------------------------------------------------------------------------------- *)
(* iteration, len, membership and lookup of each Mapping agree, list no name twice, and a name is listed by
   one owner only *)
Theorem C15_views_consistent h :
  wf_history h ->
  let t := db (run h) in
  view_consistent 0 (t_ids t) /\
  (forall i, In i (t_ids t) -> view_consistent (r_id i) (t_keys t)) /\
  (forall k, In k (t_keys t) -> view_consistent (r_id k) (t_certs t)) /\
  (forall n p q, In n (v_iter p (t_keys t)) -> In n (v_iter q (t_keys t)) -> p = q) /\
  (forall n p q, In n (v_iter p (t_certs t)) -> In n (v_iter q (t_certs t)) -> p = q).
Proof. intros W. exact (views_consistent_wf _ (inv_wf _ (inv_run h W))). Qed.
Print Assumptions C15_views_consistent.

(* ... and they are the views of the specification's nested maps *)
Theorem C15_views_refine_spec c :
  let a := abs c in let t := db c in
  view_agrees (s_ids a) 0 (t_ids t) /\
  (forall i, In i (t_ids t) -> view_agrees (si_keys (abs_ident t i)) (r_id i) (t_keys t)) /\
  (forall k, In k (t_keys t) -> view_agrees (sk_certs (abs_key t k)) (r_id k) (t_certs t)).
Proof. exact (views_refine c). Qed.
Print Assumptions C15_views_refine_spec.

(* ---- defaults: a populated scope is without default only if its default was deleted ----------------------- *)
Theorem C15_defaults_step f o c :
  inv c ->
  let c' := step c (f, o) in
  def_step (t_ids (db c)) (t_ids (db c')) /\ def_step (t_keys (db c)) (t_keys (db c')) /\
  def_step (t_certs (db c)) (t_certs (db c')).
Proof. exact (defaults_step f o c). Qed.
Print Assumptions C15_defaults_step.

Theorem C15_defaults_history (sel : tables -> rows) h p :
  (sel = t_ids \/ sel = t_keys \/ sel = t_certs) -> wf_history h ->
  populated p (sel (db (run h))) -> scope_has_def p (sel (db (run h))) = false ->
  exists h1 fo h2, h = h1 ++ fo :: h2 /\ lost_default (sel (db (run h1))) (sel (db (run (h1 ++ [fo])))) p.
Proof. exact (defaults_history_all sel h p). Qed.
Print Assumptions C15_defaults_history.

(* ---- deletes cascade, including the private keys; nothing else goes ------------------------------------------ *)
Theorem C15_delete_key_cascades f kn c r c' :
  inv c -> run_op f (ODelKey kn) c = (Ok r, c') ->
  exists k, In k (t_keys (db c)) /\ r_name k = kn /\ key_gone c c' k /\
            t_ids (db c') = t_ids (db c) /\
            (forall k0, In k0 (t_keys (db c)) -> r_name k0 <> kn -> In k0 (t_keys (db c'))) /\
            (forall ce, In ce (t_certs (db c)) -> r_par ce <> r_id k -> In ce (t_certs (db c'))) /\
            (forall K, K <> kn -> al_get name_eqb (tpm c') K = al_get name_eqb (tpm c) K).
Proof. exact (del_key_cascade f kn c r c'). Qed.
Print Assumptions C15_delete_key_cascades.

Theorem C15_delete_identity_cascades f n c r c' :
  inv c -> run_op f (ODelIdentity n) c = (Ok r, c') ->
  exists i, In i (t_ids (db c)) /\ r_name i = n /\
            ~ In n (map r_name (t_ids (db c'))) /\
            (forall k, In k (t_keys (db c)) -> r_par k = r_id i -> key_gone c c' k) /\
            (forall i0, In i0 (t_ids (db c)) -> r_name i0 <> n -> In i0 (t_ids (db c'))) /\
            (forall k0, In k0 (t_keys (db c)) -> r_par k0 <> r_id i -> In k0 (t_keys (db c'))) /\
            (forall ce k0, In ce (t_certs (db c)) -> In k0 (t_keys (db c)) -> r_id k0 = r_par ce -> r_par k0 <> r_id i ->
                           In ce (t_certs (db c'))).
Proof. exact (del_identity_cascade f n c r c'). Qed.
Print Assumptions C15_delete_identity_cascades.

(* ---- model ⊑ spec, operation by operation: a run without injected failure changes the abstract state exactly
   as Spec.spec_step says and raises exactly when the specification refuses (get_signer: no change) -------------- *)
Theorem C15_step_refines_spec o c : inv c -> wf_op o -> refines o c (run_op None o c).
Proof. exact (step_refines o c). Qed.
Print Assumptions C15_step_refines_spec.

(* ... so a history without failures is a run of the specification from the empty keychain *)
Theorem C15_run_refines_spec ops :
  Forall wf_op ops -> abs (run (map (fun o => (None, o)) ops)) = spec_run ops.
Proof. exact (run_refines_spec ops). Qed.
Print Assumptions C15_run_refines_spec.

(* ---- signers --------------------------------------------------------------------------------------------------- *)
(* whatever get_signer returns (with or without a failure) is the signer the specification selects:
   private key of the selected key, locator = explicit key_locator or the selected / default certificate *)
Theorem C15_signer_refines_spec f a c g c' :
  inv c -> run_op f (OGetSigner a) c = (Ok (RSigner g), c') -> signer_of a (abs c) = Some g.
Proof. exact (get_signer_refines f a c g c'). Qed.
Print Assumptions C15_signer_refines_spec.

Theorem C15_signer_complete a c g :
  inv c -> signer_of a (abs c) = Some g -> fst (run_op None (OGetSigner a) c) = Ok (RSigner g).
Proof. exact (get_signer_complete a c g). Qed.
Print Assumptions C15_signer_complete.

(* the private key used is that of a key which is listed, under its identity, with the public bits of that
   private key *)
Theorem C15_signer_right_key a c m loc :
  inv c -> signer_of a (abs c) = Some (SgKey m loc) ->
  exists kn cn k, s_select a (abs c) = Some (kn, cn) /\ s_key (abs c) kn = Some k /\ sk_bits k = m /\
                  loc = match a_locator a with Some l => l | None => cn end.
Proof. exact (signer_key_listed a c m loc). Qed.
Print Assumptions C15_signer_right_key.

(* after a key has been deleted no signing arguments yield a signer for it (until it is created again) *)
Theorem C15_no_signer_for_deleted_key f kn c r c' f' a m loc c'' :
  inv c -> run_op f (ODelKey kn) c = (Ok r, c') ->
  run_op f' (OGetSigner a) c' = (Ok (RSigner (SgKey m loc)), c'') ->
  forall cn, s_select a (abs c') <> Some (kn, cn).
Proof. exact (no_signer_after_delete f kn c r c' f' a m loc c''). Qed.
Print Assumptions C15_no_signer_for_deleted_key.

(* ---- fault recovery: after an injected storage failure at any effect of any operation the invariant holds,
   and repeating the operation gives exactly the result and the state of a run that never failed ------------- *)
Theorem C15_fault_recovery k o c c1 :
  inv c -> wf_op o -> run_op (Some k) o c = (Err EFault, c1) ->
  inv c1 /\ run_op None o c1 = run_op None o c.
Proof. exact (fault_recovery k o c c1). Qed.
Print Assumptions C15_fault_recovery.

(* every result / final state an operation can have, with or without failure (the case analysis all the above
   rests on) *)
Theorem C15_outcomes f o c : inv c -> outs (f <> None) o c (run_op f o c).
Proof. exact (run_op_outs_inv f o c). Qed.
Print Assumptions C15_outcomes.

(* ---- tie (T1): tables, unique indexes and the nine triggers of INITIALIZE_SQL, re-read from the source on
   every run, are the ones the model implements ------------------------------------------------------------------ *)
Theorem C15_tie_schema : Generated.KeychainSchema.schema = modelled_schema.
Proof. exact schema_agrees. Qed.

(* ---- non-vacuity: a history with two identities, a second key, an imported certificate, failures injected
   into new_key and del_key, a signer request and deletes; it is well-formed, ends in a populated store, and the
   failed del_key really failed and was recovered by its repeat ------------------------------------------------ *)
Example C15_example :
  let a := [10] in let b := [11] in
  let ka := a ++ [C_KEY; 2000] in let kb := a ++ [C_KEY; 2001] in
  let h := [ (None, OTouchIdentity a [2000] 1 100001);
             (None, OTouchIdentity b [2002] 2 100002);
             (Some 2%nat, ONewKey a 0 (KidRandom [2000; 2001]) 3 100003);
             (None, ONewKey a 0 (KidRandom [2000; 2001]) 3 100003);
             (None, OImportCert kb (kb ++ [100; 100004]) 7);
             (None, OSetDefaultKey a kb);
             (Some 1%nat, ODelKey ka);
             (None, ODelKey ka) ] in
  wf_history h /\
  fst (run_op (Some 1%nat) (ODelKey ka) (run (firstn 6 h))) = Err EFault /\
  v_iter 0 (t_ids (db (run h))) = [a; b] /\
  signer_of (mkArgs false false None None (Some a) None) (abs (run h)) = Some (SgKey 3 (kb ++ [C_SELF; 100003])) /\
  signer_of (mkArgs false false None (Some ka) None None) (abs (run h)) = None /\
  tpm (run h) = [(b ++ [C_KEY; 2002], 2); (kb, 3)].
Proof. cbn zeta. split; [repeat constructor; cbn; auto|]. vm_compute. repeat split; reflexivity. Qed.
