(* C01 — Interest and Data packets survive an encode/decode round trip.
   Only statements, [exact]s and Print Assumptions live here.  [sha] (SHA-256) and [sign] (what the signer
   writes for the bytes it is given) are arbitrary functions: the theorems hold for every signer. *)
From NDN Require Import Base.Prelude Model.TlvVar Model.Name Model.Tlv Model.Packet Model.PacketEnc.
From NDN Require Import Proofs.PacketRoundtrip Proofs.ShrinkProofs Proofs.ShrinkBridge.
From NDN Require Generated.Schemas Generated.SignerSizes.
From NDN Require Import Model.SignerSizes Proofs.SignerSizes.
Local Open Scope N_scope.

(* Data: one element of Type 6 with exact lengths (tlv = shortest-form T and L around the value), and the
   decoder returns name, MetaInfo, content, SignatureInfo and the signature that was written *)
Theorem C01_data_roundtrip sign d m :
  make_data sign d = Ok m ->
  N.of_nat (length (m_wire m)) < two64 ->
  (forall sv, data_fits d sv) ->
  exists sv, dec_data (m_wire m) = Ok (data_values d sv) /\
             (match d_sig d with Some _ => sv = Some (sign (m_sig_covered m)) | None => sv = None end).
Proof. exact (make_data_roundtrip sign d m). Qed.
Print Assumptions C01_data_roundtrip.

(* Interest: likewise; the name that comes back is the final name *)
Theorem C01_interest_roundtrip sha sign i m :
  make_interest sha sign i = Ok m ->
  N.of_nat (length (m_wire m)) < two64 ->
  (forall sv, interest_fits i (m_final_name m) sv) ->
  exists sv, dec_interest (m_wire m) = Ok (interest_values i (m_final_name m) sv) /\
             (match i_sig i with Some _ => sv = Some (sign (m_sig_covered m)) | None => sv = None end).
Proof. exact (make_interest_roundtrip sha sign i m). Qed.
Print Assumptions C01_interest_roundtrip.

(* the final name is the given name, plus the parameters-digest component exactly when ApplicationParameters
   or a signer are present (appended, or put in the place of an existing ParametersSha256 component) *)
Theorem C01_final_name sha sign i m :
  make_interest sha sign i = Ok m ->
  match eff_app i with
  | None => m_final_name m = i_name i
  | Some _ =>
      m_final_name m = i_name i ++ [digest_comp (sha (m_digest_covered m))] \/
      exists p, m_final_name m = set_nth (i_name i) p (digest_comp (sha (m_digest_covered m)))
  end.
Proof. exact (make_interest_final_name sha sign i m). Qed.
Print Assumptions C01_final_name.

(* the wire is tlv T body: T and the Length of the whole packet in shortest form, Length exact *)
Theorem C01_outer_element sign d m :
  make_data sign d = Ok m ->
  exists body sv, m_wire m = tlv TYPE_DATA body /\
    encode_model (depth_of Generated.Schemas.ndn_format_0_3_DataPacketValue)
                 Generated.Schemas.ndn_format_0_3_DataPacketValue (data_values d sv) = Ok body /\
    (match d_sig d with Some _ => sv = Some (sign (m_sig_covered m)) | None => sv = None end).
Proof. exact (make_data_body sign d m). Qed.

(* post-signing length repair: for every payload size and every number of unused trailing signature bytes,
   the in-place patching of tlv_var.shrink_length yields the canonical encoding of the shorter packet
   (crossing the 253 / 65536 length-encoding boundaries included) *)
Theorem C01_shrink t p pad :
  t < two64 -> N.of_nat (length (p ++ pad)) < two64 ->
  shrink_length (tlv t (p ++ pad)) (length pad) = Ok (tlv t p).
Proof. exact (shrink_length_correct t p pad). Qed.
Print Assumptions C01_shrink.

(* a signature longer than 252 bytes must fill its reserved space exactly *)
Theorem C01_shrink_rejected reserved sv :
  253 <= reserved -> N.of_nat (length sv) <> reserved -> check_sig_len reserved sv = Err EValue.
Proof. exact (check_sig_len_rejected reserved sv). Qed.

(* non-vacuity: a digest-signed Interest /a with parameters "x"; constant functions stand for the primitives *)
Example C01_example :
  let i := {| i_name := [comp_enc 8 [97]]; i_cbp := true; i_mbf := false; i_hint := []; i_nonce := Some 7;
              i_life := Some 4000; i_hop := None; i_app := Some [120];
              i_sig := Some {| si_info := VModel [VUint 0; VNone; VNone; VNone; VNone]; si_reserved := 32 |} |} in
  exists m, make_interest (fun _ => repeat 1 32) (fun _ => repeat 2 32) i = Ok m /\
            length (m_final_name m) = 2%nat /\ is_ok (dec_interest (m_wire m)) = true.
Proof. eexists. split; [vm_compute; reflexivity|]. vm_compute. split; reflexivity. Qed.

(* T2 tie: the shrink_length translated from the source on this run yields the canonical shorter element *)
Theorem C01_tie_shrink t p pad :
  t < two64 -> N.of_nat (length (p ++ pad)) < two64 -> (0 < length pad)%nat -> wf_bytes (p ++ pad) ->
  Generated.TlvVarGen.shrink_length (tlv t (p ++ pad)) (Z.of_nat (length pad)) = Ok (tlv t p).
Proof. exact (Proofs.ShrinkBridge.gen_shrink_eq t p pad). Qed.
Print Assumptions C01_tie_shrink.

(* "for all shipped signers": the size contract of the one signer whose signature length varies.  What
   Sha256WithEcdsaSigner reserves (arithmetic on the curve size, translated from the source on this run) bounds the
   length of the DER encoding SEQUENCE { INTEGER r, INTEGER s } for every r, s below 2^bits, on every prime curve a key
   can be on -- so the signer never writes past the reserved space, and the post-signing rule of the encoder accepts
   what it wrote (the round-trip theorems above then apply with the shorter signature). *)
Theorem C01_ecdsa_signature_fits b r s :
  In b ecdsa_curve_bits -> r < 2 ^ b -> s < 2 ^ b ->
  der_sig_len r s <= Generated.SignerSizes.ecdsa_reserved b.
Proof. exact (ecdsa_signature_fits b r s). Qed.
Print Assumptions C01_ecdsa_signature_fits.

Theorem C01_ecdsa_signature_accepted b r s sv :
  In b ecdsa_curve_bits -> r < 2 ^ b -> s < 2 ^ b ->
  N.of_nat (length sv) = der_sig_len r s ->
  check_sig_len (Generated.SignerSizes.ecdsa_reserved b) sv = Ok tt.
Proof. exact (ecdsa_signature_accepted b r s sv). Qed.
Print Assumptions C01_ecdsa_signature_accepted.

(* non-vacuity and tightness: a 139-octet signature exists on P-521, where 140 octets are reserved *)
Example C01_ecdsa_p521_tight :
  (exists r s, r < 2 ^ 521 /\ s < 2 ^ 521 /\ der_sig_len r s = 139) /\ Generated.SignerSizes.ecdsa_reserved 521 = 140.
Proof. split; [exact ecdsa_p521_tight | vm_compute; reflexivity]. Qed.
