(* C04 — Incoming Interests reach exactly the handler of their longest attached prefix; duplicate
   attach refused; detach frame; reply only before the deadline and truthfully reported.
   Only statements, [exact]s, Print Assumptions and non-vacuity Examples live here.

   Vocabulary (Spec/DispatchSpec.v):  attached t p = the handler at prefix p of table t;
   is_lpm a n p h = "p |-> h is the longest occupied prefix of n";  wf_op = handlers are callables;
   exec fe st0 ops = the state after an arbitrary history of attach / detach / Interest / loop-turn /
   reply / disconnect events on front-end fe (appv2.NDNApp, app.NDNApp, Dispatcher). *)
From NDN Require Import Base.Prelude Base.Text Model.TlvVar Model.Name Model.Trie Model.Dispatch Spec.DispatchSpec.
From NDN Require Import Proofs.TrieProofs Proofs.DispatchProofs Proofs.DispatchHistory Proofs.DispatchTop
  Proofs.TrieInverse Proofs.ConstsAppAgree Proofs.ReplyBridge Proofs.NameUriName Proofs.NameNormalize.
From NDN Require Import Model.DispatchV1 Spec.DispatchV1Spec Proofs.DispatchV1.
From NDN Require Properties.C04Findings.
Local Open Scope N_scope.

(* after ANY history, an Interest named n selects handler h iff h sits at the longest attached prefix *)
Theorem C04_lpm fe ops n h :
  Forall wf_op ops ->
  let t := s_fib (exec fe st0 ops) in
  dispatch t n = Some h <-> exists p, is_lpm (attached t) n p h.
Proof. exact (fun W => dispatch_lpm _ n h (reach_all_cb fe ops W)). Qed.
Print Assumptions C04_lpm.

(* ... and nobody iff no prefix of n is attached *)
Theorem C04_none fe ops n :
  Forall wf_op ops ->
  let t := s_fib (exec fe st0 ops) in
  dispatch t n = None <-> forall p, prefix p n -> attached t p = None.
Proof. exact (fun W => dispatch_none _ n (reach_all_cb fe ops W)). Qed.
Print Assumptions C04_none.

(* the longest attached prefix and its handler are unique: "exactly one handler" *)
Theorem C04_exactly_one (a : name -> option N) n p h p' h' :
  is_lpm a n p h -> is_lpm a n p' h' -> p = p' /\ h = h'.
Proof. exact (is_lpm_unique a n p h p' h'). Qed.
Print Assumptions C04_exactly_one.

(* an incoming Interest produces one invocation of the selected handler with the Interest's name (queued
   for the next loop turn by the NDNApp front-ends, immediate in Dispatcher) and none otherwise *)
Theorem C04_recv fe ops n life now :
  Forall wf_op ops ->
  let s := exec fe st0 ops in
  let s' := fst (step fe s (ORecv n life now)) in
  let hit := match dispatch (s_fib s) n with
             | Some h => [mk_call h n (deadline_of fe life now)]
             | None => []
             end in
  s_fib s' = s_fib s /\
  match fe with
  | FE_Disp => s_calls s' = s_calls s ++ hit /\ s_pending s' = s_pending s
  | _ => s_pending s' = s_pending s ++ hit /\ s_calls s' = s_calls s
  end.
Proof. exact (fun W => top_recv fe _ n life now (reach_all_cb fe ops W)). Qed.
Print Assumptions C04_recv.

Theorem C04_settle fe s :
  let s' := fst (step fe s OSettle) in
  s_calls s' = s_calls s ++ s_pending s /\ s_pending s' = [] /\ s_fib s' = s_fib s.
Proof. exact (conj eq_refl (conj eq_refl eq_refl)). Qed.
Print Assumptions C04_settle.

(* attaching to an occupied prefix raises ValueError and leaves every attachment as it was *)
Theorem C04_duplicate_refused fe t k h0 h v ex :
  attached t k = Some h0 ->
  exists t', fib_attach fe t k h v ex = (t', Err EValue) /\ forall q, attached t' q = attached t q.
Proof. exact (top_duplicate_refused fe t k h0 h v ex). Qed.
Print Assumptions C04_duplicate_refused.

(* ... and leaves the whole node of every prefix as it was: the occupying handler keeps its validator and its options
   (need_raw_packet / need_sig_ptrs), whatever validator / options the refused call carried *)
Theorem C04_duplicate_refused_keeps_options fe t k h0 h v ex :
  attached t k = Some h0 ->
  exists t', fib_attach fe t k h v ex = (t', Err EValue) /\ forall q, t_get t' q = t_get t q.
Proof. exact (top_duplicate_refused_nodes fe t k h0 h v ex). Qed.
Print Assumptions C04_duplicate_refused_keeps_options.

(* attaching to a free prefix succeeds and changes that prefix only *)
Theorem C04_attach_frame fe t k h v ex :
  attached t k = None ->
  exists t', fib_attach fe t k h v ex = (t', Ok tt) /\ attached t' k = h /\
             forall q, q <> k -> attached t' q = attached t q.
Proof. exact (top_attach_frame fe t k h v ex). Qed.
Print Assumptions C04_attach_frame.

(* detach frees exactly that prefix: shorter, longer and unrelated prefixes keep their handlers *)
Theorem C04_detach_frame fe ops k h :
  Forall wf_op ops ->
  let t := s_fib (exec fe st0 ops) in
  attached t k = Some h ->
  exists t', fib_detach t k = (t', Ok tt) /\ attached t' k = None /\
             forall q, q <> k -> attached t' q = attached t q.
Proof. exact (fun _ => top_detach_frame _ k h). Qed.
Print Assumptions C04_detach_frame.

Theorem C04_detach_absent fe ops k :
  Forall wf_op ops ->
  let t := s_fib (exec fe st0 ops) in
  attached t k = None -> fib_detach t k = (t, Err EKey).
Proof. exact (fun W => top_detach_absent _ k (reach_all_cb fe ops W)). Qed.
Print Assumptions C04_detach_absent.

(* attach followed by detach of a free prefix gives back the identical table (structure included) *)
Theorem C04_attach_detach_inverse fe ops k h v ex :
  Forall wf_op ops ->
  let t := s_fib (exec fe st0 ops) in
  attached t k = None ->
  fib_detach (fst (fib_attach fe t k h v ex)) k = (t, Ok tt).
Proof.
  exact (fun W H => attach_detach_inverse fe _ k h v ex (attached_none _ k (reach_all_cb fe ops W) H)
                      (exec_pruned fe ops st0 eq_refl)).
Qed.
Print Assumptions C04_attach_detach_inverse.

(* after its detach a handler receives nothing, whatever happens next, until it is attached again
   (invocations already queued by earlier Interests excluded by the hypothesis on the queue) *)
Theorem C04_detached_receives_nothing fe ops0 p h ops :
  Forall wf_op ops0 ->
  let s := exec fe st0 ops0 in
  attached (s_fib s) p = Some h -> (forall q, attached (s_fib s) q = Some h -> q = p) ->
  Forall (fun c => c_h c <> h) (s_pending s) ->
  Forall wf_op ops -> Forall (no_attach_of h) ops ->
  exists new, s_calls (exec fe s (ODetach p :: ops)) = s_calls s ++ new /\ Forall (fun c => c_h c <> h) new.
Proof. exact (fun W => detached_receives_nothing fe _ p h ops (reach_all_cb fe ops0 W)). Qed.
Print Assumptions C04_detached_receives_nothing.

(* whole histories: event by event the model shows the application what the specification machine
   (partial map prefix -> handler; longest occupied prefix; sent iff t <= deadline and the face is up,
   reported = sent -- a NetworkError out of reply() reads as "nothing sent, not reported as sent")
   prescribes; same invocations in the same order; same attachments at the end *)
Theorem C04_refines fe ops sops :
  sops_of fe ops = Some sops ->
  map abs_obs (snd (run_ops fe ops)) = map Some (snd (srun fe sops)) /\
  s_calls (fst (run_ops fe ops)) = ss_calls (fst (srun fe sops)) /\
  s_pending (fst (run_ops fe ops)) = ss_pending (fst (srun fe sops)) /\
  forall p, attached (s_fib (fst (run_ops fe ops))) p = ss_att (fst (srun fe sops)) p.
Proof. exact (fun H => reads_as_out _ _ _ _ (run_refines fe ops sops st0 sst0 reads_as_init H)). Qed.
Print Assumptions C04_refines.

(* the executable specification lookup is the relational one *)
Theorem C04_spec_lookup (a : amap) n :
  match s_lookup a n with
  | Some (p, h) => is_lpm a n p h
  | None => forall p, prefix p n -> a p = None
  end.
Proof. exact (lp_fun_spec a n). Qed.
Print Assumptions C04_spec_lookup.

(* reply: transmitted only while the lifetime has not elapsed (always then, when the face is up), and
   the return value is True exactly when it was transmitted, False otherwise — never None *)
Theorem C04_reply_truthful d t running sent r :
  reply_closure d t running = Ok (sent, r) ->
  (sent = true -> t <= d) /\ (running = true -> (sent = true <-> t <= d)) /\
  r = (if sent then RTrue else RFalse).
Proof. exact (top_reply_truthful d t running sent r). Qed.
Print Assumptions C04_reply_truthful.

(* ... whatever the state of the face when the handler calls reply (it may have gone down between the
   delivery of the Interest and the reply): transmitted iff inside the lifetime AND the face is up
   (the specification's s_reply_out); the return value is True exactly then; an exception is
   NetworkError and only when nothing was transmitted -- "sent" is never reported for a Data that
   did not go out *)
Theorem C04_reply_truthful_any_face d t running :
  match reply_closure d t running with
  | Ok (sent, r) => sent = s_reply_out d t running /\ r = (if sent then RTrue else RFalse)
  | Err e => e = E_NETWORK /\ s_reply_out d t running = false /\ running = false /\ t <= d
  end.
Proof. exact (top_reply_any_face d t running). Qed.
Print Assumptions C04_reply_truthful_any_face.

(* whatever representation names the prefix (encoded name, component list, canonical URI, list of
   component strings) attach and detach act on the same key — corollary of C09_normalize_agree *)
Theorem C04_repr_independent_attach fe t n h v ex :
  Forall uri_comp n -> N.of_nat (name_value_length n) < two64 ->
  fib_attach_ns fe t (NSWire (name_encode n)) h v ex = fib_attach fe t n h v ex /\
  fib_attach_ns fe t (NSList (map NCBytes n)) h v ex = fib_attach fe t n h v ex /\
  (forall u, name_to_canonical_uri n = Ok u -> fib_attach_ns fe t (NSStr u) h v ex = fib_attach fe t n h v ex) /\
  (forall ss, canon_strs n = Ok ss -> fib_attach_ns fe t (NSList (map NCStr ss)) h v ex = fib_attach fe t n h v ex).
Proof.
  exact (repr_independent (fun x => fib_attach_ns fe t x h v ex) (fun k => fib_attach fe t k h v ex) n
           (fun x => fib_attach_ns_ok fe t x n h v ex)).
Qed.
Print Assumptions C04_repr_independent_attach.

Theorem C04_repr_independent_detach t n :
  Forall uri_comp n -> N.of_nat (name_value_length n) < two64 ->
  fib_detach_ns t (NSWire (name_encode n)) = fib_detach t n /\
  fib_detach_ns t (NSList (map NCBytes n)) = fib_detach t n /\
  (forall u, name_to_canonical_uri n = Ok u -> fib_detach_ns t (NSStr u) = fib_detach t n) /\
  (forall ss, canon_strs n = Ok ss -> fib_detach_ns t (NSList (map NCStr ss)) = fib_detach t n).
Proof. exact (repr_independent (fib_detach_ns t) (fib_detach t) n (fun x => fib_detach_ns_ok t x n)). Qed.
Print Assumptions C04_repr_independent_detach.

(* the table never keeps an empty node: what a detach frees is given back *)
Theorem C04_no_garbage fe ops : t_pruned (s_fib (exec fe st0 ops)) = true.
Proof. exact (exec_pruned fe ops st0 eq_refl). Qed.
Print Assumptions C04_no_garbage.

(* pygtrie's longest_prefix as modelled (last step of prefixes) is the longest valued prefix *)
Theorem C04_trie_longest_prefix (t : trie pnode) n :
  match t_longest_prefix t n with
  | Some (p, v) => is_lpm (t_get t) n p v
  | None => forall p, prefix p n -> t_get t p = None
  end.
Proof. exact (eq_ind_r (fun o => match o with Some (p, v) => is_lpm (t_get t) n p v
                                   | None => forall p, prefix p n -> t_get t p = None end)
                (lp_fun_spec (t_get t) n) (t_longest_prefix_lp t n)). Qed.
Print Assumptions C04_trie_longest_prefix.

(* T1 tie re-established on this run *)
Theorem C04_tie_default_lifetime : Generated.ConstsApp.DEFAULT_LIFETIME = DEFAULT_LIFETIME.
Proof. exact default_lifetime_agree. Qed.

(* T2 tie re-established on this run: the reply closure and the deadline computation as translated from
   the source of appv2.NDNApp._on_interest are the model's *)
Theorem C04_tie_reply_closure d t r : Generated.ReplyGen.reply_gen d t r = reply_closure d t r.
Proof. exact (reply_gen_eq d t r). Qed.
Theorem C04_tie_deadline life now : Generated.ReplyGen.deadline_gen life now = deadline_of FE_V2 life now.
Proof. exact (deadline_gen_eq life now). Qed.

(* ---- the registration API of the legacy front-end (route / register / unregister: Model/DispatchV1.v) ------
   vexec fe st0 l = the state after ANY history l of the events above and of the table steps of
   register(k, h | None, ...) and unregister(k), in whatever order the loop ran them and whatever the forwarder
   answered (answers are not events: they never reach the table). *)
Theorem C04_v1_lpm fe l n h :
  Forall wf_vop l ->
  let t := s_fib (vexec fe st0 l) in
  dispatch t n = Some h <-> exists p, is_lpm (attached t) n p h.
Proof. exact (fun W => dispatch_lpm _ n h (vreach_all_cb fe l W)). Qed.
Print Assumptions C04_v1_lpm.

Theorem C04_v1_none fe l n :
  Forall wf_vop l ->
  let t := s_fib (vexec fe st0 l) in
  dispatch t n = None <-> forall p, prefix p n -> attached t p = None.
Proof. exact (fun W => dispatch_none _ n (vreach_all_cb fe l W)). Qed.
Print Assumptions C04_v1_none.

(* register(k, None): the forwarder is told, the table is not: no handler attached, detached or hidden *)
Theorem C04_v1_register_without_handler fe s k v ex : vstep fe s (VRegister k None v ex) = (s, ObOk).
Proof. exact eq_refl. Qed.
Print Assumptions C04_v1_register_without_handler.

(* register(k, h) attaches as set_interest_filter does (so C04_duplicate_refused / C04_attach_frame apply) *)
Theorem C04_v1_register_is_attach fe s k h v ex :
  vstep fe s (VRegister k (Some h) v ex) = step fe s (OAttach k (Some h) v ex).
Proof. exact eq_refl. Qed.
Print Assumptions C04_v1_register_is_attach.

(* unregister(k): never an error, k is free afterwards, every other prefix keeps its handler *)
Theorem C04_v1_unregister_frame fe l k :
  Forall wf_vop l ->
  let s := vexec fe st0 l in
  let r := vstep fe s (VUnregister k) in
  snd r = ObOk /\ attached (s_fib (fst r)) k = None /\
  (forall q, q <> k -> attached (s_fib (fst r)) q = attached (s_fib s) q) /\
  s_pending (fst r) = s_pending s /\ s_calls (fst r) = s_calls s.
Proof. exact (fun _ => v1_unregister_frame fe _ k). Qed.
Print Assumptions C04_v1_unregister_frame.

(* event by event these histories are the specification machine's (Spec/DispatchV1Spec.v) *)
Theorem C04_v1_refines fe l sl :
  svops_of fe l = Some sl ->
  map abs_obs (snd (vrun_ops fe l)) = map Some (snd (svrun fe sl)) /\
  s_calls (fst (vrun_ops fe l)) = ss_calls (fst (svrun fe sl)) /\
  s_pending (fst (vrun_ops fe l)) = ss_pending (fst (svrun fe sl)) /\
  forall p, attached (s_fib (fst (vrun_ops fe l))) p = ss_att (fst (svrun fe sl)) p.
Proof. exact (fun H => reads_as_out _ _ _ _ (vrun_refines fe l sl st0 sst0 reads_as_init H)). Qed.
Print Assumptions C04_v1_refines.

(* non-vacuity: a history on the v2 front-end with nested and sibling prefixes (/, /a, /a/b, /a/b/c, /e),
   a refused duplicate, a detach, Interests before and after; every hypothesis above is met by it *)
Definition ex_a : bytes := [8;1;97].
Definition ex_b : bytes := [8;1;98].
Definition ex_c : bytes := [8;1;99].
Definition ex_e : bytes := [8;1;101].
Definition ex_ops : list op :=
  [OAttach [ex_a] (Some 1) None (false, false); OAttach [ex_a; ex_b; ex_c] (Some 3) None (false, false);
   OAttach [ex_a; ex_b] (Some 2) None (false, false); OAttach [] (Some 9) None (false, false);
   OAttach [ex_e] (Some 5) None (false, false); OAttach [ex_a; ex_b] (Some 7) None (false, false);
   ORecv [ex_a; ex_b; ex_e] (Some 100) 1000; OSettle;
   ODetach [ex_a; ex_b]; ORecv [ex_a; ex_b; ex_e] None 1000; ORecv [ex_a; ex_b; ex_c; ex_e] (Some 0) 1000;
   ORecv [ex_c] None 1001; OSettle; OReply 0 1100 true; OReply 0 1101 true;
   (* the face goes down after the delivery: inside the lifetime reply raises, after it it returns False;
      once the face is up again the Data goes out *)
   OReply 1 1200 false; OReply 0 1200 false; OReply 1 1201 true].
Example C04_example :
  Forall wf_op ex_ops /\
  (exists sops, sops_of FE_V2 ex_ops = Some sops) /\
  map (fun c => (c_h c, c_deadline c)) (s_calls (exec FE_V2 st0 ex_ops)) = [(2, 1100); (1, 5000); (3, 1000); (9, 5001)] /\
  snd (run_ops FE_V2 ex_ops) =
    [ObOk; ObOk; ObOk; ObOk; ObOk; ObErr EValue;
     ObRecv (LHit [ex_a; ex_b] 2); ObCalls [mk_call 2 [ex_a; ex_b; ex_e] 1100];
     ObOk; ObRecv (LHit [ex_a] 1); ObRecv (LHit [ex_a; ex_b; ex_c] 3); ObRecv (LHit [] 9);
     ObCalls [mk_call 1 [ex_a; ex_b; ex_e] 5000; mk_call 3 [ex_a; ex_b; ex_c; ex_e] 1000; mk_call 9 [ex_c] 5001];
     ObReply true RTrue; ObReply false RFalse;
     ObErr E_NETWORK; ObReply false RFalse; ObReply true RTrue] /\
  map abs_obs (skipn 15 (snd (run_ops FE_V2 ex_ops))) =
    [Some (SoReply false false); Some (SoReply false false); Some (SoReply true true)] /\
  attached (s_fib (exec FE_V2 st0 ex_ops)) [ex_a; ex_b] = None /\
  attached (s_fib (exec FE_V2 st0 ex_ops)) [ex_a; ex_b; ex_c] = Some 3 /\
  Forall uri_comp [ex_a; ex_b].
Proof.
  split; [repeat (constructor; try exact I)|].
  split; [eexists; vm_compute; reflexivity|].
  split; [vm_compute; reflexivity|]. split; [vm_compute; reflexivity|]. split; [vm_compute; reflexivity|].
  split; [vm_compute; reflexivity|]. split; [vm_compute; reflexivity|].
  assert (U : forall x, x < 256 -> uri_comp [8; 1; x]).
  { intros x Hx. exists 8, [x]. split; [vm_compute; reflexivity|]. split; [split; lia|].
    split; [repeat constructor; exact Hx|vm_compute; reflexivity]. }
  repeat constructor; apply U; lia.
Qed.

(* non-vacuity of the registration statements: handler 1 at /a; /a/b announced to the forwarder without a
   handler -- /a/b/c still reaches 1 --; then registered with handler 2 (a second registration is refused);
   unregistered twice (never an error) -- /a/b/c reaches 1 again *)
Definition ex_v1 : list vop :=
  [VBase (OAttach [ex_a] (Some 1) None (false, false)); VRegister [ex_a; ex_b] None None (false, false);
   VBase (ORecv [ex_a; ex_b; ex_c] None 1000); VBase OSettle;
   VRegister [ex_a; ex_b] (Some 2) None (true, false); VRegister [ex_a; ex_b] (Some 3) None (false, false);
   VBase (ORecv [ex_a; ex_b; ex_c] None 1000); VBase OSettle;
   VUnregister [ex_a; ex_b]; VUnregister [ex_a; ex_b]; VBase (ORecv [ex_a; ex_b; ex_c] None 1000); VBase OSettle].
Example C04_v1_example :
  Forall wf_vop ex_v1 /\ (exists sl, svops_of FE_V1 ex_v1 = Some sl) /\
  snd (vrun_ops FE_V1 ex_v1) =
    [ObOk; ObOk; ObRecv (LHit [ex_a] 1); ObCalls [mk_call 1 [ex_a; ex_b; ex_c] 0];
     ObOk; ObErr EValue; ObRecv (LHit [ex_a; ex_b] 2); ObCalls [mk_call 2 [ex_a; ex_b; ex_c] 0];
     ObOk; ObOk; ObRecv (LHit [ex_a] 1); ObCalls [mk_call 1 [ex_a; ex_b; ex_c] 0]].
Proof.
  split; [repeat (constructor; try exact I)|]. split; [eexists; vm_compute; reflexivity|]. vm_compute. reflexivity.
Qed.
