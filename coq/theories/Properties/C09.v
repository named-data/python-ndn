(* C09 — Name representations (URI, component list, wire) are mutually consistent.
   Only statements, [exact]s and Print Assumptions live here. *)
From NDN Require Import Base.Prelude Model.TlvVar Model.Name Spec.NdnOrder.
From NDN Require Import Proofs.TlvVarProofs Proofs.TlvVarBridge Proofs.NameWire Proofs.NameOrder
  Proofs.NameUri Proofs.NameUriName Proofs.NameNormalize Proofs.ConstsNameAgree.
Local Open Scope N_scope.

(* wire: decode (encode n) = n, for any number of components, any types, any value lengths *)
Theorem C09_wire_roundtrip (n : name) (rest : bytes) :
  Forall wf_comp n -> N.of_nat (name_value_length n) < two64 ->
  name_decode (name_encode n ++ rest) = Ok (n, N.of_nat (length (name_encode n))).
Proof. exact (name_decode_encode n rest). Qed.
Print Assumptions C09_wire_roundtrip.

(* canonical URI of a component / of a name parses back to it *)
Theorem C09_canonical_uri_roundtrip_comp t v :
  valid_type t -> wf_bytes v -> N.of_nat (length v) < two64 ->
  (do u <- comp_to_canonical_uri (comp_enc t v) ;; comp_from_str u) = Ok (comp_enc t v).
Proof. exact (comp_canonical_uri_roundtrip t v). Qed.
Print Assumptions C09_canonical_uri_roundtrip_comp.

Theorem C09_canonical_uri_roundtrip n :
  Forall uri_comp n -> (do u <- name_to_canonical_uri n ;; name_from_str u) = Ok n.
Proof. exact (name_canonical_uri_roundtrip n). Qed.
Print Assumptions C09_canonical_uri_roundtrip.

(* URI with naming-convention shorthands.  [uri_comp_num]: a component of a naming-convention type whose value has
   1, 2, 4 or 8 octets (the only ones printed as a number, after fix 5dad9f3) is the shortest-width encoding of that
   number; every other component -- any type, any value bytes, any length -- is unrestricted *)
Theorem C09_uri_roundtrip n :
  Forall uri_comp_num n -> (do u <- name_to_str n ;; name_from_str u) = Ok n.
Proof. exact (name_uri_roundtrip n). Qed.
Print Assumptions C09_uri_roundtrip.

(* every accepted input form of the same name normalises to the same components *)
Theorem C09_normalize_agree n :
  Forall uri_comp n -> N.of_nat (name_value_length n) < two64 ->
  name_normalize (NSWire (name_encode n)) = Ok n /\
  name_normalize (NSList (map NCBytes n)) = Ok n /\
  (do u <- name_to_canonical_uri n ;; name_normalize (NSStr u)) = Ok n /\
  (do ss <- canon_strs n ;; name_normalize (NSList (map NCStr ss))) = Ok n.
Proof. exact (normalize_agree n). Qed.
Print Assumptions C09_normalize_agree.

(* prefix test = component-wise equality *)
Theorem C09_prefix (a b : name) : name_is_prefix a b = true <-> exists r, b = a ++ r.
Proof. exact (name_is_prefix_spec a b). Qed.
Print Assumptions C09_prefix.

(* byte-wise comparison of encoded components / names = NDN canonical order *)
Theorem C09_order_comp (c1 c2 : scomp) :
  wf_scomp c1 -> wf_scomp c2 -> bytes_cmp (enc_scomp c1) (enc_scomp c2) = canon_comp_cmp c1 c2.
Proof. exact (comp_cmp_canonical c1 c2). Qed.
Print Assumptions C09_order_comp.

Theorem C09_order (a b : list scomp) :
  Forall wf_scomp a -> Forall wf_scomp b ->
  name_cmp (map enc_scomp a) (map enc_scomp b) = canon_name_cmp a b.
Proof. exact (name_cmp_canonical a b). Qed.
Print Assumptions C09_order.

(* var-number kernel: round trip *)
Theorem C09_varnum_roundtrip v r : v < two64 -> tl_dec (tl_enc v ++ r) = Ok (v, tl_size v).
Proof. exact (tl_dec_enc v r). Qed.
Print Assumptions C09_varnum_roundtrip.

(* components BUILT from a value and a type number (from_bytes / from_hex; from_number through the shortest
   big-endian value): for every legal type 1..65535 and every value, the result is Type, Length, Value in shortest form
   and its type and value read back; every other type number is refused *)
Theorem C09_built_component t v :
  0 < t <= 65535 -> N.of_nat (length v) < two64 ->
  comp_from_bytes v (Z.of_N t) = Ok (comp_enc t v) /\
  comp_get_type (comp_enc t v) = Ok t /\ comp_get_value (comp_enc t v) = Ok v.
Proof. exact (built_component t v). Qed.
Print Assumptions C09_built_component.

Theorem C09_built_component_refused v (t : Z) : (t <= 0 \/ 65535 < t)%Z -> comp_from_bytes v t = Err EValue.
Proof. exact (built_component_refused v t). Qed.

Theorem C09_built_number (n t : N) :
  0 < t <= 65535 -> n < two64 ->
  exists b, nni_enc_r n = Ok b /\ comp_from_number (Z.of_N n) t = Ok (comp_enc t b) /\
            comp_get_type (comp_enc t b) = Ok t.
Proof. exact (built_number n t). Qed.
Print Assumptions C09_built_number.

(* T1/T2 ties re-established on this run *)
Theorem C09_tie_charset c : in_charset c = existsb (N.eqb c) Generated.ConstsName.charset_codes.
Proof. exact (charset_agree c). Qed.
Theorem C09_tie_varnum_size (v : N) : Generated.TlvVarGen.get_tl_num_size (Z.of_N v) = Ok (Z.of_nat (tl_size v)).
Proof. exact (gen_size_eq v). Qed.
Theorem C09_tie_varnum_parse buf (off : nat) :
  wf_bytes buf -> Generated.TlvVarGen.parse_tl_num buf (Z.of_nat off) = map_res zpair (tl_dec (skipn off buf)).
Proof. exact (gen_parse_eq buf off). Qed.

(* non-vacuity: a concrete 3-component name (generic "a", empty generic, segment 300) meets every hypothesis *)
Example C09_example :
  let n := [comp_enc 8 [97]; comp_enc 8 []; comp_enc 50 (nni_enc 300)] in
  name_decode (name_encode n) = Ok (n, 11) /\
  (do u <- name_to_str n ;; name_from_str u) = Ok n /\
  name_to_str n = Ok [47;97;47;47;115;101;103;61;51;48;48] /\
  name_is_prefix (firstn 2 n) n = true.
Proof. vm_compute. repeat split; reflexivity. Qed.
