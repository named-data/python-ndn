(* C07 — statements that are false on the faithful model, with witnesses (replayed on the implementation
   by harness/props/c07.py; recorded in known_findings.json as C07-overrun-...). *)
From NDN Require Import Base.Prelude Model.Packet.
Local Open Scope N_scope.

(* "accept only if every nested element lies entirely inside its parent": Content declares 10 bytes, 1 is there *)
Theorem C07_containment_refuted_data :
  exists w vs, dec_data w = Ok vs /\ strict_data w = Err EIndex.
Proof. exists [6; 5; 7; 0; 21; 10; 97]. eexists. vm_compute. split; reflexivity. Qed.

Theorem C07_containment_refuted_interest :
  exists w vs, dec_interest w = Ok vs /\ strict_interest w = Err EIndex.
Proof. exists [5; 5; 7; 0; 36; 10; 97]. eexists. vm_compute. split; reflexivity. Qed.

Theorem C07_containment_refuted_lp :
  exists w vs, dec_lp w = Ok vs /\ strict_lp w = Err EIndex.
Proof. exists [100; 3; 80; 10; 97]. eexists. vm_compute. split; reflexivity. Qed.
