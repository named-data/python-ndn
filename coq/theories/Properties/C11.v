(* C11 — A compiled trust schema matches exactly the names its source text describes.
   The statements and their Print Assumptions; the proofs are in Proofs/Lvs*.v. *)
From NDN Require Import Base.Prelude Model.LvsAst Model.LvsChecker Model.LvsCompiler Spec.LvsSem Spec.LvsTree.
From NDN Require Import Proofs.LvsMachine Proofs.LvsCheckerThms Proofs.LvsGenTree Proofs.LvsCompileTree Proofs.LvsCompileThms
  Proofs.LvsRepresents Proofs.LvsSimD Proofs.LvsEndToEnd Proofs.LvsExamples.
From NDN Require Import Spec.LvsChains.
Local Open Scope N_scope.

(* Checker.match on any model that passes the loader = "there is a root-to-node path whose edges are
   satisfied left to right" (Spec/LvsTree.v): the iterative machine with edge_indices / matches / context
   enumerates exactly the tree paths, with exactly the contexts *)
Theorem C11_match_tree ufn m (Hs : sane m) fuel name nm l :
  strip_digest name = Ok nm -> (match_cost m nm <= fuel)%nat -> lvs_match ufn m fuel name = Ok l ->
  forall rs cn, In (rs, cn) l <->
    exists n c, tree_match ufn m nm [] n c /\ node_rule_names m n = Ok rs /\ cn = context_to_name m c.
Proof. exact (lvs_match_spec ufn m Hs fuel name nm l). Qed.
Print Assumptions C11_match_tree.

Definition ufn_t := ident -> option (bytes -> list (option bytes) -> res bool).

(* ---- the full statement (DESIGN section 3, C11) -----------------------------------------------------------
   S is the parsed text of a schema.  [sem] (Spec/LvsSem.v) reads S directly: pick a definition of r, one of its
   alternative constraint sets, replace every rule reference by a chain of any definition of that rule, then match
   the name left to right.  No tree, no numbering, no merging.  The theorem covers parser AST -> rule sorting
   (Kahn) -> pattern numbering -> _replicate_rules with renaming of temporaries -> tree generation with edge merging
   -> preorder flattening -> signer resolution -> the iterative matching machine -> _context_to_name.
   Hypotheses: [static_ok S] (none of the documented static errors) and [schema_wf S] (what the lexer guarantees:
   no empty literal component, options well formed); r is a rule name, not the "#_<node>" the checker invents for
   an unnamed node. *)
Theorem C11_match_iff (ufn : ufn_t) (S : lvsfile) m : static_ok S = true -> schema_wf S = true -> compile S = Ok m ->
  forall fuel name nm l, strip_digest name = Ok nm -> (match_cost m nm <= fuel)%nat -> lvs_match ufn m fuel name = Ok l ->
  forall r env, not_pseudo r ->
    ((exists rs, In (rs, map (fun pv => (Some (fst pv), snd pv)) env) l /\ In r rs) <-> sem ufn S r name env).
Proof.
  exact (fun _ H2 H3 fuel name nm l Hs Hf Hl r env Hnp => match_iff ufn S m H2 H3 fuel name nm l r env Hs Hf Hl Hnp).
Qed.
Print Assumptions C11_match_iff.

(* the hypotheses hold for a schema with a rule reference, a constrained temporary, a constraint between named patterns
   and a signer; on /a/d/b the compiled model reports #pkt with x=d, y=b, hence (by the theorem) so does the text *)
Example C11_match_iff_example :
  static_ok ex_schema = true /\ schema_wf ex_schema = true /\ compile ex_schema = Ok ex_model /\ not_pseudo i_pkt /\
  sem no_ufn ex_schema i_pkt ex_pkt [(p_x, gc 100); (p_y, gc 98)].
Proof.
  exact (conj ex_static (conj ex_wf (conj ex_compile (conj ex_not_pseudo
    (match ex_match with ex_intro _ l (conj Hl (conj Hf (conj Hs Hin))) =>
       proj1 (match_iff no_ufn ex_schema ex_model ex_wf ex_compile 1000 ex_pkt ex_pkt l i_pkt [(p_x, gc 100); (p_y, gc 98)] Hs Hf Hl ex_not_pseudo) Hin end))))).
Qed.

(* the model produced from a schema's numbered chains passes the loader *)
Theorem C11_compiled_sane (ufn : ufn_t) S chains st m :
  chains_of S = Ok (chains, st) -> compile S = Ok m -> chains_ok (N.of_nat (length (ns_named st))) chains -> sane m.
Proof. exact (compile_sane S chains st m). Qed.
Print Assumptions C11_compiled_sane.

(* ---- the two halves of the proof, usable on their own ---------------------------------------------------------- *)
(* (1) from the numbered, replicated rule chains ([chains_of S]) to the answers of Checker.match on the compiled model.
   [chain_sem] reads ONE chain on its own: literals equal; a named pattern is constrained at its first occurrence
   and must equal its binding afterwards; a temporary pattern is constrained at every occurrence and binds nothing. *)
Theorem C11_match_chains (ufn : ufn_t) S chains st m :
  chains_of S = Ok (chains, st) -> compile S = Ok m -> chains_ok (N.of_nat (length (ns_named st))) chains ->
  forall fuel name nm l r,
    strip_digest name = Ok nm -> (match_cost m nm <= fuel)%nat -> lvs_match ufn m fuel name = Ok l -> not_pseudo r ->
    forall c', (exists rs, In (rs, context_to_name m c') l /\ In r rs /\
                           exists n, tree_match ufn m nm [] n c' /\ node_rule_names m n = Ok rs) <->
               (exists rc, In rc chains /\ ch_id rc = r /\ chain_sem_from ufn 0 rc nm [] c').
Proof. exact (match_chains ufn S chains st m). Qed.
Print Assumptions C11_match_chains.

(* (2) [chains_of S] holds, for every definition of S (temporary rules labelled "#_x#k" in source order), exactly the
   chains the text gives it ([expand]), each represented with numbered patterns: same literals, named patterns numbered
   by the symbol table, every temporary occurrence carrying the constraints written for it. *)
Theorem C11_chains_of_expand S chains st : chains_of S = Ok (chains, st) ->
  (forall rc, In rc chains -> exists lbl d f, In (lbl, d) (labelled 1 S) /\ In f (expand (ref_fuel S) S d) /\ ch_id rc = lbl /\
        represents (ns_named st) rc f /\ ch_sign rc = isort str_leb (r_sign d)) /\
  (forall lbl d f, In (lbl, d) (labelled 1 S) -> In f (expand (ref_fuel S) S d) ->
        exists rc, In rc chains /\ ch_id rc = lbl /\ represents (ns_named st) rc f /\ ch_sign rc = isort str_leb (r_sign d)).
Proof. exact (chains_of_expand S chains st). Qed.
Print Assumptions C11_chains_of_expand.
