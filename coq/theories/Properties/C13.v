(* C13 — Ill-formed schemas and models are rejected; accepted models always terminate.
   The statements and their Print Assumptions; the proofs are in Proofs/Lvs*.v. *)
From NDN Require Import Proofs.LvsExamples.
From NDN Require Import Base.Prelude Model.LvsAst Model.LvsChecker Model.LvsCompiler Spec.LvsSem.
From NDN Require Import Proofs.LvsMachine Proofs.LvsCheckerThms Proofs.LvsSanity Proofs.LvsConstsAgree Proofs.LvsCompileThms
  Proofs.LvsCompileStatic Proofs.LvsCompileAccepts Proofs.LvsCompileIff Proofs.LvsSignGraph Proofs.LvsSignCycle.
From NDN Require Import Spec.LvsChains.
Local Open Scope N_scope.

(* ---- the loader (Checker._sanity_check, with the recursion budget [sanity_fuel m] = #nodes + 1) ---- *)

(* whatever the loader accepts satisfies every documented sanity rule *)
Theorem C13_loader_sound m r : sanity_check (sanity_fuel m) m = Ok r -> sane m.
Proof. exact (sanity_check_sound m r). Qed.
Print Assumptions C13_loader_sound.
Example C13_loader_sound_example : exists r, sanity_check (sanity_fuel ex_model) ex_model = Ok r.
Proof. exact ex_loader_accepts. Qed.

(* a model that breaks a rule is rejected with LvsModelError (never RecursionError / TypeError: the
   recursion depth is bounded by the number of nodes) *)
Theorem C13_loader_rejects m : ~ sane m -> sanity_check (sanity_fuel m) m = Err ELvsModel.
Proof. exact (sanity_check_rejects m). Qed.
Print Assumptions C13_loader_rejects.
Example C13_loader_rejects_example : ~ sane ex_nostart /\ sanity_check (sanity_fuel ex_nostart) ex_nostart = Err ELvsModel.
Proof. exact (conj ex_nostart_not_sane ex_nostart_rejected). Qed.

(* a model that satisfies the rules passes the tree part; it is accepted iff compiler.top_order accepts its
   signing graph ("no cyclic signing"), whose failure is the schema error, not the model error *)
Theorem C13_loader_iff m : sane m ->
  exists s a, m_start m = Some s /\
    dfs (sanity_fuel m) m s None {| sa_fns := []; sa_indeg := [];
                                    sa_adj := map (fun i => (i, [])) (dedup optN_eqb (map n_id (m_nodes m))) |} = Ok a /\
    (sign_graph_passes m a -> exists r, sanity_check (sanity_fuel m) m = Ok r) /\
    (forall e, sanity_check (sanity_fuel m) m = Err e -> ~ sign_graph_passes m a).
Proof. exact (sanity_check_sane m). Qed.
Print Assumptions C13_loader_iff.

(* the verdict in full, for models whose node ids are their indices (every model compile produces; a corrupted model may carry
   broken ids on nodes the loader never visits): accepted iff the signing relation between reachable nodes has no cycle
   ([sign_acyclic]: there is a ranking), and the only other outcome is the schema error raised by compiler.top_order *)
Theorem C13_loader_verdict m : sane m -> ids_ok m ->
  ((exists r, sanity_check (sanity_fuel m) m = Ok r) <-> sign_acyclic m) /\
  (forall e, sanity_check (sanity_fuel m) m = Err e -> e = ESemantic).
Proof. exact (loader_verdict m). Qed.
Print Assumptions C13_loader_verdict.

(* the executable rule set used by the harness oracle implies the declarative one *)
Theorem C13_saneb_sound m : saneb m = true -> sane m.
Proof. exact (saneb_sane m). Qed.

(* ---- every query on an accepted model terminates: beyond [match_cost] loop iterations more fuel changes
   nothing (in particular the answer is never "out of fuel" unless a user function says so) ---- *)
Theorem C13_terminates_match ufn m (Hs : sane m) fuel name nm :
  strip_digest name = Ok nm -> (match_cost m nm <= fuel)%nat ->
  lvs_match ufn m fuel name = lvs_match ufn m (match_cost m nm) name.
Proof. exact (lvs_match_halts ufn m Hs fuel name nm). Qed.
Print Assumptions C13_terminates_match.

Theorem C13_terminates_check ufn m (Hs : sane m) fuel pkt key p k :
  strip_digest pkt = Ok p -> strip_digest key = Ok k ->
  (Nat.max (match_cost m p) (match_cost m k) <= fuel)%nat ->
  lvs_check ufn m fuel pkt key = lvs_check ufn m (Nat.max (match_cost m p) (match_cost m k)) pkt key.
Proof. exact (lvs_check_halts ufn m Hs fuel pkt key p k). Qed.
Print Assumptions C13_terminates_check.
Example C13_terminates_example : exists l, lvs_match no_ufn ex_model 1000 ex_pkt = Ok l /\ (match_cost ex_model ex_pkt <= 1000)%nat /\
  strip_digest ex_pkt = Ok ex_pkt /\ exists rs, In (rs, [(Some p_x, gc 100); (Some p_y, gc 98)]) l /\ In i_pkt rs.
Proof. exact ex_match. Qed.

(* ---- the compiler (compile = sort references, number patterns, replicate, build tree, resolve signers) ---- *)

(* whatever the input, the only exception compile raises is SemanticError *)
Theorem C13_compile_error_class S e : compile S = Err e -> e = ESemantic.
Proof. exact (compile_err S e). Qed.
Print Assumptions C13_compile_error_class.

(* one lemma per error kind, stated on the source text *)
Theorem C13_compile_rejects_undefined_or_temporary_rule S d c :
  In d S -> In c (rule_refs d) -> defined S c = false -> compile S = Err ESemantic.
Proof. exact (compile_rejects_bad_reference S d c). Qed.
Print Assumptions C13_compile_rejects_undefined_or_temporary_rule.
Example C13_compile_rejects_undefined_example :
  In (rule_ref i_a i_b) ex_undefined /\ In i_b (rule_refs (rule_ref i_a i_b)) /\ defined ex_undefined i_b = false.
Proof. exact ex_undefined_hyp. Qed.

(* a -> c1 -> ... -> cn -> a along rule references *)
Theorem C13_compile_rejects_cyclic_references S a cyc : src_walk S a a cyc -> compile S = Err ESemantic.
Proof. exact (compile_rejects_cyclic_references S a cyc). Qed.
Print Assumptions C13_compile_rejects_cyclic_references.
Example C13_compile_rejects_cyclic_example : src_walk ex_cyclic i_a i_a [i_b].
Proof. exact ex_cyclic_hyp. Qed.

(* [LvsSem.cons_ok S d tc = false]: tc constrains a temporary pattern that is not in d's own name, or a named pattern
   that occurs in no rule name, or one of its options / function arguments is a temporary pattern or a named pattern that
   occurs in no rule name *)
Theorem C13_compile_rejects_bad_constraint S d cs tc :
  In d S -> In cs (r_cons d) -> In tc cs -> LvsSem.cons_ok S d tc = false -> compile S = Err ESemantic.
Proof. exact (compile_rejects_bad_constraint S d cs tc). Qed.
Print Assumptions C13_compile_rejects_bad_constraint.
Example C13_compile_rejects_bad_constraint_example :
  In ex_badcons_rule ex_badcons /\ In [ex_badcons_tc] (r_cons ex_badcons_rule) /\ In ex_badcons_tc [ex_badcons_tc] /\
  LvsSem.cons_ok ex_badcons ex_badcons_rule ex_badcons_tc = false.
Proof. exact ex_badcons_hyp. Qed.

(* a signer that is not an ordinary rule of the schema (k as the lexer produces it: no '#' after the first character) *)
Theorem C13_compile_rejects_unknown_signer S d k :
  In d S -> In k (r_sign d) -> defined S k = false -> ident_plain k -> compile S = Err ESemantic.
Proof. exact (compile_rejects_unknown_signer S d k). Qed.
Print Assumptions C13_compile_rejects_unknown_signer.
Example C13_compile_rejects_unknown_signer_example :
  In ex_badsigner_rule ex_badsigner /\ In i_b (r_sign ex_badsigner_rule) /\ defined ex_badsigner i_b = false /\ ident_plain i_b.
Proof. exact ex_badsigner_hyp. Qed.

(* a schema free of static errors compiles -- [static_ok] only looks at the reference structure, never at the spelling or
   the order of rule names -- and the result satisfies every sanity rule of the loader.  [schema_wf]: literal components are
   non-empty byte strings and function identifiers look like "$name" (what the lexer produces) *)
Theorem C13_compile_accepts S : static_ok S = true -> schema_wf S = true -> exists m, compile S = Ok m /\ sane m.
Proof.
  intros H1 H2. destruct (compile_accepts S H1 H2) as (chains & st & m & Hc & Hm & Hok).
  exists m. split; [exact Hm|]. exact (compile_sane S chains st m Hc Hm Hok).
Qed.
Print Assumptions C13_compile_accepts.
Example C13_compile_accepts_example : static_ok ex_schema = true /\ schema_wf ex_schema = true /\ compile ex_schema = Ok ex_model.
Proof. exact (conj ex_static (conj ex_wf ex_compile)). Qed.

(* ... and only then: compile accepts a schema exactly when it has none of the documented static errors
   ([sign_plain]: signer names as the lexer produces them, no '#' after the first character) *)
Theorem C13_compile_iff S : schema_wf S = true -> sign_plain S -> ((exists m, compile S = Ok m) <-> static_ok S = true).
Proof. exact (compile_iff S). Qed.
Print Assumptions C13_compile_iff.
Example C13_compile_iff_example : schema_wf ex_schema = true /\ sign_plain ex_schema /\ static_ok ex_schema = true /\ static_ok ex_undefined = false.
Proof. exact (conj ex_wf (conj ex_sign_plain (conj ex_static eq_refl))). Qed.

(* building a Checker from the compiled schema: accepted iff no name pattern (tree node) is, directly or transitively, its own
   signer; otherwise SemanticError -- never the model error, never a crash *)
Theorem C13_checker_verdict S m : static_ok S = true -> schema_wf S = true -> compile S = Ok m ->
  ((exists r, sanity_check (sanity_fuel m) m = Ok r) <-> sign_acyclic m) /\
  (forall e, sanity_check (sanity_fuel m) m = Err e -> e = ESemantic).
Proof. exact (fun _ => checker_verdict S m). Qed.
Print Assumptions C13_checker_verdict.
(* both outcomes occur: the example schema is accepted (hence acyclic), "#a: /a <= #b, #b: /b <= #a" compiles and is refused *)
Example C13_checker_verdict_example :
  sign_acyclic ex_model /\ ~ sign_acyclic ex_signcycle_model /\
  sanity_check (sanity_fuel ex_signcycle_model) ex_signcycle_model = Err ESemantic.
Proof.
  exact (conj (proj1 (proj1 (checker_verdict ex_schema ex_model ex_wf ex_compile)) ex_loader_accepts)
        (match ex_signcycle_facts with conj Hs (conj Hw (conj Hc He)) =>
           conj (fun Hac => match proj2 (proj1 (checker_verdict ex_signcycle ex_signcycle_model Hw Hc)) Hac with
                            | ex_intro _ r Hr => Bool.diff_false_true (f_equal (fun x => match x with Ok _ => false | Err _ => true end) (eq_trans (eq_sym Hr) He)) end)
                He end)).
Qed.

(* in particular rules that sign one another in a circle (a <= ... <= a, [sign_walk] on the text) are refused *)
Theorem C13_checker_rejects_cyclic_signing S m a cyc : static_ok S = true -> schema_wf S = true -> compile S = Ok m ->
  sign_walk S a a cyc -> sanity_check (sanity_fuel m) m = Err ESemantic.
Proof. exact (fun H1 H2 H3 => checker_rejects_cyclic_signing S m H1 H2 H3 a cyc). Qed.
Print Assumptions C13_checker_rejects_cyclic_signing.
Example C13_checker_rejects_cyclic_signing_example :
  static_ok ex_signcycle = true /\ schema_wf ex_signcycle = true /\ compile ex_signcycle = Ok ex_signcycle_model /\ sign_walk ex_signcycle i_a i_a [i_b].
Proof. exact (match ex_signcycle_facts with conj Hs (conj Hw (conj Hc _)) => conj Hs (conj Hw (conj Hc ex_signcycle_walk)) end). Qed.

(* T1: the version bounds and the record layouts reflected from binary.py are those of the models *)
Theorem C13_tie_version :
  Generated.ConstsLvs.VERSION = LVS_VERSION /\ Generated.ConstsLvs.MIN_SUPPORTED_VERSION = LVS_MIN_VERSION /\
  Generated.ConstsLvs.VERSION = SUPPORTED_VERSION /\ Generated.ConstsLvs.MIN_SUPPORTED_VERSION = MIN_SUPPORTED_VERSION /\
  Generated.ConstsLvs.TYPE_IMPLICIT_SHA256 = Model.Name.TYPE_IMPLICIT_SHA256.
Proof. exact lvs_version_agree. Qed.
Theorem C13_tie_layout : Generated.ConstsLvs.layout = expected_layout.
Proof. exact lvs_layout_agree. Qed.
