(* C20 — Client configuration resolves with environment over file over platform default.
   Only statements, [exact]s and Print Assumptions live here.

   Reading guide.  [w : world] is the outside world (os.environ, os.path.exists, file contents).
   [get_path w] is the configuration file in use ("" when none).  [lines] is a client.conf as its author
   writes it (Spec: entries / comments / blank lines, arbitrary values), [render lines] its text.
   [setting_ok w it raw out]  :=  out = scheme(raw) ++ ":" ++ o  for an  o  with
   [location_ok exists cfg defaults location(raw) o] — the location rule of the specification. *)
From NDN Require Import Base.Prelude Base.Text Model.ConfBase Model.ClientConf Spec.ClientConfSpec.
From NDN Require Import Proofs.ClientConfProofs Proofs.ConfIni Proofs.ConfFace
  Proofs.ClientConfMain Proofs.ConstsConfAgree.
From Coq Require Strings.String Strings.Ascii.
Import Coq.Strings.String.StringSyntax Coq.Strings.Ascii.AsciiSyntax.
Local Open Scope N_scope.

(* ---- which file ---------------------------------------------------------------------------------- *)
(* the configuration file in use is the first existing candidate path (after $VAR expansion) *)
Theorem C20_first_existing_file w :
  get_path w = match find (w_exists w) (expanded_candidates w) with Some p => p | None => [] end.
Proof. exact (get_path_first_existing w). Qed.
Print Assumptions C20_first_existing_file.

(* with no '$' in the home directory the candidates / default locations are the platform's, verbatim *)
Theorem C20_candidates_plain w :
  contains ch_dollar (user_home w) = false ->
  expanded_candidates w = client_conf_paths (the_platform w) /\
  expanded_defaults w Pib = default_pib_paths (the_platform w) /\
  expanded_defaults w Tpm = default_tpm_paths (the_platform w).
Proof. exact (candidates_plain w). Qed.
Print Assumptions C20_candidates_plain.

(* ---- precedence: environment > first existing file > platform default ------------------------------ *)
Theorem C20_precedence w lines :
  wf_conf lines = true -> nonempty (get_path w) = true -> read_file w (get_path w) = Ok (render lines) ->
  exists c, read_client_conf w = Ok c /\
    c_transport c = spec_value (env_of w (slit "NDN_CLIENT_TRANSPORT")) (file_lookup key_transport lines)
                               (default_transport (the_platform w)) /\
    setting_ok w Pib (spec_value (env_of w (slit "NDN_CLIENT_PIB")) (file_lookup key_pib lines)
                                 (default_pib_scheme (the_platform w))) (c_pib c) /\
    setting_ok w Tpm (spec_value (env_of w (slit "NDN_CLIENT_TPM")) (file_lookup key_tpm lines)
                                 (default_tpm_scheme (the_platform w))) (c_tpm c).
Proof. exact (precedence_file w lines). Qed.
Print Assumptions C20_precedence.

Theorem C20_precedence_no_file w :
  get_path w = [] ->
  exists c, read_client_conf w = Ok c /\
    c_transport c = spec_value (env_of w (slit "NDN_CLIENT_TRANSPORT")) None (default_transport (the_platform w)) /\
    setting_ok w Pib (spec_value (env_of w (slit "NDN_CLIENT_PIB")) None (default_pib_scheme (the_platform w))) (c_pib c) /\
    setting_ok w Tpm (spec_value (env_of w (slit "NDN_CLIENT_TPM")) None (default_tpm_scheme (the_platform w))) (c_tpm c).
Proof. exact (fun Hp => read_client_conf_sources w [] (file_of_nofile w Hp)). Qed.
Print Assumptions C20_precedence_no_file.

(* an environment override wins over ANY file content, as long as reading succeeds at all *)
Theorem C20_env_wins_transport w c v :
  read_client_conf w = Ok c -> env_get (w_env w) (env_name key_transport) = Some v -> c_transport c = v.
Proof. exact (env_wins_transport w c v). Qed.
Print Assumptions C20_env_wins_transport.

Theorem C20_env_wins_store w c it v :
  read_client_conf w = Ok c ->
  env_get (w_env w) (env_name (match it with Pib => key_pib | Tpm => key_tpm end)) = Some v ->
  setting_ok w it v (match it with Pib => c_pib c | Tpm => c_tpm c end).
Proof. exact (env_wins_store w c it v). Qed.
Print Assumptions C20_env_wins_store.

(* the only way read_client_conf fails: the file in use cannot be read or is not an INI file *)
Theorem C20_failure_is_file_failure w e : read_client_conf w = Err e <-> file_of w = Err e.
Proof. exact (read_client_conf_error_iff w e). Qed.
Print Assumptions C20_failure_is_file_failure.

(* the INI reader returns exactly the entries of a well-formed client.conf, in order *)
Theorem C20_file_values lines :
  wf_conf lines = true -> ini_read (slit "[DEFAULT]" ++ ch_nl :: render lines) = Ok (entries_of lines).
Proof. exact (ini_read_render lines). Qed.
Print Assumptions C20_file_values.

(* ---- store locations ------------------------------------------------------------------------------------ *)
(* for EVERY setting string (any number of colons, empty parts): scheme kept, location by the rule *)
Theorem C20_location w path it value :
  exists out,
    resolve_location w path it value = Ok (fst (split_setting value) ++ ch_colon :: out) /\
    location_ok (w_exists w) (cfg_of path) (expanded_defaults w it) (snd (split_setting value)) out = true.
Proof. exact (resolve_location_spec w path it value). Qed.
Print Assumptions C20_location.

(* the rule, clause by clause *)
Theorem C20_location_as_given ex cfg dflts loc out :
  location_ok ex cfg dflts loc out = true -> nonempty loc = true -> ex loc = true -> out = loc.
Proof. exact (location_as_given ex cfg dflts loc out). Qed.
Theorem C20_location_relative ex c dflts loc out :
  location_ok ex (Some c) dflts loc out = true -> nonempty loc = true -> ex loc = false ->
  ex (path_join (path_dirname c) loc) = true -> out = path_join (path_dirname c) loc.
Proof. exact (location_relative ex c dflts loc out). Qed.
Theorem C20_location_default ex cfg dflts loc out p :
  location_ok ex cfg dflts loc out = true ->
  (nonempty loc = false \/
   (ex loc = false /\ match cfg with Some c => ex (path_join (path_dirname c) loc) = false | None => True end)) ->
  find ex dflts = Some p -> out = p.
Proof. exact (location_default ex cfg dflts loc out p). Qed.
Print Assumptions C20_location_default.

(* ---- transport URIs ------------------------------------------------------------------------------------------ *)
(* scheme://host[:port][tail], tcp*/udp* scheme in any letter case, port 1..65535 or absent (6363) *)
Theorem C20_face nf scheme k h port tail :
  scheme_kind (lower scheme) = Some k -> k <> KUnix ->
  host_ok h = true -> port_ok port = true -> tail_ok tail = true ->
  default_face nf (uri_text scheme h port tail) = Ok (denoted_face k h port tail).
Proof. exact (default_face_denoted nf scheme k h port tail). Qed.
Print Assumptions C20_face.

Theorem C20_face_unix nf scheme path :
  scheme_kind (lower scheme) = Some KUnix -> unix_path_ok path = true ->
  default_face nf (scheme ++ slit "://" ++ path) = Ok (FUnix path).
Proof. exact (default_face_unix nf scheme path). Qed.
Print Assumptions C20_face_unix.

(* for ANY string: a face is produced only for a scheme of the table, and it is of that scheme's kind *)
Theorem C20_face_known_only nf uri f :
  default_face nf uri = Ok f ->
  exists u, urlsplit nf uri = Ok u /\ scheme_kind (u_scheme u) = Some (face_kind_of f).
Proof. exact (default_face_known_only nf uri f). Qed.
Print Assumptions C20_face_known_only.

(* an unknown scheme is an error, whatever follows the colon *)
Theorem C20_unknown_scheme_error nf scheme rest :
  scheme_ok scheme = true -> scheme_kind (lower scheme) = None ->
  exists e, default_face nf (scheme ++ ch_colon :: rest) = Err e.
Proof. exact (default_face_unknown_scheme nf scheme rest). Qed.
Print Assumptions C20_unknown_scheme_error.

(* the platform default transport is itself a URI that default_face accepts *)
Theorem C20_platform_transport_face nf w :
  default_face nf (default_transport (the_platform w)) = Ok (FUnix (slit "/run/nfd/nfd.sock")) \/
  default_face nf (default_transport (the_platform w)) = Ok (FUnix (slit "/run/nfd.sock")).
Proof. exact (platform_transport_face nf w). Qed.
Print Assumptions C20_platform_transport_face.

(* ---- keychain dispatch ------------------------------------------------------------------------------------------ *)
Theorem C20_keychain_known pib_loc tpm_loc :
  default_keychain (slit "pib-sqlite3" ++ ch_colon :: pib_loc) (slit "tpm-file" ++ ch_colon :: tpm_loc)
  = Ok (path_join pib_loc (slit "pib.db"), tpm_loc).
Proof. exact (default_keychain_known pib_loc tpm_loc). Qed.
Theorem C20_keychain_known_only pib tpm r :
  default_keychain pib tpm = Ok r ->
  fst (split_setting pib) = slit "pib-sqlite3" /\ fst (split_setting tpm) = slit "tpm-file" /\
  r = (path_join (snd (split_setting pib)) (slit "pib.db"), snd (split_setting tpm)).
Proof. exact (default_keychain_ok_inv pib tpm r). Qed.
Print Assumptions C20_keychain_known_only.

(* ---- T1 ties re-established on this run --------------------------------------------------------------------------- *)
Theorem C20_tie_platform (ex : str -> bool) :
  let P := linux_platform Generated.ConstsConf.home ex in
  client_conf_paths P = Generated.ConstsConf.client_conf_paths /\
  default_pib_scheme P = Generated.ConstsConf.default_pib_scheme /\
  default_pib_paths P = Generated.ConstsConf.default_pib_paths /\
  default_tpm_scheme P = Generated.ConstsConf.default_tpm_scheme /\
  default_tpm_paths P = Generated.ConstsConf.default_tpm_paths.
Proof. exact (platform_agree ex). Qed.
Theorem C20_tie_transport :
  map (fun ab => (ab, linux_default_transport (sock_fs (fst ab) (snd ab))))
      [(false, false); (false, true); (true, false); (true, true)] = Generated.ConstsConf.default_transport_table.
Proof. exact transport_agree. Qed.
Theorem C20_tie_keys :
  Generated.ConstsConf.conf_keys = [key_transport; key_pib; key_tpm] /\
  map env_name Generated.ConstsConf.conf_keys =
    map (fun k => Generated.ConstsConf.env_prefix ++ upper k) Generated.ConstsConf.conf_keys /\
  map env_name Generated.ConstsConf.conf_keys = [slit "NDN_CLIENT_TRANSPORT"; slit "NDN_CLIENT_PIB"; slit "NDN_CLIENT_TPM"].
Proof. exact keys_agree. Qed.
Theorem C20_tie_faces :
  Generated.ConstsConf.unix_face_default_path = unix_default_path /\
  Generated.ConstsConf.tcp_face_default_host = tcp_default_host /\
  Generated.ConstsConf.default_face_port = default_port /\
  Generated.ConstsConf.default_face_port = spec_default_port /\
  Generated.ConstsConf.udp_face_default_port = default_port /\
  Generated.ConstsConf.tcp_face_default_port = default_port.
Proof. exact face_consts_agree. Qed.
Theorem C20_tie_schemes :
  Generated.ConstsConf.default_face_schemes =
    [slit "tcp"; slit "tcp4"; slit "tcp6"; slit "udp"; slit "udp4"; slit "udp6"; slit "unix"] /\
  forallb (fun s => existsb (str_eqb s) Generated.ConstsConf.default_face_schemes) (map fst scheme_table) = true /\
  forallb (fun s => match scheme_kind s with Some _ => true | None => false end)
          Generated.ConstsConf.default_face_schemes = true.
Proof. exact schemes_agree. Qed.
Print Assumptions C20_tie_schemes.

(* ---- non-vacuity ---------------------------------------------------------------------------------------------------- *)
(* HOME=/home/u, NDN_CLIENT_TRANSPORT set; ~/.ndn/client.conf with a comment, a padded pib entry whose location
   is relative to the file, a blank line and a (losing) Transport entry; the default key directory exists *)
Example C20_example :
  let lines := [Comment [] ch_semi (slit " client configuration");
                Entry (slit "pib") (slit " ") ch_eq (slit " ") (slit "pib-sqlite3:stores/pib") [];
                Blank [];
                Entry (slit "Transport") [] ch_eq [] (slit "udp://file-host:2") []] in
  let fs := [slit "/home/u/.ndn/client.conf"; slit "/home/u/.ndn/stores/pib"; slit "/home/u/.ndn/ndnsec-key-file"] in
  let w := mk_world [(slit "HOME", slit "/home/u"); (slit "NDN_CLIENT_TRANSPORT", slit "tcp://[::1]:7")]
                    (fun p => existsb (str_eqb p) fs)
                    [(slit "/home/u/.ndn/client.conf", Ok (render lines))] (slit "/root") in
  wf_conf lines = true /\ get_path w = slit "/home/u/.ndn/client.conf" /\
  read_client_conf w = Ok (mk_conf (slit "tcp://[::1]:7") (slit "pib-sqlite3:/home/u/.ndn/stores/pib")
                                   (slit "tpm-file:/home/u/.ndn/ndnsec-key-file")) /\
  default_face (fun _ => false) (slit "tcp://[::1]:7") = Ok (FTcp (slit "::1") 7) /\
  default_face (fun _ => false) (slit "tcp://[::1]:7") =
    Ok (denoted_face KTcp (HV6 (slit "::1")) (Some (slit "7")) []) /\
  host_ok (HV6 (slit "::1")) = true /\ port_ok (Some (slit "7")) = true /\
  default_face (fun _ => false) (default_transport (the_platform w)) = Ok (FUnix (slit "/run/nfd/nfd.sock")).
Proof. vm_compute. repeat split; reflexivity. Qed.
