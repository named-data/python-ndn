(* C06 — Receive path: exact stream framing, and no failure on any delivered bytes.
   Only statements, [exact]s, Print Assumptions and non-vacuity Examples live here.  The statements hold for the
   library as of the fix commits a856556, b3c0fb8, 5f0a2b3 (recorded in known_findings.d/C06.json); the same
   statements for the code before them are refuted in Properties/C06Findings.v. *)
From NDN Require Import Base.Prelude Model.TlvVar Model.Name Model.Tlv Model.Packet Model.Stream Model.Receive
  Spec.Framing.
From NDN Require Import Proofs.StreamRun Proofs.StreamPump Proofs.StreamSplit Proofs.ReceiveTotal
  Proofs.ReceiveBridge.
Local Open Scope N_scope.

(* ---- (A) stream framing ---------------------------------------------------------------------------------- *)
(* For ALL packet lists and ALL ways of cutting the concatenation of their wires into chunks (every cut
   position, also inside a 3/5/9-byte Type or Length number, empty chunks included): what StreamFace.run
   hands to its callback, in order, is exactly the packets, each once; afterwards the face is as freshly opened
   (running, reader buffer empty, waiting for the next Type number). *)
Theorem C06_framing pkts chunks f' outs :
  Forall framed pkts -> concat chunks = stream_of pkts ->
  run_events run_cfg_gen face_init (map Feed chunks) = (f', outs) ->
  concat outs = pkts /\ f' = face_init.
Proof. exact (framing run_cfg_gen pkts chunks f' outs). Qed.
Print Assumptions C06_framing.

(* A stream that ends inside a packet (or cleanly between two): the complete packets before the end are
   handed over, nothing of the partial packet is, and the face shuts down (running = False, run() returned,
   writer closed, reader buffer discarded). *)
Theorem C06_truncated pkts pre chunks f' outs :
  Forall framed pkts -> partial_packet pre -> concat chunks = stream_of pkts ++ pre ->
  run_events run_cfg_gen face_init (map Feed chunks ++ [Eof]) = (f', outs) ->
  concat outs = pkts /\ f' = Face false CFinished [] true true.
Proof. exact (truncated run_cfg_gen pkts pre chunks f' outs eq_refl). Qed.
Print Assumptions C06_truncated.

(* The same for ANY byte string, well formed or not: every chunking hands over exactly the complete
   packets at the front of the concatenation (Spec/Framing.v packets_of) ... *)
Theorem C06_framing_any_stream chunks f' outs :
  run_events run_cfg_gen face_init (map Feed chunks) = (f', outs) ->
  concat outs = fst (packets_of (concat chunks)) /\ f_running f' = true /\ exists m, f_co f' = CBlocked m.
Proof. exact (framing_any_stream run_cfg_gen chunks f' outs). Qed.
(* ... and end of stream shuts the face down without handing over the remainder *)
Theorem C06_eof_any_stream chunks f' outs :
  run_events run_cfg_gen face_init (map Feed chunks ++ [Eof]) = (f', outs) ->
  concat outs = fst (packets_of (concat chunks)) /\ f' = Face false CFinished [] true true.
Proof. exact (eof_any_stream run_cfg_gen chunks f' outs eq_refl). Qed.
(* ... as does a connection reset while the reader waits *)
Theorem C06_reset_any_stream chunks f' outs :
  run_events run_cfg_gen face_init (map Feed chunks ++ [Reset]) = (f', outs) ->
  concat outs = fst (packets_of (concat chunks)) /\ f_running f' = false /\ f_co f' = CFinished /\ f_closed f' = true.
Proof. exact (reset_any_stream run_cfg_gen chunks f' outs eq_refl). Qed.
Print Assumptions C06_eof_any_stream.

(* whatever the byte stream and its chunking, every (typ, buf) handed to the callback is exactly one TLV element
   of Type typ: the outer Type/Length check of the decoders (parse_and_check_tl) passes on it *)
Theorem C06_delivered_consistent chunks f' outs :
  run_events run_cfg_gen face_init (map Feed chunks) = (f', outs) ->
  Forall (fun p => exists body, parse_and_check_tl (snd p) (fst p) = Ok body) (concat outs).
Proof. exact (delivered_consistent run_cfg_gen chunks f' outs). Qed.

(* the chunk lemma itself: two reads = one read of the concatenation (state and deliveries) *)
Theorem C06_chunks_compose cfg f c1 c2 f1 o1 f2 o2 :
  face_inv f -> step cfg f (Feed c1) = (f1, o1) -> step cfg f1 (Feed c2) = (f2, o2) ->
  step cfg f (Feed (c1 ++ c2)) = (f2, o1 ++ o2).
Proof. exact (step_feed_feed cfg f c1 c2 f1 o1 f2 o2). Qed.

(* the stream reader reads a Type/Length number exactly as parse_tl_num parses it from a buffer *)
Theorem C06_stream_number_is_buffer_number w v sz bio :
  tl_dec w = Ok (v, sz) -> run_one (read_tl_num bio) w = ODone (v, bio ++ firstn sz w) (skipn sz w).
Proof. exact (read_tl_num_dec w v sz bio). Qed.

(* tie to the source text of this run (T2/T1): the two coroutines translated from tlv_var.py and
   stream_face.py are the model's; the except clause lists IncompleteReadError and ConnectionResetError;
   the callback is spawned as a task per packet *)
Theorem C06_source_read_tl_num : Gen.read_tl_num_from_stream = read_tl_num.
Proof. exact gen_read_tl_num_eq. Qed.
Theorem C06_source_run_body : Gen.run_try_body = run_body.
Proof. exact gen_run_body_eq. Qed.
Theorem C06_source_run_except : run_cfg_gen = RunCfg true true /\ Gen.run_spawns_task = true /\ Gen.shutdown_clears_running = true.
Proof. exact (conj run_cfg_gen_eq (conj run_spawns_task shutdown_clears_running)). Qed.

(* UDP: one datagram = at most one callback carrying the datagram unchanged; never an exception *)
Theorem C06_datagram data :
  exists o, datagram_received Gen.udp_caught data = Ok o /\
            match o with
            | Some (typ, d) => d = data /\ exists sz, tl_dec data = Ok (typ, sz)
            | None => is_ok (tl_dec data) = false
            end.
Proof. exact (datagram_total Gen.udp_caught data (proj1 (proj2 udp_guard_ok)) (proj2 (proj2 udp_guard_ok))). Qed.
Print Assumptions C06_datagram.

(* ---- (B) reception never fails ----------------------------------------------------------------------------- *)
(* For every packet type and every byte string, nothing is raised by the part of _receive that precedes
   the handler call -- with the except tuples exactly as written in appv2.py / app.py on this run
   (Generated/ReceiveGen.v), for either reading of a Nack header without reason. *)
Theorem C06_classify_total_v2 nd typ data e : classify (cfg_v2 nd) typ data <> ARaise e.
Proof. exact (classify_total (cfg_v2 nd) (cfg_v2_ok nd) typ data e). Qed.
Theorem C06_classify_total_v1 nd typ data e : classify (cfg_v1 nd) typ data <> ARaise e.
Proof. exact (classify_total (cfg_v1 nd) (cfg_v1_ok nd) typ data e). Qed.
Print Assumptions C06_classify_total_v2.

Section Handlers.
  Variable state : Type.
  Variable on_interest : list bytes -> option bytes -> list value -> bytes -> state -> res state.
  Variable on_data : list bytes -> list value -> bytes -> state -> res state.
  Variable on_nack : list bytes -> N -> state -> res state.
  Hypothesis on_interest_total : forall n t vs raw s, exists s', on_interest n t vs raw s = Ok s'.
  Hypothesis on_data_total : forall n vs raw s, exists s', on_data n vs raw s = Ok s'.
  Hypothesis on_nack_total : forall n r s, exists s', on_nack n r s = Ok s'.

  (* _receive returns normally for every packet type, byte string and pipeline state *)
  Theorem C06_receive_total_v2 nd typ data s :
    exists s', receive state on_interest on_data on_nack (cfg_v2 nd) typ data s = Ok s'.
  Proof.
    exact (receive_total state on_interest on_data on_nack on_interest_total on_data_total on_nack_total
             (cfg_v2 nd) (cfg_v2_ok nd) typ data s).
  Qed.
  Theorem C06_receive_total_v1 nd typ data s :
    exists s', receive state on_interest on_data on_nack (cfg_v1 nd) typ data s = Ok s'.
  Proof.
    exact (receive_total state on_interest on_data on_nack on_interest_total on_data_total on_nack_total
             (cfg_v1 nd) (cfg_v1_ok nd) typ data s).
  Qed.

  (* end to end: whatever bytes a stream transport receives, in whatever pieces, every per-packet task it
     spawns returns normally (both front-ends; v2 shown) *)
  Theorem C06_stream_end_to_end nd chunks f' outs s :
    run_events run_cfg_gen face_init (map Feed chunks) = (f', outs) ->
    exists s', receive_all state on_interest on_data on_nack (cfg_v2 nd) (concat outs) s = Ok s'.
  Proof.
    exact (fun _ => receive_all_total state on_interest on_data on_nack on_interest_total on_data_total on_nack_total
                      (cfg_v2 nd) (cfg_v2_ok nd) (concat outs) s).
  Qed.

  (* a dropped packet leaves the pending-Interest and handler tables untouched (no hypothesis on the handlers) *)
  Theorem C06_frame cfg typ data site s :
    classify cfg typ data = ADrop site -> receive state on_interest on_data on_nack cfg typ data s = Ok s.
  Proof. exact (receive_frame state on_interest on_data on_nack cfg typ data site s). Qed.
End Handlers.

(* every packet its decoder refuses is dropped *)
Theorem C06_bad_packet_dropped nd typ data :
  typ <> TYPE_LP_PACKET ->
  (typ = TYPE_INTEREST -> is_ok (dec_interest data) = false) ->
  (typ = TYPE_DATA -> is_ok (dec_data data) = false) ->
  exists site, classify (cfg_v2 nd) typ data = ADrop site.
Proof. exact (bad_packet_dropped (cfg_v2 nd) typ data (cfg_v2_ok nd)). Qed.

(* handlers only ever see packets their decoder accepted *)
Theorem C06_handlers_see_parsed_only cfg typ data :
  match classify cfg typ data with
  | AInterest n t vs raw => dec_interest raw = Ok vs
  | AData n vs raw => dec_data raw = Ok vs
  | _ => True
  end.
Proof. exact (receive_calls_only_parsed cfg typ data). Qed.

(* the lookup of _on_nack (v2, and v1 with C03's c7d62ad) does not raise when nothing is pending under the
   name, nor when what is pending is still waiting *)
Theorem C06_on_nack_lookup_total name reason t :
  (forall entries, al_get name_eqb t name = Some entries -> existsb (fun d => d) entries = false) ->
  exists t', on_nack_lookup true name reason t = Ok t'.
Proof. exact (on_nack_lookup_total name reason t). Qed.
Print Assumptions C06_receive_total_v2.
Print Assumptions C06_frame.

(* ---- non-vacuity ----------------------------------------------------------------------------------------------- *)
(* two packets, the second with a 3-byte Length, cut inside the Type of the first and inside the Length
   number of the second *)
Example C06_framing_example :
  let p1 := (5, [5; 2; 7; 0]) in
  let p2 := (6, [6; 253; 0; 3; 7; 1; 8]) in
  Forall framed [p1; p2] /\
  run_events run_cfg_gen face_init (map Feed [[]; [5]; [2; 7; 0; 6; 253]; [0]; [3; 7; 1]; [8]])
    = (face_init, [[]; []; [p1]; []; []; [p2]]).
Proof.
  split.
  - repeat constructor.
    + exact (framed_intro 5 [5] [2] [7; 0] (varnum1 5 ltac:(lia)) (varnum1 2 ltac:(lia))).
    + exact (framed_intro 6 [6] [253; 0; 3] [7; 1; 8] (varnum1 6 ltac:(lia)) (varnum3 [0; 3] eq_refl)).
  - vm_compute. reflexivity.
Qed.

Example C06_truncated_example :
  partial_packet [6; 253; 0] /\
  run_events run_cfg_gen face_init (map Feed [[5; 2; 7]; [0; 6; 253; 0]] ++ [Eof])
    = (Face false CFinished [] true true, [[]; [(5, [5; 2; 7; 0])]; []]).
Proof.
  split.
  - exists 6, [3; 7; 1; 8]. split; [discriminate|].
    exact (framed_intro 6 [6] [253; 0; 3] [7; 1; 8] (varnum1 6 ltac:(lia)) (varnum3 [0; 3] eq_refl)).
  - vm_compute. reflexivity.
Qed.

(* an Interest /a inside an LpPacket with a PIT token reaches _on_interest with that token; an LpPacket
   without Fragment and a Data with one byte too many are dropped *)
Example C06_receive_example :
  (exists vs, classify (cfg_v2 None) 100 [100; 13; 98; 2; 1; 2; 80; 7; 5; 5; 7; 3; 8; 1; 97]
              = AInterest [[8; 1; 97]] (Some [1; 2]) vs [5; 5; 7; 3; 8; 1; 97]) /\
  classify (cfg_v2 None) 100 [100; 0] = ADrop 6 /\
  classify (cfg_v2 None) 6 [6; 5; 7; 3; 8; 1; 97; 0] = ADrop 4.
Proof. split; [eexists; vm_compute; reflexivity|split; vm_compute; reflexivity]. Qed.
