(* C16 — issued certificates are well-formed, correctly named and verifiable.
   Only statements, [exact]s and Print Assumptions live here.  [sign] (what the issuing signer writes for the bytes it
   is given) is an arbitrary function: every theorem holds for every signer and every signature length it produces.
   [legal a kn]: the key name normalises to the well-formed components kn, the issuer id is a well-formed component,
   the signer wrote a legal SignatureInfo, the datetimes are existing dates (Proofs/CertMain.v). *)
From NDN Require Import Base.Prelude Model.TlvVar Model.Name Model.Tlv Model.Packet Model.PacketEnc Model.Cert
  Spec.TlvWf Spec.SignedPortion Spec.CertSpec.
From NDN Require Import Proofs.TlvSplit Proofs.CertProofs Proofs.CertTime Proofs.CertMain.
From NDN Require Generated.Schemas Generated.ConstsCert.
Local Open Scope N_scope.

(* one Data element: shortest-form Type and Length around a value of exactly the declared length, the value being a
   sequence of well-formed elements -- whatever part of the reserved signature space stayed unused *)
Theorem C16_wellformed sign a m kn :
  new_cert sign a = Ok m -> legal a kn -> N.of_nat (length (m_wire m)) < two64 ->
  exists body els, m_wire m = tlv TYPE_DATA body /\ body = ser_els els /\ Forall el_ok els /\ split_wire body = Ok els /\
                   N.of_nat (length (m_wire m)) = N.of_nat (tl_size TYPE_DATA + tl_size (N.of_nat (length body)) + length body).
Proof. exact (new_cert_wellformed sign a m kn). Qed.
Print Assumptions C16_wellformed.

(* the hand-written outer TLV of new_cert: Type, the Length of (value minus the unused tail), and that part of the
   value, is the canonical element around the value without the tail *)
Theorem C16_outer_tlv v pad :
  N.of_nat (length v) < two64 -> assemble_outer (v ++ pad) (length pad) = Ok (tlv TYPE_DATA v).
Proof. exact (assemble_outer_ok v pad). Qed.

(* parse_certificate, and equally the strict reader of the format (every element inside its parent at every level,
   Spec/StrictTlv.v), returns: name = key name / issuer id / version(timestamp), MetaInfo (ContentType KEY, freshness),
   content = the key bits, SignatureInfo = what the signer wrote + ValidityPeriod holding the 15-octet UTC text of the
   two requested instants, SignatureValue = what the signer wrote.  t0/t1 are the UTC fields of the requested instants;
   the restriction to years >= 1000 is that of strftime('%Y') (no zero padding below) *)
Theorem C16_fields sign a m kn :
  new_cert sign a = Ok m -> legal a kn -> N.of_nat (length (m_wire m)) < two64 ->
  exists n t0 t1 sv,
    c_now a = Z.of_N n /\ m_final_name m = kn ++ [c_issuer a; comp_enc Generated.ConstsCert.TYPE_VERSION (nni_enc n)] /\
    to_utc (c_start a) = Ok t0 /\ to_utc (c_end a) = Ok t1 /\
    bdt_to_secs t0 = instant_of (c_start a) /\ bdt_to_secs t1 = instant_of (c_end a) /\
    valid_bdt t0 = true /\ valid_bdt t1 = true /\
    (match c_signer a with Some _ => sv = Some (sign (m_sig_covered m)) | None => sv = None end) /\
    (1000 <= t_year t0 -> 1000 <= t_year t1 ->
     dec_cert (m_wire m) = Ok (issued_values a kn n t0 t1 sv) /\
     strict_cert (m_wire m) = Ok (issued_values a kn n t0 t1 sv)).
Proof. exact (new_cert_fields sign a m kn). Qed.
Print Assumptions C16_fields.

(* those values satisfy the specification of an issued certificate (Spec/CertSpec.v): name shape, KEY, content,
   NotBefore/NotAfter denote the requested instants, SignatureType and KeyLocator are the signer's *)
Theorem C16_spec a kn n t0 t1 sv st kl x y z :
  written_of a = [st; kl; x; y; z] -> flat st -> flat kl ->
  valid_bdt t0 = true -> valid_bdt t1 = true -> 1000 <= t_year t0 -> 1000 <= t_year t1 ->
  bdt_to_secs t0 = instant_of (c_start a) -> bdt_to_secs t1 = instant_of (c_end a) ->
  cert_fields_ok (request_of a kn) (issued_values a kn n t0 t1 sv) = true /\
  signature_of (issued_values a kn n t0 t1 sv) = vbytes sv.
Proof. exact (issued_values_meet_spec a kn n t0 t1 sv st kl x y z). Qed.
Print Assumptions C16_spec.

(* the name that is returned and carried: key name, issuer id, a version component holding the timestamp *)
Theorem C16_name_shape a name :
  cert_name a = Ok name ->
  exists kn n, name_normalize (c_key_name a) = Ok kn /\ c_now a = Z.of_N n /\ n < two64 /\
               name = kn ++ [c_issuer a; comp_enc Generated.ConstsCert.TYPE_VERSION (nni_enc n)].
Proof. exact (cert_name_shape a name). Qed.

(* the validity text: strftime with the format strings of the source gives 15 octets YYYYMMDDTHHMMSS, and reading
   them back gives the broken-down instant *)
Theorem C16_validity_roundtrip t :
  valid_bdt t = true -> 1000 <= t_year t ->
  strftime Generated.ConstsCert.not_before_format t = Ok (validity_text t) /\
  strftime Generated.ConstsCert.not_after_format t = Ok (validity_text t) /\
  length (validity_text t) = 15%nat /\ parse_validity (validity_text t) = Some t.
Proof.
  exact (fun Hv Hy => conj (proj1 (strftime_validity t (valid_in_range t Hv Hy)))
                      (conj (proj2 (strftime_validity t (valid_in_range t Hv Hy)))
                      (conj (validity_text_length t) (parse_validity_text t Hv Hy)))).
Qed.
Print Assumptions C16_validity_roundtrip.

(* day counting: the datetime computed for an instant is an existing date and denotes that instant; so do the results
   of astimezone(UTC) and of adding a timedelta *)
Theorem C16_instant s t : secs_to_bdt s = Ok t -> bdt_to_secs t = s /\ valid_bdt t = true.
Proof. exact (secs_to_bdt_sound s t). Qed.
Theorem C16_to_utc a t : valid_bdt (a_fields a) = true -> to_utc a = Ok t -> bdt_to_secs t = instant_of a /\ valid_bdt t = true.
Proof. exact (to_utc_sound a t). Qed.
Print Assumptions C16_instant.

(* the signer is handed exactly Name .. SignatureInfo of the certificate that is returned *)
Theorem C16_signed_portion sign a m kn s :
  new_cert sign a = Ok m -> legal a kn -> c_signer a = Some s -> N.of_nat (length (m_wire m)) < two64 ->
  exists body, m_wire m = tlv TYPE_DATA body /\ signed_portion_data body = Some (m_sig_covered m).
Proof. exact (new_cert_signed sign a m kn s). Qed.
Print Assumptions C16_signed_portion.

(* "whose signature verifies under the issuing key": a verifier reads the signed portion and the SignatureValue off the
   certificate (strictly); for every verification function that accepts what the signer produces for a message --
   correctness of the signature scheme, a hypothesis; the real verify_* functions are exercised on every run -- it accepts *)
Theorem C16_verifies sign (verify : bytes -> bytes -> bool) a m kn s :
  (forall msg, verify msg (sign msg) = true) ->
  new_cert sign a = Ok m -> legal a kn -> c_signer a = Some s -> N.of_nat (length (m_wire m)) < two64 ->
  exists body vs msg sigv,
    m_wire m = tlv TYPE_DATA body /\ strict_cert (m_wire m) = Ok vs /\
    signed_portion_data body = Some msg /\ signature_of vs = VBytes sigv /\ verify msg sigv = true.
Proof. exact (new_cert_verifies sign verify a m kn s). Qed.
Print Assumptions C16_verifies.

(* signature lengths: never more than reserved; a reserved space of >= 253 octets must be filled *)
Theorem C16_sig_length sign a m s :
  new_cert sign a = Ok m -> c_signer a = Some s ->
  N.of_nat (length (sign (m_sig_covered m))) <= sg_reserved s /\
  (253 <= sg_reserved s -> N.of_nat (length (sign (m_sig_covered m))) = sg_reserved s).
Proof. exact (new_cert_sig_length sign a m s). Qed.

(* the three callers: new_cert with the issuer id / instants they stand for *)
Theorem C16_derive_cert sign key_name iss pub sg ts start e m :
  derive_cert sign key_name iss pub sg ts start e = Ok m ->
  exists ic a,
    issuer_comp iss = Ok ic /\ new_cert sign a = Ok m /\
    c_key_name a = key_name /\ c_issuer a = ic /\ c_now a = ts /\ c_pub a = pub /\ c_signer a = sg /\ c_start a = start /\
    instant_of (c_end a) = (instant_of start + e)%Z /\ valid_bdt (a_fields (c_end a)) = true.
Proof. exact (derive_cert_spec sign key_name iss pub sg ts start e m). Qed.

Theorem C16_self_sign sign key_name pub sg ts now m :
  valid_bdt now = true ->
  self_sign sign key_name pub sg ts now = Ok m ->
  exists e a,
    new_cert sign a = Ok m /\
    c_key_name a = key_name /\ c_issuer a = Generated.ConstsCert.SELF_COMPONENT /\ c_now a = ts /\ c_pub a = pub /\
    c_signer a = sg /\ instant_of (c_start a) = 0%Z /\ valid_bdt (a_fields (c_start a)) = true /\
    c_end a = utc e /\ valid_bdt e = true /\
    t_year e = t_year now + 20 /\ t_mon e = t_mon now /\ t_day e = t_day now /\ t_hour e = t_hour now /\
    t_min e = t_min now /\ t_sec e = t_sec now.
Proof. exact (self_sign_spec sign key_name pub sg ts now m). Qed.

Theorem C16_sign_req sign key_name pub sg ts now1 now2 m :
  sign_req sign key_name pub sg ts now1 now2 = Ok m ->
  exists a,
    new_cert sign a = Ok m /\
    c_key_name a = key_name /\ c_issuer a = Generated.ConstsCert.SIGN_REQ_COMPONENT /\ c_now a = ts /\ c_pub a = pub /\
    c_signer a = sg /\ c_start a = utc now2 /\
    instant_of (c_end a) = (bdt_to_secs now1 + 864000)%Z /\ valid_bdt (a_fields (c_end a)) = true.
Proof. exact (sign_req_spec sign key_name pub sg ts now1 now2 m). Qed.
Print Assumptions C16_derive_cert.

(* T1 layout obligations on the descriptors reflected from the source on this run *)
Theorem C16_layout :
  Generated.Schemas.security_v2_CertificateV2Value =
    [(TYPE_NAME, KName); (T_META_INFO, KModel Generated.Schemas.ndn_format_0_3_MetaInfo false); (T_CONTENT, KBytes false);
     (T_SIG_INFO, KModel Generated.Schemas.security_v2_CertificateV2SignatureInfo true); (T_SIG_VALUE, KBytes false)]
  /\ Generated.Schemas.security_v2_CertificateV2Value_layout = Generated.Schemas.ndn_format_0_3_DataPacketValue_layout.
Proof. exact cert_layout. Qed.

(* non-vacuity: /a/KEY/k issued by "ca" at 2024-02-29T23:59:59+08:00 for 20 years, a 70-octet signature in 72 reserved octets (the value is 253 octets long before and 251 after the unused two are cut:
   the Length shrinks from three octets to one);
   constant functions stand for the signature primitive *)
Definition C16_example_input : cert_in :=
  {| c_key_name := NSList [NCBytes (comp_enc 8 [97]); NCBytes (comp_enc 8 [75; 69; 89]); NCBytes (comp_enc 8 [107])];
     c_issuer := comp_enc 8 [99; 97]; c_now := 1790379136352%Z; c_pub := repeat 5 85;
     c_signer := Some {| sg_written := [VUint 3; VModel [VName [comp_enc 8 [105]]; VNone]; VNone; VNone; VNone]; sg_reserved := 72 |};
     c_start := {| a_fields := {| t_year := 2024; t_mon := 2; t_day := 29; t_hour := 23; t_min := 59; t_sec := 59 |};
                   a_offset := Some 28800%Z |};
     c_end := {| a_fields := {| t_year := 2044; t_mon := 2; t_day := 29; t_hour := 23; t_min := 59; t_sec := 59 |};
                 a_offset := Some 28800%Z |} |}.

Example C16_example :
  let a := C16_example_input in
  let kn := [comp_enc 8 [97]; comp_enc 8 [75; 69; 89]; comp_enc 8 [107]] in
  legal a kn /\
  exists m, new_cert (fun _ => repeat 7 70) a = Ok m /\ length (m_wire m) = 253%nat /\
            length (m_final_name m) = 5%nat /\
            to_utc (c_start a) = Ok {| t_year := 2024; t_mon := 2; t_day := 29; t_hour := 15; t_min := 59; t_sec := 59 |} /\
            is_ok (dec_cert (m_wire m)) = true.
Proof.
  cbv zeta. split.
  - constructor; try reflexivity.
    + repeat constructor; eexists; eexists; (split; [reflexivity|split; reflexivity]).
    + eexists; eexists; (split; [reflexivity|split; reflexivity]).
    + constructor. repeat constructor.
      * apply (fits_uint (Some 1) 3 1%nat); reflexivity.
      * eexists; eexists; (split; [reflexivity|split; reflexivity]).
  - eexists. split; [vm_compute; reflexivity|]. repeat split; vm_compute; reflexivity.
Qed.
