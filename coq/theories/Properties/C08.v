(* C08 — TLV models encode to exact, minimal TLV and decode back to equal values.
   Only statements, [exact]s and Print Assumptions live here. *)
From NDN Require Import Base.Prelude Model.TlvVar Model.Name Model.Tlv Spec.TlvWf.
From NDN Require Import Proofs.TlvVarProofs Proofs.TlvVarBridge Proofs.TlvSplit Proofs.TlvAssign Proofs.TlvRoundtrip2
  Proofs.TlvMore.
From NDN Require Import Model.TlvCollect Spec.TlvCollectSpec Proofs.TlvCollectProofs.
From NDN Require Generated.Schemas.
Local Open Scope N_scope.

(* the size announced by the first pass is the size produced by the second, for every model and value *)
Theorem C08_length_announced d fs vs w :
  encode_model d fs vs = Ok w -> encoded_length_model d fs vs = Ok (N.of_nat (length w)).
Proof. exact (encoded_length_exact d fs vs w). Qed.
Print Assumptions C08_length_announced.

(* the output is a sequence of well-formed elements, written with shortest-form Type/Length
   ([ser_els] uses [tl_enc]), and splitting it returns exactly those elements *)
Theorem C08_wellformed d fs vs w :
  wf_fields fs -> Forall2 (fun f v => fits (snd f) v) fs vs ->
  encode_model d fs vs = Ok w -> N.of_nat (length w) < two64 ->
  exists els, w = ser_els els /\ Forall el_ok els /\ split_wire w = Ok els.
Proof. exact (encode_wellformed d fs vs w). Qed.
Print Assumptions C08_wellformed.

(* [tl_enc] is the shortest form: any byte string that decodes to v is at least as long *)
Theorem C08_shortest_form w v n :
  wf_bytes w -> tl_dec w = Ok (v, n) ->
  (n <= length w)%nat /\ v < two64 /\ (tl_size v <= n)%nat /\ (1 <= n)%nat.
Proof. exact (tl_dec_inv w v n). Qed.
Theorem C08_shortest_form_len v : length (tl_enc v) = tl_size v.
Proof. exact (tl_enc_length v). Qed.

(* integers: smallest legal width unless fixed *)
Theorem C08_minimal_int d t n w :
  t < two64 -> enc_val (S d) t (KUint None) (VUint n) = Ok w ->
  w = tlv t (nni_enc n) /\
  forall k, (k = 1 \/ k = 2 \/ k = 4 \/ k = 8)%nat -> n < 256 ^ N.of_nat k -> (nni_width n <= k)%nat.
Proof. exact (enc_uint_minimal d t n w). Qed.
Print Assumptions C08_minimal_int.

(* decoding the encoding yields the same values: any nesting of integer, boolean, byte-string, text,
   name, sub-model, repeated and map fields, any number of fields, any sizes *)
Theorem C08_roundtrip d fs ic vs w :
  wf_fields fs -> Forall2 (fun f v => fits (snd f) v) fs vs ->
  encode_model d fs vs = Ok w -> N.of_nat (length w) < two64 ->
  parse_model d fs ic w = Ok vs.
Proof. exact (parse_encode_roundtrip d fs ic vs w). Qed.
Print Assumptions C08_roundtrip.

(* unrecognised non-critical elements are ignored wherever they are inserted (any level: the theorem is
   about the scan of one level, and every nested model is scanned by the same function) *)
Theorem C08_ignores_noncritical pv fs ic e0 :
  ~ In (e_type e0) (level_types fs) -> N.odd (e_type e0) = false ->
  forall a b st pos acc, st_ok fs st ->
  assign_with pv fs ic st pos (a ++ e0 :: b) acc = assign_with pv fs ic st pos (a ++ b) acc.
Proof. exact (assign_ignores_noncritical pv fs ic e0). Qed.
Print Assumptions C08_ignores_noncritical.

(* unrecognised critical elements are rejected; so are recognised critical ones that come again or out
   of order (after the scan position has passed every field of that Type) *)
Theorem C08_rejects_critical pv fs e0 :
  ~ In (e_type e0) (level_types fs) -> N.odd (e_type e0) = true ->
  forall a b st pos acc, st_ok fs st ->
  is_ok (assign_with pv fs false st pos (a ++ e0 :: b) acc) = false.
Proof. exact (assign_rejects_critical pv fs e0). Qed.
Print Assumptions C08_rejects_critical.

Theorem C08_rejects_out_of_order pv fs pos e r acc :
  N.odd (e_type e) = true ->
  (forall j k, nth_error fs j = Some (e_type e, k) -> (j < pos)%nat) ->
  assign_with pv fs false PNormal pos (e :: r) acc = Err EDecode.
Proof. exact (assign_rejects_out_of_order pv fs pos e r acc). Qed.
Print Assumptions C08_rejects_out_of_order.

(* T1 tie: every TlvModel class shipped with the library (reflected from the source on this run) is a
   well-formed descriptor, so the theorems above apply to it *)
Theorem C08_shipped_models_wf : Forall wf_fields Generated.Schemas.all_schemas.
Proof.
  exact (proj2 (Forall_forall _ _)
           (fun fs H => wf_fieldsb_spec fs (proj1 (forallb_forall _ _) Generated.Schemas.all_schemas_wf fs H))).
Qed.
Print Assumptions C08_shipped_models_wf.

(* T2 tie *)
Theorem C08_tie_write_tl_num (v : N) buf (off : nat) :
  (v < two64)%N -> (off + tl_size v <= length buf)%nat ->
  Generated.TlvVarGen.write_tl_num (Z.of_N v) buf (Z.of_nat off)
  = Ok (Z.of_nat (tl_size v), splice buf off (tl_enc v)).
Proof. exact (gen_write_eq v buf off). Qed.

(* "declared field order" under derivation (TlvModelMeta: IncludeBase, overriding): the collected field list of a
   class is what one gets by pasting the body of every included base (recursively) at the place of its
   IncludeBase and then keeping every name once -- at the place of its first declaration, with the field of its
   last declaration.  So no name is encoded twice, no declared name is lost, an override never moves a field,
   and nothing but this list meets the description. *)
Theorem C08_collect_is_pasting {A} (b : body A) : collect b = put_all (pasted b) [].
Proof. exact (collect_is_pasting b). Qed.
Print Assumptions C08_collect_is_pasting.

Theorem C08_collect_declared_order {A} (b : body A) :
  map fst (collect b) = firsts (map fst (pasted b)) /\
  forall n, al_get N.eqb (collect b) n = last_def n (pasted b).
Proof. exact (collect_meets_spec b). Qed.
Print Assumptions C08_collect_declared_order.

Theorem C08_collect_names_distinct {A} (b : body A) : NoDup (map fst (collect b)).
Proof. exact (collect_names_distinct b). Qed.
Print Assumptions C08_collect_names_distinct.

Theorem C08_collect_names_complete {A} (b : body A) n :
  In n (map fst (collect b)) <-> In n (map fst (pasted b)).
Proof. exact (collect_names_complete b n). Qed.
Print Assumptions C08_collect_names_complete.

Theorem C08_collect_unique {A} (l got1 got2 : list (N * A)) :
  collected_ok l got1 -> collected_ok l got2 -> got1 = got2.
Proof. exact (collected_ok_unique l got1 got2). Qed.
Print Assumptions C08_collect_unique.

(* non-vacuity (the diamond of the documentation, plus an override after the includes):
   A = [m1]; B1(A) = [A; m1:=2; m4]; B2(A) = [A; m1:=3; m5]; D(B1,B2) = [B2; B1; m5:=6]  ->  m1:=2, m5:=6, m4 *)
Example C08_collect_example :
  let a := BOwn 1 1 BNil in
  let b1 := BIncl a (BOwn 1 2 (BOwn 4 4 BNil)) in
  let b2 := BIncl a (BOwn 1 3 (BOwn 5 5 BNil)) in
  collect (BIncl b2 (BIncl b1 (BOwn 5 6 BNil))) = [(1, 2); (5, 6); (4, 4)].
Proof. vm_compute. reflexivity. Qed.

(* non-vacuity: a nested model with a repeated sub-model, a map and a text field *)
Example C08_example :
  let inner := [(1, KUint None); (7, KName)] in
  let fs := [(129, KRepeated (KModel inner false)); (133, KMap (KBytes true) 135 (KUint (Some 2))); (253, KBool)] in
  let vs := [VList [VModel [VUint 300; VNone]; VModel [VNone; VName [comp_enc 8 [97]]]];
             VMap [(VBytes [107], VUint 5); (VBytes [195; 182], VUint 65535)]; VTrue] in
  wf_fieldsb fs = true /\
  exists w, encode_model 4 fs vs = Ok w /\ parse_model 4 fs false w = Ok vs /\ length w = 32%nat.
Proof. split; [vm_compute; reflexivity|]. eexists. split; [vm_compute; reflexivity|]. vm_compute. split; reflexivity. Qed.
